(* Cedar values, strings, canonical sets and records. *)
From Coq Require Import ZArith List Bool String Ascii Lia.
Import ListNotations.
Local Open Scope Z_scope.

(* A Go string is a byte sequence; bytes are Z in [0,256). *)
Definition str := list Z.

Definition s_of (x : string) : str := List.map (fun a => Z.of_N (N_of_ascii a)) (list_ascii_of_string x).

Fixpoint str_eqb (a b : str) : bool :=
  match a, b with
  | [], [] => true
  | x :: a', y :: b' => (x =? y) && str_eqb a' b'
  | _, _ => false
  end.

(* bytewise lexicographic order: Go's < on strings *)
Fixpoint str_ltb (a b : str) : bool :=
  match a, b with
  | [], [] => false
  | [], _ :: _ => true
  | _ :: _, [] => false
  | x :: a', y :: b' => if x <? y then true else if y <? x then false else str_ltb a' b'
  end.

Lemma str_eqb_eq a b : str_eqb a b = true <-> a = b.
Proof.
  revert b; induction a as [|x a IH]; intros [|y b]; cbn; try (split; congruence).
  rewrite andb_true_iff, Z.eqb_eq, IH. split; [intros [-> ->]; auto | intros H; inversion H; auto].
Qed.

Lemma str_eqb_refl a : str_eqb a a = true.
Proof. apply str_eqb_eq; auto. Qed.

Lemma str_eqb_neq a b : str_eqb a b = false <-> a <> b.
Proof. rewrite <- str_eqb_eq. destruct (str_eqb a b); split; congruence. Qed.

Lemma str_ltb_irrefl a : str_ltb a a = false.
Proof. induction a as [|x a IH]; cbn; auto. rewrite Z.ltb_irrefl; auto. Qed.

Lemma str_ltb_trans a b c : str_ltb a b = true -> str_ltb b c = true -> str_ltb a c = true.
Proof.
  revert b c; induction a as [|x a IH]; intros [|y b] [|z c]; cbn; try congruence.
  destruct (x <? y) eqn:E1; destruct (y <? z) eqn:E2; destruct (y <? x) eqn:E3; destruct (z <? y) eqn:E4;
    destruct (x <? z) eqn:E5; destruct (z <? x) eqn:E6; try congruence;
    rewrite ?Z.ltb_lt, ?Z.ltb_ge in *; try lia.
  apply IH.
Qed.

Lemma str_ltb_total a b : str_ltb a b = false -> str_ltb b a = false -> a = b.
Proof.
  revert b; induction a as [|x a IH]; intros [|y b]; cbn; try congruence.
  destruct (x <? y) eqn:E1; destruct (y <? x) eqn:E2; try congruence.
  rewrite Z.ltb_ge in *. intros H1 H2. assert (x = y) by lia. subst. f_equal. apply IH; auto.
Qed.

Lemma str_ltb_asym a b : str_ltb a b = true -> str_ltb b a = false.
Proof.
  intros H. destruct (str_ltb b a) eqn:E; auto.
  pose proof (str_ltb_trans _ _ _ H E) as H1. rewrite str_ltb_irrefl in H1. discriminate.
Qed.

Definition uid := (str * str)%type.   (* entity type, id *)
Definition uid_eqb (a b : uid) : bool := str_eqb (fst a) (fst b) && str_eqb (snd a) (snd b).

Lemma uid_eqb_eq a b : uid_eqb a b = true <-> a = b.
Proof.
  destruct a as [t i], b as [t' i']; unfold uid_eqb; cbn.
  rewrite andb_true_iff, !str_eqb_eq. split; [intros [-> ->]; auto | intros H; inversion H; auto].
Qed.

Lemma uid_eqb_refl a : uid_eqb a a = true.
Proof. apply uid_eqb_eq; auto. Qed.

Inductive value :=
| VBool (b : bool)
| VLong (z : Z)
| VString (s : str)
| VEntity (ty id : str)
| VSet (l : list value)                 (* members, pairwise distinct w.r.t. veq *)
| VRecord (l : list (str * value))      (* strictly sorted by key *)
| VDecimal (z : Z)                      (* value * 10^4 *)
| VDatetime (z : Z)                     (* ms since epoch *)
| VDuration (z : Z)                     (* ms *)
| VIP (v6 : bool) (addr : Z) (prefix : Z).

Section ValueInd.
  Variable Pv : value -> Prop.
  Hypothesis HBool : forall b, Pv (VBool b).
  Hypothesis HLong : forall z, Pv (VLong z).
  Hypothesis HString : forall s, Pv (VString s).
  Hypothesis HEntity : forall t i, Pv (VEntity t i).
  Hypothesis HSet : forall l, Forall Pv l -> Pv (VSet l).
  Hypothesis HRecord : forall l, Forall (fun kv => Pv (snd kv)) l -> Pv (VRecord l).
  Hypothesis HDecimal : forall z, Pv (VDecimal z).
  Hypothesis HDatetime : forall z, Pv (VDatetime z).
  Hypothesis HDuration : forall z, Pv (VDuration z).
  Hypothesis HIP : forall b a p, Pv (VIP b a p).

  Fixpoint value_ind' (v : value) : Pv v :=
    match v with
    | VBool b => HBool b
    | VLong z => HLong z
    | VString s => HString s
    | VEntity t i => HEntity t i
    | VSet l => HSet l ((fix go (l : list value) : Forall Pv l :=
                           match l with [] => Forall_nil _ | x :: l' => Forall_cons _ (value_ind' x) (go l') end) l)
    | VRecord l => HRecord l ((fix go (l : list (str * value)) : Forall (fun kv => Pv (snd kv)) l :=
                           match l with [] => Forall_nil _ | x :: l' => Forall_cons _ (value_ind' (snd x)) (go l') end) l)
    | VDecimal z => HDecimal z
    | VDatetime z => HDatetime z
    | VDuration z => HDuration z
    | VIP b a p => HIP b a p
    end.
End ValueInd.

(* Cedar equality (Value.Equal).  Sets: same size and every member of the first occurs in the second
   (types.Set.Equal: len, hash, one-sided containment).  Records: pointwise on the sorted entry lists. *)
Fixpoint veq (a b : value) {struct a} : bool :=
  match a, b with
  | VBool x, VBool y => Bool.eqb x y
  | VLong x, VLong y => x =? y
  | VString x, VString y => str_eqb x y
  | VEntity t i, VEntity t' i' => str_eqb t t' && str_eqb i i'
  | VSet l1, VSet l2 =>
      (Nat.eqb (List.length l1) (List.length l2)) &&
      (fix all (l : list value) : bool :=
         match l with
         | [] => true
         | x :: l' => (fix ex (m : list value) : bool :=
                         match m with [] => false | y :: m' => veq x y || ex m' end) l2 && all l'
         end) l1
  | VRecord l1, VRecord l2 =>
      (fix go (l : list (str * value)) (m : list (str * value)) : bool :=
         match l, m with
         | [], [] => true
         | (k, x) :: l', (k', y) :: m' => str_eqb k k' && veq x y && go l' m'
         | _, _ => false
         end) l1 l2
  | VDecimal x, VDecimal y => x =? y
  | VDatetime x, VDatetime y => x =? y
  | VDuration x, VDuration y => x =? y
  | VIP f a p, VIP f' a' p' => Bool.eqb f f' && (a =? a') && (p =? p')
  | _, _ => false
  end.

Definition vmem (x : value) (l : list value) : bool := existsb (veq x) l.
Definition vsubset (l1 l2 : list value) : bool := forallb (fun x => vmem x l2) l1.

Fixpoint rec_eqb (l m : list (str * value)) : bool :=
  match l, m with
  | [], [] => true
  | (k, x) :: l', (k', y) :: m' => str_eqb k k' && veq x y && rec_eqb l' m'
  | _, _ => false
  end.

Lemma veq_set l1 l2 : veq (VSet l1) (VSet l2) = Nat.eqb (List.length l1) (List.length l2) && vsubset l1 l2.
Proof. reflexivity. Qed.

Lemma veq_record l1 l2 : veq (VRecord l1) (VRecord l2) = rec_eqb l1 l2.
Proof.
  cbn [veq]. revert l2; induction l1 as [|[k x] l1 IH]; intros [|[k' y] l2]; cbn; auto.
Qed.

(* ---- set construction: keep first occurrences (types.NewSet) ---- *)
Fixpoint dedup (l : list value) (acc : list value) : list value :=
  match l with
  | [] => rev acc
  | x :: l' => if vmem x acc then dedup l' acc else dedup l' (x :: acc)
  end.

Definition mk_set (l : list value) : value := VSet (dedup l []).

(* ---- records: association lists sorted by key, later binding wins (Go map assignment) ---- *)
Fixpoint rec_insert {A} (k : str) (v : A) (l : list (str * A)) : list (str * A) :=
  match l with
  | [] => [(k, v)]
  | (k', v') :: l' =>
      if str_ltb k k' then (k, v) :: l
      else if str_eqb k k' then (k, v) :: l'
      else (k', v') :: rec_insert k v l'
  end.

Definition rec_of_list {A} (kvs : list (str * A)) : list (str * A) :=
  fold_left (fun acc kv => rec_insert (fst kv) (snd kv) acc) kvs [].

Definition mk_record (kvs : list (str * value)) : value := VRecord (rec_of_list kvs).

Fixpoint rec_get {A} (k : str) (l : list (str * A)) : option A :=
  match l with
  | [] => None
  | (k', v) :: l' => if str_eqb k k' then Some v else rec_get k l'
  end.

(* ---- the ingredients of well-formedness (wf_value, Proofs/ValueProofs.v): sets duplicate-free, records sorted ---- *)
From Cedar Require Import Base.Int64.

Fixpoint keys_sorted {A} (l : list (str * A)) : bool :=
  match l with
  | [] => true
  | (k, _) :: l' => match l' with [] => true | (k', _) :: _ => str_ltb k k' && keys_sorted l' end
  end.

Fixpoint nodup_veq (l : list value) : bool :=
  match l with
  | [] => true
  | x :: l' => negb (vmem x l') && nodup_veq l'
  end.

Definition type_tag (v : value) : Z :=
  match v with
  | VBool _ => 0 | VLong _ => 1 | VString _ => 2 | VEntity _ _ => 3 | VSet _ => 4 | VRecord _ => 5
  | VDecimal _ => 6 | VDatetime _ => 7 | VDuration _ => 8 | VIP _ _ _ => 9
  end.
