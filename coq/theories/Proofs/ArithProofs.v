(* The checked int64 kernels of Generated/Kernels.v (translated from evalers.go) detect overflow exactly. *)
From Coq Require Import ZArith Lia Bool.
From Cedar Require Import Base.Int64 Generated.Tables Generated.Kernels.
Local Open Scope Z_scope.

Lemma wrap64_cases z : - two64 <= z < two64 ->
  wrap64 z = if z <? min64 then z + two64 else if z >? max64 then z - two64 else z.
Proof.
  intros H. unfold wrap64, min64, max64 in *.
  destruct (z <? - two63) eqn:E1; [|destruct (z >? two63 - 1) eqn:E2].
  - apply Z.ltb_lt in E1.
    replace (z + two63) with ((z + two63 + two64) + (-1) * two64) by lia.
    rewrite Z.mod_add by discriminate. rewrite Z.mod_small; unfold two64, two63 in *; lia.
  - apply Z.ltb_ge in E1. apply Z.gtb_lt in E2.
    replace (z + two63) with ((z + two63 - two64) + 1 * two64) by lia.
    rewrite Z.mod_add by discriminate. rewrite Z.mod_small; unfold two64, two63 in *; lia.
  - apply Z.ltb_ge in E1. rewrite Z.gtb_ltb in E2. apply Z.ltb_ge in E2.
    rewrite Z.mod_small; unfold two64, two63 in *; lia.
Qed.

(* bounds down to the numerals ([unf]) or only down to two63 ([unf63], where the argument is about a variable word size) *)
Ltac unf63 := unfold in64, min64, max64 in *.
Ltac unf := unf63; unfold two64, two63 in *.

(* Addition and subtraction share one overflow test: the wrapped sum moved in the direction of the summand.  The summand
   ranges up to 2^63 inclusive so that c = - b covers b = min64. *)
Lemma wrapped_sum_test a c : in64 a -> - two63 <= c <= two63 ->
  Bool.eqb (wrap64 (a + c) >? a) (c >? 0) = in64b (a + c).
Proof.
  intros Ha Hc. rewrite wrap64_cases by (unf; lia). unfold in64b.
  destruct (Z.ltb_spec (a + c) min64); [|destruct (Z.gtb_spec (a + c) max64)];
    destruct (Z.leb_spec min64 (a + c)), (Z.leb_spec (a + c) max64); try (unf; lia);
    match goal with |- context [?x >? a] => destruct (Z.gtb_spec x a) end; destruct (Z.gtb_spec c 0);
    try reflexivity; unf; lia.
Qed.

Theorem checked_add_spec a b : in64 a -> in64 b ->
  checkedAddI64 a b = (wrap64 (a + b), in64b (a + b)).
Proof.
  intros Ha Hb. unfold checkedAddI64. rewrite (wrapped_sum_test a b Ha) by (unf; lia).
  destruct (in64b (a + b)); reflexivity.
Qed.

Theorem checked_sub_spec a b : in64 a -> in64 b ->
  checkedSubI64 a b = (wrap64 (a - b), in64b (a - b)).
Proof.
  intros Ha Hb. unfold checkedSubI64.
  replace (b <? 0) with (- b >? 0) by (destruct (Z.gtb_spec (- b) 0), (Z.ltb_spec b 0); lia || reflexivity).
  change (a - b) with (a + - b). rewrite (wrapped_sum_test a (- b) Ha) by (unf; lia).
  destruct (in64b (a + - b)); reflexivity.
Qed.

Theorem checked_neg_spec a : in64 a ->
  checkedNegI64 a = (if in64b (- a) then wrap64 (- a) else 0, in64b (- a)).
Proof.
  intros Ha. unfold checkedNegI64.
  destruct (a =? -9223372036854775808) eqn:E.
  - apply Z.eqb_eq in E. subst. reflexivity.
  - apply Z.eqb_neq in E.
    replace (in64b (- a)) with true by (symmetry; apply in64b_spec; unf; lia). reflexivity.
Qed.

(* Multiplication: the sign test plus the division test are together exact. *)
Lemma mul_sign a b : a <> 0 -> b <> 0 -> (a * b <? 0) = negb (Bool.eqb (a <? 0) (b <? 0)).
Proof.
  intros Ha Hb. destruct (Z.ltb_spec a 0), (Z.ltb_spec b 0), (Z.ltb_spec (a * b) 0); try reflexivity; nia.
Qed.

(* truncated division by anything but 0 and -1 stays within a two's-complement range *)
Lemma quot_range t r a : - t <= r < t -> a <> 0 -> a <> -1 -> - t <= Z.quot r a < t.
Proof.
  intros Hr Ha Ha1. destruct (Z.eq_dec a 1) as [->|Ha2]; [rewrite Z.quot_1_r; exact Hr|].
  (* |a| >= 2 and |a| * |r / a| <= |r| <= t *)
  pose proof (Z.quot_rem (Z.abs r) (Z.abs a) ltac:(lia)) as E. rewrite (Z.quot_abs r a Ha) in E.
  pose proof (Z.rem_nonneg (Z.abs r) (Z.abs a) ltac:(lia) ltac:(lia)).
  assert (2 * Z.abs (Z.quot r a) <= Z.abs r) by nia. lia.
Qed.

(* a remainder modulo a word-sized a is no multiple of the word size *)
Lemma rem_no_wrap t a r k : - t <= a <= t -> a <> 0 -> Z.rem r a = k * (2 * t) -> k = 0.
Proof. intros Ha Ha0 E. pose proof (Z.rem_bound_abs r a Ha0). nia. Qed.

Theorem checked_mul_spec a b : in64 a -> in64 b ->
  snd (checkedMulI64 a b) = in64b (a * b) /\
  (in64b (a * b) = true -> fst (checkedMulI64 a b) = a * b).
Proof.
  intros Ha Hb. unfold checkedMulI64.
  destruct (Z.eqb_spec a 0) as [->|Ea0]; [split; reflexivity|].
  destruct (Z.eqb_spec b 0) as [->|Eb0]; [rewrite Z.mul_0_r; split; reflexivity|].
  cbn [orb]. set (r := wrap64 (a * b)).
  destruct (in64b (a * b)) eqn:Ein.
  - (* in range: the result is exact and both tests pass *)
    apply in64b_spec in Ein. assert (Hr : r = a * b) by (apply wrap64_id; exact Ein).
    rewrite Hr, (mul_sign a b Ea0 Eb0), eqb_reflx.
    unfold goquot. rewrite (Z.mul_comm a b), (Z.quot_mul b a Ea0), (wrap64_id b Hb), Z.eqb_refl.
    split; reflexivity.
  - (* out of range: r = a * b + k * 2^64 with k <> 0.  Were r quot a = b, the remainder would be k * 2^64, which |a| <= 2^63
       rules out; and quot does not wrap unless a = -1, when the sign test fails *)
    split; [|discriminate]. apply in64b_false in Ein.
    destruct (negb (Bool.eqb (r <? 0) (negb (Bool.eqb (a <? 0) (b <? 0))))) eqn:Es; [reflexivity|].
    destruct (Z.eq_dec a (-1)) as [->|Ham1].
    { assert (b = min64) by (unf63; lia). subst b r. discriminate Es. }
    destruct (Z.eqb_spec (goquot r a) b) as [Eq|]; [exfalso|reflexivity].
    destruct (wrap64_eq (a * b)) as [k Hk]. fold r in Hk.
    pose proof (wrap64_in (a * b)) as Hrin. fold r in Hrin.
    unfold goquot in Eq.
    rewrite wrap64_id in Eq by (pose proof (quot_range two63 r a) as Q; unf63; lia).
    pose proof (Z.quot_rem r a Ea0) as Hqr. rewrite Eq in Hqr.
    assert (k = 0) by (apply (rem_no_wrap two63 a r); [unf63; lia | exact Ea0 | change (2 * two63) with two64; lia]).
    subst k. apply Ein. rewrite Z.add_0_r in Hk. rewrite <- Hk. exact Hrin.
Qed.

Theorem checked_mul_result a b : in64 a -> in64 b ->
  checkedMulI64 a b = (fst (checkedMulI64 a b), in64b (a * b)).
Proof.
  intros Ha Hb. destruct (checked_mul_spec a b Ha Hb) as [H _].
  destruct (checkedMulI64 a b); cbn in *; congruence.
Qed.

(* Duration.ToDays: a truncated division by a constant, which cannot overflow *)
Theorem duration_to_days d : in64 d -> Duration_ToDays d = Z.quot d 86400000.
Proof.
  intros H. unfold Duration_ToDays, goquot. change MillisPerDay with 86400000.
  apply wrap64_id. pose proof (Z.quot_rem d 86400000 ltac:(discriminate)).
  pose proof (Z.rem_bound_abs d 86400000 ltac:(discriminate)). unf. lia.
Qed.
