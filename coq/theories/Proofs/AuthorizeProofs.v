From Coq Require Import List Bool Permutation.
Import ListNotations.
From Cedar Require Import Impl.Authorize.

Lemma existsb_filter {A} (f : A -> bool) l :
  existsb f l = match filter f l with [] => false | _ :: _ => true end.
Proof. induction l as [|a l IH]; cbn; [reflexivity|]. destruct (f a); [reflexivity | exact IH]. Qed.

Lemma filter_perm {A} (f : A -> bool) l1 l2 : Permutation l1 l2 -> Permutation (filter f l1) (filter f l2).
Proof.
  induction 1; cbn; auto.
  - destruct (f x); auto.
  - destruct (f x), (f y); auto. apply perm_swap.
  - eapply perm_trans; eauto.
Qed.

Lemma existsb_perm {A} (f : A -> bool) l1 l2 : Permutation l1 l2 -> existsb f l1 = existsb f l2.
Proof.
  induction 1; cbn; auto.
  - rewrite IHPermutation; auto.
  - destruct (f x), (f y); auto.
  - congruence.
Qed.

Section Proofs.
  Variable P : Type.
  Variable eff : P -> effect.
  Variable ev : P -> outcome.

  Notation step := (step P eff ev).
  Notation loop := (loop P eff ev).
  Notation authorize := (authorize P eff ev).
  Notation sat_forbid := (sat_forbid P eff ev).
  Notation sat_permit := (sat_permit P eff ev).
  Notation is_err := (is_err P ev).

  Lemma fold_step_filters ps a :
    let r := fold_left step ps a in
    forbids r = forbids a ++ filter sat_forbid ps /\
    permits r = permits a ++ filter sat_permit ps /\
    errors r = errors a ++ filter is_err ps.
  Proof.
    revert a; induction ps as [|p ps IH]; intros a; cbn [fold_left filter].
    - rewrite !app_nil_r; auto.
    - destruct (IH (step a p)) as (Hf & Hp & He).
      cbv zeta in *. rewrite Hf, Hp, He. clear IH Hf Hp He.
      unfold step, Authorize.sat_forbid, Authorize.sat_permit, Authorize.is_err,
        is_sat, is_forbid, is_permit.
      destruct (ev p); destruct (eff p); cbn; rewrite <- ?app_assoc; cbn; auto.
  Qed.

  Lemma loop_filters ps :
    forbids (loop ps) = filter sat_forbid ps /\
    permits (loop ps) = filter sat_permit ps /\
    errors (loop ps) = filter is_err ps.
  Proof. apply (fold_step_filters ps {| forbids := []; permits := []; errors := [] |}). Qed.

  Lemma authorize_eq ps :
    authorize ps =
    {| dec := if existsb sat_forbid ps then Deny else if existsb sat_permit ps then Allow else Deny;
       reasons := if existsb sat_forbid ps then filter sat_forbid ps else filter sat_permit ps;
       errs := filter is_err ps |}.
  Proof.
    unfold Authorize.authorize. destruct (loop_filters ps) as (-> & -> & ->). rewrite !existsb_filter.
    destruct (filter sat_forbid ps); [destruct (filter sat_permit ps)|]; reflexivity.
  Qed.

  Lemma sat_forbid_iff p : sat_forbid p = true <-> eff p = Forbid /\ ev p = OTrue.
  Proof.
    unfold Authorize.sat_forbid, is_sat, is_forbid. split.
    - destruct (ev p), (eff p); (discriminate || auto).
    - intros [-> ->]. reflexivity.
  Qed.

  Lemma sat_permit_iff p : sat_permit p = true <-> eff p = Permit /\ ev p = OTrue.
  Proof.
    unfold Authorize.sat_permit, is_sat, is_permit. split.
    - destruct (ev p), (eff p); (discriminate || auto).
    - intros [-> ->]. reflexivity.
  Qed.

  Theorem decision_spec ps :
    dec (authorize ps) = Allow <->
    (exists p, In p ps /\ eff p = Permit /\ ev p = OTrue) /\
    ~ (exists p, In p ps /\ eff p = Forbid /\ ev p = OTrue).
  Proof.
    rewrite authorize_eq. cbn [dec].
    setoid_rewrite <- sat_permit_iff. setoid_rewrite <- sat_forbid_iff. rewrite <- !existsb_exists.
    destruct (existsb sat_forbid ps), (existsb sat_permit ps); intuition discriminate.
  Qed.

  (* `filter` keeps the order of ps: the reasons come in iteration order *)
  Theorem reasons_spec ps :
    reasons (authorize ps) =
      if existsb sat_forbid ps then filter sat_forbid ps else filter sat_permit ps.
  Proof. rewrite authorize_eq. reflexivity. Qed.

  Theorem errors_spec ps : errs (authorize ps) = filter is_err ps.
  Proof. rewrite authorize_eq. reflexivity. Qed.

  (* The order in which the iterator yields the policies (Go map order, insertion order) is irrelevant. *)
  Theorem authorize_order_irrelevant ps1 ps2 :
    Permutation ps1 ps2 ->
    dec (authorize ps1) = dec (authorize ps2) /\
    Permutation (reasons (authorize ps1)) (reasons (authorize ps2)) /\
    Permutation (errs (authorize ps1)) (errs (authorize ps2)).
  Proof.
    intros HP. rewrite !authorize_eq. cbn [dec reasons errs].
    rewrite (existsb_perm sat_forbid _ _ HP), (existsb_perm sat_permit _ _ HP).
    split; [reflexivity|]. split; [destruct (existsb sat_forbid ps2)|]; apply filter_perm, HP.
  Qed.

  Corollary default_deny : dec (authorize []) = Deny /\ reasons (authorize []) = [] /\ errs (authorize []) = [].
  Proof. cbn; auto. Qed.
End Proofs.
