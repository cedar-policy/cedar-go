(* x/exp/batch (Impl/Batch.v): the batch authorizer delivers exactly the brute-force results.

   Structure of the proof.
   1. [do_batch_run]: do_batch is a sequential [run] (budget / cancellation logic) over the list [leaves] of leaf
      computations, in order.  Pure structure, no partial evaluation involved.
   2. [clone_sub_subst]: cloneSub is [subst_val (single k v)]; [subst_env_compose]: binding one more variable and
      then substituting the rest = substituting all at once.  [brute] substitutes all variables at once; [do_batch]
      substitutes them one at a time, and [clone_sub] rebuilds every set with [mk_set] after each single
      substitution.  For a set this is
           mk_set (map f (members (mk_set (map g l))))     versus     mk_set (map (f o g) l).
      In the model [mk_set l = VSet (dedup l [])] keeps the FIRST occurrence of every [veq]-class, in list order (the
      Go NewSet also keeps the first inserted representative of a class; the slot layout of the hash table is not
      part of [value]).  So the two sides are LITERALLY equal as soon as f maps veq values to veq values
      ([dd_map_dd] / [mk_set_map_dedup]): an element dropped by the inner dedup is veq to an earlier one, hence its
      image is veq to an earlier image and would be dropped by the outer dedup anyway.  Substitution respects veq on
      well-formed values ([subst_veq]), which gives [subst_compose_full]: no "up to veq" weakening is needed, the
      [br_request] components are equal on the nose.
   3. [do_partial_clean]: residual policies satisfy [policy_clean] again (Proofs/PartialProofs.v,
      [partial_policy_clean]: literals embedded in a residual are marker-free and well-formed, record keys stay
      distinct), so the soundness theorem of PartialProofs applies at every level.
   4. [final_authz_do_partial]: the authorizer only looks at which policies are satisfied; replacing policies by
      residuals with the same [sat] and dropping unsatisfied ones changes neither the decision nor the reason ids.
   5. [leaves_brute]: induction on the variable list; then the theorems of Section Brute are facts about [run].

   Hypotheses of Section Brute: store clean; every request part well-formed and without ignore marker ([Q2]; unknowns
   may occur anywhere, also below set members); every policy [policy_clean]; every candidate value [val_ok].  NOT
   needed: distinct variable names (the first binding wins on both sides), every marker bound.
   [fix_ignores en = en] without ignore markers ([fix_ignores_id]).
   [batch_hyps vars en ps] asks in addition that no unknown occurs INSIDE A SET ([tmpl_ok]): the theorems under it
   are instances; Proofs/BatchSets.v states the general ones under [batch_hyps']. *)
From Coq Require Import ZArith List Bool Lia Arith String.
Import ListNotations.
From Cedar Require Import Base.Int64 Lang.Value Lang.Expr Impl.Like Impl.InSearch Impl.Eval Impl.Partial
  Impl.Authorize Impl.Batch Proofs.ValueProofs Proofs.AuthorizeProofs Proofs.PartialProofs.

(* all substitutions of the Cartesian product, in the order do_batch enumerates them: first variable outermost *)
Fixpoint product (vars : list (str * list value)) : list (list (str * value)) :=
  match vars with
  | [] => [[]]
  | (k, vals) :: vars' => flat_map (fun v => map (fun rest => (k, v) :: rest) (product vars')) vals
  end.

Definition sigma_of (b : list (str * value)) : sigma := fun k => rec_get k b.      (* first binding wins *)

(* brute force: the ordinary authorizer on the ORIGINAL policies under the substituted environment *)
Definition brute (en : env) (ps : list (str * policy)) (b : list (str * value)) : option bresult :=
  final_authz (subst_env (sigma_of b) en) b ps.


(* the leaf computations, in order (pure) *)
Fixpoint leaves (vars : list (str * list value)) (en : env) (values : list (str * value)) (ps : list (str * policy))
  {struct vars} : list (option bresult) :=
  match vars with
  | [] => [final_authz en values ps]
  | (key, vals) :: vars' =>
      let ps' := do_partial en ps in
      let en1 := match vars' with [] => fix_ignores en | _ => en end in
      flat_map (fun v => leaves vars' (sub_env en1 key v) (values ++ [(key, v)]) ps') vals
  end.

Definition budget_zero (b : option nat) : bool := match b with Some O => true | _ => false end.

(* delivering the leaves one after the other under a budget *)
Fixpoint run (cancel : bool) (l : list (option bresult)) (budget : option nat) : list bresult * option nat * bstatus :=
  match l with
  | [] => ([], budget, BOk)
  | o :: l' =>
      if cancel && budget_zero budget then ([], budget, BCancelled) else
      match o with
      | None => ([], budget, BInvalidPart)
      | Some r =>
          match budget with
          | Some O => ([r], budget, BCallbackFailed)
          | Some (S b) => let '(rs, b', st) := run cancel l' (Some b) in (r :: rs, b', st)
          | None => let '(rs, b', st) := run cancel l' None in (r :: rs, b', st)
          end
      end
  end.

Definition seq_run (x : list bresult * option nat * bstatus) (f : option nat -> list bresult * option nat * bstatus) :=
  let '(rs, b, st) := x in
  match st with
  | BOk => let '(rs2, b2, st2) := f b in (rs ++ rs2, b2, st2)
  | _ => (rs, b, st)
  end.

Lemma run_app cancel l1 l2 budget :
  run cancel (l1 ++ l2) budget = seq_run (run cancel l1 budget) (run cancel l2).
Proof.
  revert budget. induction l1 as [|o l1 IH]; intros budget.
  - cbn [app run seq_run]. destruct (run cancel l2 budget) as [[rs b] st]. reflexivity.
  - cbn [app run]. destruct (cancel && budget_zero budget); [reflexivity|].
    destruct o as [r|]; [|reflexivity].
    destruct budget as [[|b]|]; [reflexivity| |].
    + rewrite IH. destruct (run cancel l1 (Some b)) as [[rs b'] st]. cbn [seq_run].
      destruct st; try reflexivity. destruct (run cancel l2 b') as [[rs2 b2] st2]. reflexivity.
    + rewrite IH. destruct (run cancel l1 None) as [[rs b'] st]. cbn [seq_run].
      destruct st; try reflexivity. destruct (run cancel l2 b') as [[rs2 b2] st2]. reflexivity.
Qed.

Definition vals_nonempty (vars : list (str * list value)) : Prop := Forall (fun kv => snd kv <> []) vars.

Lemma leaves_nonempty vars : vals_nonempty vars -> forall en values ps, leaves vars en values ps <> [].
Proof.
  induction 1 as [|[key vals] vars Hv _ IH]; intros en values ps; cbn [leaves]; [discriminate|].
  cbn [snd] in Hv. destruct vals as [|v vals]; [congruence|]. cbn [flat_map].
  intros H. apply app_eq_nil in H. destruct H as [H _]. eapply IH. exact H.
Qed.

Lemma run_cancelled l budget : l <> [] -> budget_zero budget = true -> run true l budget = ([], budget, BCancelled).
Proof. destruct l as [|o l]; [congruence|]. intros _ H. cbn [run andb]. rewrite H. reflexivity. Qed.

Lemma do_batch_run cancel : forall vars en values ps budget,
  cancel = false \/ vals_nonempty vars ->
  do_batch cancel vars en values ps budget = run cancel (leaves vars en values ps) budget.
Proof.
  induction vars as [|[key vals] vars IH]; intros en values ps budget Hc.
  - cbn [do_batch leaves run]. fold (budget_zero budget).
    destruct (cancel && budget_zero budget); [reflexivity|].
    destruct (final_authz en values ps) as [r|]; [|reflexivity].
    destruct budget as [[|b]|]; reflexivity.
  - cbn [do_batch leaves]. fold (budget_zero budget).
    assert (Hc' : cancel = false \/ vals_nonempty vars).
    { destruct Hc as [Hc|Hc]; [left; exact Hc | right; inversion Hc; assumption]. }
    destruct (cancel && budget_zero budget) eqn:Ecz.
    + apply andb_true_iff in Ecz. destruct Ecz as [-> Ez]. symmetry. apply run_cancelled; [|exact Ez].
      destruct Hc as [Hc|Hc]; [discriminate|].
      apply (leaves_nonempty ((key, vals) :: vars) Hc en values ps).
    + clear Ecz Hc. set (ps' := do_partial en ps). set (en1 := match vars with [] => fix_ignores en | _ => en end).
      clearbody ps' en1. revert budget. induction vals as [|v vals IHv]; intros budget.
      * reflexivity.
      * cbn [flat_map]. rewrite run_app, <- (IH _ _ _ _ Hc').
        destruct (do_batch cancel vars (sub_env en1 key v) (values ++ [(key, v)]) ps' budget) as [[rs b'] st].
        cbn [seq_run]. destruct st; try reflexivity. rewrite <- IHv. reflexivity.
Qed.

Lemma run_unbounded : forall l, exists rs st, run false l None = (rs, None, st) /\
  ((st = BOk /\ map Some rs = l) \/ (st = BInvalidPart /\ In None l)).
Proof.
  induction l as [|o l IH].
  - exists [], BOk. split; [reflexivity|]. left. split; reflexivity.
  - cbn [run andb]. destruct o as [r|].
    + destruct IH as (rs & st & -> & H). exists (r :: rs), st. split; [reflexivity|].
      destruct H as [[-> H]|[-> H]]; [left | right]; split; auto; cbn; [congruence | auto].
    + exists [], BInvalidPart. split; [reflexivity|]. right. split; [reflexivity | left; reflexivity].
Qed.

Lemma run_all_some cancel full : run cancel (map Some full) None = (full, None, BOk).
Proof.
  induction full as [|r full IH]; [reflexivity|]. cbn [map run budget_zero]. rewrite andb_false_r, IH. reflexivity.
Qed.

Lemma run_fail full : forall k, (k < List.length full)%nat ->
  run false (map Some full) (Some k) = (firstn (S k) full, Some O, BCallbackFailed).
Proof.
  induction full as [|r full IH]; intros k Hk; cbn [List.length] in Hk; [lia|].
  cbn [map run andb]. destruct k as [|k].
  - reflexivity.
  - rewrite IH by lia. reflexivity.
Qed.

Lemma run_cancel full : forall k, (k < List.length full)%nat ->
  run true (map Some full) (Some k) = (firstn k full, Some O, BCancelled).
Proof.
  induction full as [|r full IH]; intros k Hk; cbn [List.length] in Hk; [lia|].
  cbn [map run andb budget_zero]. destruct k as [|k].
  - reflexivity.
  - rewrite IH by lia. reflexivity.
Qed.

Lemma run_cancel_all full : run true (map Some full) (Some (List.length full)) = (full, Some O, BOk).
Proof.
  induction full as [|r full IH]; [reflexivity|].
  cbn [map run andb budget_zero List.length]. rewrite IH. reflexivity.
Qed.


Definition single (k : str) (v : value) : sigma := fun i => if str_eqb i k then Some v else None.
Definition cons_sigma (k : str) (v : value) (s : sigma) : sigma := fun i => if str_eqb i k then Some v else s i.

Lemma sigma_of_cons k v b : sigma_of ((k, v) :: b) = cons_sigma k v (sigma_of b).
Proof. reflexivity. Qed.

Lemma clone_sub_subst k v : forall r, clone_sub r k v = subst_val (single k v) r.
Proof.
  apply (value_ind' (fun r => clone_sub r k v = subst_val (single k v) r)); try (intros; reflexivity).
  - intros t i. cbn [clone_sub subst_val]. unfold single.
    destruct (str_eqb t variable_type), (str_eqb i k); reflexivity.
  - intros l IH. cbn [clone_sub subst_val]. f_equal.
    induction IH as [|x l Hx _ IHl]; [reflexivity|]. cbn [map]. rewrite <- Hx, <- IHl. reflexivity.
  - intros l IH. cbn [clone_sub subst_val]. f_equal.
    induction IH as [|[kk x] l Hx _ IHl]; [reflexivity|]. cbn [map fst snd] in *. rewrite <- Hx, <- IHl. reflexivity.
Qed.

Lemma sub_env_subst en k v : sub_env en k v = subst_env (single k v) en.
Proof. unfold sub_env, subst_env. rewrite !clone_sub_subst. reflexivity. Qed.

Definition sigma_ok (s : sigma) : Prop := forall i w, s i = Some w -> val_ok w.

Lemma single_ok k v : val_ok v -> sigma_ok (single k v).
Proof. intros Hv i w. unfold single. destruct (str_eqb i k); [|discriminate]. intros H; inversion H; subst; exact Hv. Qed.

Lemma subst_val_none : forall v, wf_value v = true -> subst_val (fun _ => None) v = v.
Proof.
  apply (value_ind' (fun v => wf_value v = true -> subst_val (fun _ => None) v = v)); try (intros; reflexivity).
  - intros t i _. cbn [subst_val]. destruct (str_eqb t variable_type); reflexivity.
  - intros l IH Hw. cbn [subst_val]. pose proof (wf_set_inv _ Hw) as [_ Hm].
    rewrite (map_ext_Forall _ id), map_id; [apply mk_set_wf_id; exact Hw|]. rewrite Forall_forall in *. auto.
  - intros l IH Hw. cbn [subst_val]. f_equal. pose proof (wf_rec_inv _ Hw) as [_ Hm].
    rewrite <- (map_id l) at 2. apply map_ext_Forall. rewrite Forall_forall in *. intros [k x] Hx. cbn [fst snd id]. f_equal.
    exact (IH (k, x) Hx (Hm (k, x) Hx)).
Qed.


(* the members kept by dedup, without the accumulator prefix *)
Fixpoint dd (l acc : list value) : list value :=
  match l with
  | [] => []
  | x :: l' => if vmem x acc then dd l' acc else x :: dd l' (x :: acc)
  end.

Lemma dedup_dd : forall l acc, dedup l acc = rev acc ++ dd l acc.
Proof.
  induction l as [|x l IH]; intros acc; cbn [dedup dd].
  - rewrite app_nil_r. reflexivity.
  - destruct (vmem x acc); rewrite IH; [reflexivity|]. cbn [rev]. rewrite <- app_assoc. reflexivity.
Qed.

Lemma dedup_nil_dd l : dedup l [] = dd l [].
Proof. rewrite dedup_dd. reflexivity. Qed.

Section DedupMap.
  Variable f : value -> value.
  Variable P : value -> Prop.
  Hypothesis f_veq : forall x a, P x -> P a -> veq x a = true -> veq (f x) (f a) = true.

  Lemma dd_map_dd : forall l A B, Forall P l -> Forall P A ->
    (forall a, In a A -> vmem (f a) B = true) ->
    dd (map f (dd l A)) B = dd (map f l) B.
  Proof.
    induction l as [|x l IH]; intros A B Hl HA Hinv; [reflexivity|].
    inversion Hl as [|? ? Hx Hl']; subst. cbn [dd map].
    destruct (vmem x A) eqn:ExA.
    - apply vmem_true_iff in ExA. destruct ExA as (a & Ha & Rxa).
      assert (Hfx : vmem (f x) B = true).
      { pose proof (Hinv a Ha) as Hb. apply vmem_true_iff in Hb. destruct Hb as (b & Hb & Rab).
        apply vmem_true_iff. exists b. split; [exact Hb|].
        eapply veq_trans_nowf; [|exact Rab]. apply f_veq; auto. rewrite Forall_forall in HA. auto. }
      rewrite Hfx. apply IH; auto.
    - cbn [map dd]. destruct (vmem (f x) B) eqn:EfB.
      + apply IH; auto. intros a [<-|Ha]; auto.
      + f_equal. apply IH; auto. intros a [<-|Ha].
        * rewrite vmem_cons, veq_refl. reflexivity.
        * rewrite vmem_cons, (Hinv a Ha). apply orb_true_r.
  Qed.

  Lemma mk_set_map_dedup l : Forall P l -> mk_set (map f (dedup l [])) = mk_set (map f l).
  Proof.
    intros Hl. unfold mk_set. rewrite !dedup_nil_dd. apply (f_equal VSet).
    apply dd_map_dd; auto; try (intros a []).
  Qed.
End DedupMap.


Lemma val_ok_wf v : val_ok v -> wf_value v = true.
Proof. intros [_ H]. exact H. Qed.

Lemma subst_wf s : sigma_ok s -> forall v, wf_value v = true -> wf_value (subst_val s v) = true.
Proof.
  intros Hs. apply (value_ind' (fun v => wf_value v = true -> wf_value (subst_val s v) = true)); try (intros; assumption).
  - intros t i _. cbn [subst_val]. destruct (str_eqb t variable_type); [|reflexivity].
    destruct (s i) as [w|] eqn:E; [|reflexivity]. apply val_ok_wf. eapply Hs. exact E.
  - intros l IH Hw. cbn [subst_val]. apply mk_set_wf. apply wf_set_inv in Hw. destruct Hw as [_ Hw].
    rewrite Forall_forall in *. intros y Hy. apply in_map_iff in Hy. destruct Hy as (x & <- & Hx). auto.
  - intros l IH Hw. cbn [subst_val]. apply wf_rec_inv in Hw. destruct Hw as [Hk Hw].
    rewrite wf_value_record. apply andb_true_iff. split.
    + rewrite <- Hk. apply keys_sorted_ext. rewrite map_map. cbn [fst]. reflexivity.
    + apply forallb_forall. intros kv Hkv. apply in_map_iff in Hkv. destruct Hkv as (kv0 & <- & Hkv0).
      cbn [snd]. rewrite Forall_forall in *. apply IH; auto.
Qed.

Lemma subst_noign s : sigma_ok s -> forall v, has_marker is_ignore v = false -> has_marker is_ignore (subst_val s v) = false.
Proof.
  intros Hs. apply (value_ind' (fun v => has_marker is_ignore v = false -> has_marker is_ignore (subst_val s v) = false));
    try (intros; assumption).
  - intros t i H. cbn [subst_val]. destruct (str_eqb t variable_type); [|exact H].
    destruct (s i) as [w|] eqn:E; [|exact H]. destruct (Hs i w E) as [Hm _]. apply marker_free_inv in Hm. tauto.
  - intros l IH H. cbn [subst_val]. apply (h_mkset _ (hered_nm is_ignore)).
    rewrite has_marker_set, existsb_false_Forall in H.
    rewrite Forall_forall in *. intros y Hy. apply in_map_iff in Hy. destruct Hy as (x & <- & Hx). auto.
  - intros l IH H. cbn [subst_val]. rewrite has_marker_record, existsb_false_Forall in *.
    rewrite Forall_forall in *. intros kv Hkv. apply in_map_iff in Hkv. destruct Hkv as (kv0 & <- & Hkv0).
    cbn [snd]. apply IH; auto.
Qed.

Lemma subst_Q2 s : sigma_ok s -> forall v, Q2 v -> Q2 (subst_val s v).
Proof. intros Hs v [Hw Hi]. split; [apply subst_wf | apply subst_noign]; auto. Qed.

Lemma vmem_map_cover (f : value -> value) la lb z :
  (forall a, In a la -> exists b, In b lb /\ veq (f a) (f b) = true) ->
  vmem z (map f la) = true -> vmem z (map f lb) = true.
Proof.
  intros H Hz. apply vmem_true_iff in Hz. destruct Hz as (fa & Hfa & Rz).
  apply in_map_iff in Hfa. destruct Hfa as (a & <- & Ha). destruct (H a Ha) as (b & Hb & Rab).
  apply vmem_true_iff. exists (f b). split; [apply in_map; exact Hb | eapply veq_trans_nowf; eassumption].
Qed.

(* substitution maps veq values to veq values (well-formed arguments) *)
Lemma subst_veq s : sigma_ok s -> forall x, wf_value x = true -> forall y, wf_value y = true ->
  veq x y = true -> veq (subst_val s x) (subst_val s y) = true.
Proof.
  intros Hs.
  apply (value_ind' (fun x => wf_value x = true -> forall y, wf_value y = true ->
                              veq x y = true -> veq (subst_val s x) (subst_val s y) = true));
    try (intros; match goal with H : veq ?a ?b = true |- _ => apply atomic_veq_l in H; [subst; apply veq_refl | exact I] end).
  - (* sets *)
    intros l1 IH Hw1 y Hw2 Hxy. destruct (veq_set_l_inv _ _ Hxy) as [l2 ->].
    assert (Hyx : veq (VSet l2) (VSet l1) = true) by (rewrite veq_sym; auto).
    pose proof (wf_set_inv _ Hw1) as [_ Hm1]. pose proof (wf_set_inv _ Hw2) as [_ Hm2].
    apply veq_set_iff in Hxy. destruct Hxy as [_ S12]. apply veq_set_iff in Hyx. destruct Hyx as [_ S21].
    rewrite Forall_forall in IH.
    assert (W1 : Forall (fun v => wf_value v = true) (map (subst_val s) l1)).
    { rewrite Forall_forall. intros z Hz. apply in_map_iff in Hz. destruct Hz as (a & <- & Ha). apply subst_wf; auto. }
    assert (W2 : Forall (fun v => wf_value v = true) (map (subst_val s) l2)).
    { rewrite Forall_forall. intros z Hz. apply in_map_iff in Hz. destruct Hz as (a & <- & Ha). apply subst_wf; auto. }
    cbn [subst_val]. apply mk_set_order_irrelevant; auto.
    (* each side's images are covered, up to veq, by the other side's *)
    assert (C12 : forall a, In a l1 -> exists b, In b l2 /\ veq (subst_val s a) (subst_val s b) = true).
    { intros a Ha. destruct (S12 a Ha) as (b & Hb & Rab). exists b. split; [exact Hb | apply IH; auto]. }
    assert (C21 : forall b, In b l2 -> exists a, In a l1 /\ veq (subst_val s b) (subst_val s a) = true).
    { intros b Hb. destruct (S21 b Hb) as (a & Ha & Rba). exists a. split; [exact Ha|].
      rewrite veq_sym by (apply subst_wf; auto). apply IH; auto. rewrite veq_sym; auto. }
    intros z Hz.
    destruct (vmem z (map (subst_val s) l1)) eqn:E1, (vmem z (map (subst_val s) l2)) eqn:E2; try reflexivity.
    + rewrite (vmem_map_cover _ _ _ _ C12 E1) in E2. discriminate.
    + rewrite (vmem_map_cover _ _ _ _ C21 E2) in E1. discriminate.
  - (* records *)
    intros l1 IH Hw1 y Hw2 Hxy. destruct (veq_rec_l_inv _ _ Hxy) as [l2 ->].
    pose proof (wf_rec_inv _ Hw1) as [_ Hm1]. pose proof (wf_rec_inv _ Hw2) as [_ Hm2].
    cbn [subst_val]. rewrite veq_record in *. clear Hw1 Hw2.
    revert l2 Hm2 Hxy. induction IH as [|[k x] l1 Hx _ IHl]; intros [|[k' y] l2] Hm2; cbn [rec_eqb map]; try discriminate; auto.
    cbn [fst snd] in *. rewrite !andb_true_iff. intros [[Hk Rxy] Hr].
    inversion Hm1 as [|? ? Hwx Hm1']; subst. inversion Hm2 as [|? ? Hwy Hm2']; subst. cbn [snd] in *.
    repeat split; auto.
Qed.


Lemma subst_compose_full s k v : val_ok v -> sigma_ok s -> forall r, wf_value r = true ->
  subst_val s (subst_val (single k v) r) = subst_val (cons_sigma k v s) r.
Proof.
  intros Hv Hs.
  apply (value_ind' (fun r => wf_value r = true -> subst_val s (subst_val (single k v) r) = subst_val (cons_sigma k v s) r));
    try (intros; reflexivity).
  - intros t i _. cbn [subst_val]. unfold single, cons_sigma.
    destruct (str_eqb t variable_type) eqn:Et.
    + destruct (str_eqb i k); [apply subst_val_ok; exact Hv|]. cbn [subst_val]. rewrite Et. reflexivity.
    + cbn [subst_val]. rewrite Et. reflexivity.
  - intros l IH Hw. apply wf_set_inv in Hw. destruct Hw as [_ Hm].
    cbn [subst_val]. unfold mk_set at 1. cbn [subst_val].
    rewrite (mk_set_map_dedup (subst_val s) (fun x => wf_value x = true)).
    + rewrite map_map. f_equal. apply map_ext_in. intros x Hx. rewrite Forall_forall in IH. apply IH; auto.
    + intros x a Hx Ha. apply subst_veq; auto.
    + rewrite Forall_forall. intros z Hz. apply in_map_iff in Hz. destruct Hz as (a & <- & Ha).
      apply subst_wf; auto. apply single_ok; exact Hv.
  - intros l IH Hw. apply wf_rec_inv in Hw. destruct Hw as [_ Hm].
    cbn [subst_val]. f_equal. rewrite map_map. cbn [fst snd].
    apply map_ext_in. intros kv Hkv. f_equal. rewrite Forall_forall in *. apply IH; auto.
Qed.

Lemma env_eq en1 en2 : e_store en1 = e_store en2 -> (forall x, var_value en1 x = var_value en2 x) -> en1 = en2.
Proof.
  destruct en1 as [s1 p1 a1 r1 c1], en2 as [s2 p2 a2 r2 c2]. cbn [e_store]. intros -> H.
  pose proof (H VPrincipal) as H1. pose proof (H VAction) as H2. pose proof (H VResource) as H3. pose proof (H VContext) as H4.
  cbn [var_value e_principal e_action e_resource e_context] in *. congruence.
Qed.

Lemma sub_env_Q2 en k v : val_ok v -> (forall x, Q2 (var_value en x)) -> forall x, Q2 (var_value (sub_env en k v) x).
Proof. intros Hv H x. rewrite sub_env_subst, var_value_subst. apply subst_Q2; [apply single_ok; exact Hv | apply H]. Qed.

Lemma subst_env_compose s en k v : val_ok v -> sigma_ok s -> env_wf en ->
  subst_env s (sub_env en k v) = subst_env (cons_sigma k v s) en.
Proof.
  intros Hv Hs H. apply env_eq; [reflexivity|]. intros x.
  rewrite sub_env_subst, !var_value_subst. apply subst_compose_full; auto.
Qed.

Lemma subst_env_nil en : env_wf en -> subst_env (sigma_of []) en = en.
Proof. intros H. apply env_eq; [reflexivity|]. intros x. rewrite var_value_subst. apply subst_val_none, H. Qed.

Lemma fix_ignores_id en : no_ignore en -> fix_ignores en = en.
Proof.
  intros H. unfold fix_ignores.
  pose proof (noign_top _ (H VPrincipal)) as E1. pose proof (noign_top _ (H VAction)) as E2.
  pose proof (noign_top _ (H VResource)) as E3. pose proof (noign_top _ (H VContext)) as E4.
  cbn [var_value] in E1, E2, E3, E4. rewrite E1, E2, E3, E4. destruct en; reflexivity.
Qed.


Lemma do_partial_clean en ps : store_clean en -> env_wf en -> Forall (fun ip => policy_clean (snd ip)) ps ->
  Forall (fun ip => policy_clean (snd ip)) (do_partial en ps).
Proof.
  intros Hs Hw. unfold do_partial. induction 1 as [|ip ps Hp _ IH]; cbn [flat_map]; [constructor|].
  apply Forall_app. split; [|exact IH].
  destruct (partial_policy en (snd ip)) as [r|] eqn:E; [|constructor].
  constructor; [|constructor]. cbn [snd]. apply (partial_policy_clean en _ _ Hs Hw Hp E).
Qed.


(* decision and reason ids are determined by the ids of the satisfied forbids and of the satisfied permits *)
Lemma authz_by_ids (P I : Type) eff ev (f : P -> I) (ps qs : list P) :
  map f (filter (sat_forbid P eff ev) ps) = map f (filter (sat_forbid P eff ev) qs) ->
  map f (filter (sat_permit P eff ev) ps) = map f (filter (sat_permit P eff ev) qs) ->
  dec (authorize P eff ev ps) = dec (authorize P eff ev qs) /\
  map f (reasons (authorize P eff ev ps)) = map f (reasons (authorize P eff ev qs)).
Proof.
  intros Hf Hp. rewrite !authorize_eq, !existsb_filter. cbn [dec reasons].
  destruct (filter (sat_forbid P eff ev) ps), (filter (sat_forbid P eff ev) qs); try discriminate Hf; [|auto].
  destruct (filter (sat_permit P eff ev) ps), (filter (sat_permit P eff ev) qs); try discriminate Hp; auto.
Qed.

Section AuthzEquiv.
  Variable en : env.                (* partial environment *)
  Variable en' : env.               (* a completed environment *)
  Hypothesis Hsound : forall p, policy_clean p ->
    match partial_policy en p with
    | Some r => sat en' r = sat en' p /\ p_effect r = p_effect p
    | None => sat en' p = false
    end.

  (* effect and outcome of a policy as final_authz hands them to the authorizer *)
  Local Notation pol_eff := (fun ip : str * policy => if p_effect (snd ip) then Permit else Forbid).
  Local Notation pol_ev := (fun ip : str * policy => outcome_of (bool_eval en' (policy_to_expr (snd ip)))).

  Lemma is_sat_sat ip : is_sat _ pol_ev ip = sat en' (snd ip).
  Proof.
    unfold is_sat, outcome_of, sat.
    destruct (bool_eval en' (policy_to_expr (snd ip))) as [v|k]; [|reflexivity].
    destruct v as [[|]| | | | | | | | |]; reflexivity.
  Qed.

  Lemma filter_do_partial (g : bool -> bool) ps : Forall (fun ip => policy_clean (snd ip)) ps ->
    map fst (filter (fun ip => sat en' (snd ip) && g (p_effect (snd ip))) (do_partial en ps)) =
    map fst (filter (fun ip => sat en' (snd ip) && g (p_effect (snd ip))) ps).
  Proof.
    unfold do_partial. induction 1 as [|ip ps Hp _ IH]; [reflexivity|].
    cbn [flat_map]. rewrite filter_app, map_app, IH. cbn [filter].
    pose proof (Hsound (snd ip) Hp) as H.
    destruct (partial_policy en (snd ip)) as [r|].
    - destruct H as [H1 H2]. cbn [filter snd]. rewrite H1, H2.
      destruct (sat en' (snd ip) && g (p_effect (snd ip))); reflexivity.
    - rewrite H. reflexivity.
  Qed.

  Lemma sat_forbid_eq ps :
    filter (sat_forbid _ pol_eff pol_ev) ps =
    filter (fun ip => sat en' (snd ip) && negb (p_effect (snd ip))) ps.
  Proof.
    apply filter_ext. intros ip. unfold sat_forbid, is_forbid. rewrite is_sat_sat.
    destruct (p_effect (snd ip)); reflexivity.
  Qed.

  Lemma sat_permit_eq ps :
    filter (sat_permit _ pol_eff pol_ev) ps =
    filter (fun ip => sat en' (snd ip) && p_effect (snd ip)) ps.
  Proof.
    apply filter_ext. intros ip. unfold sat_permit, is_permit. rewrite is_sat_sat.
    destruct (p_effect (snd ip)); reflexivity.
  Qed.

  Lemma final_authz_do_partial vals ps : Forall (fun ip => policy_clean (snd ip)) ps ->
    final_authz en' vals (do_partial en ps) = final_authz en' vals ps.
  Proof.
    intros Hps. unfold final_authz.
    destruct (e_principal en'); try reflexivity. destruct (e_action en'); try reflexivity.
    destruct (e_resource en'); try reflexivity. destruct (e_context en'); try reflexivity.
    destruct (authz_by_ids _ _ pol_eff pol_ev fst (do_partial en ps) ps) as [D R].
    - rewrite !sat_forbid_eq. exact (filter_do_partial negb ps Hps).
    - rewrite !sat_permit_eq. exact (filter_do_partial (fun b => b) ps Hps).
    - rewrite D, R. reflexivity.
  Qed.
End AuthzEquiv.


Lemma policy_sound_eff en s p : store_clean en -> env_wf en -> no_ignore en -> policy_clean p ->
  match partial_policy en p with
  | Some r => sat (subst_env s en) r = sat (subst_env s en) p /\ p_effect r = p_effect p
  | None => sat (subst_env s en) p = false
  end.
Proof.
  intros Hs Hw Hi Hp. pose proof (partial_policy_sound_gen en s p Hs Hw Hp Hi) as H.
  destruct (partial_policy en p) as [r|] eqn:E; [|exact H]. split; [exact H|].
  apply (partial_policy_clean en p r Hs Hw Hp E).
Qed.

Lemma map_flat_map {A B C} (g : B -> C) (f : A -> list B) l : map g (flat_map f l) = flat_map (fun x => map g (f x)) l.
Proof. induction l as [|x l IH]; cbn [flat_map map]; [reflexivity|]. rewrite map_app, IH. reflexivity. Qed.

Lemma flat_map_ext_F {A B} (f g : A -> list B) l : Forall (fun x => f x = g x) l -> flat_map f l = flat_map g l.
Proof. induction 1 as [|x l Hx _ IH]; cbn [flat_map]; congruence. Qed.

Lemma sigma_of_ok b : Forall (fun kv => val_ok (snd kv)) b -> sigma_ok (sigma_of b).
Proof. intros H i w E. unfold sigma_of in E. eapply (rec_get_Forall val_ok); eauto. Qed.

Lemma product_ok : forall vars, Forall (fun kv => Forall val_ok (snd kv)) vars ->
  forall b, In b (product vars) -> Forall (fun kv => val_ok (snd kv)) b.
Proof.
  induction vars as [|[key vals] vars IH]; intros Hv b Hb.
  - cbn [product] in Hb. destruct Hb as [<-|[]]. constructor.
  - inversion Hv as [|? ? Hvals Hv']; subst. cbn [snd] in Hvals.
    cbn [product] in Hb. apply in_flat_map in Hb. destruct Hb as (v & Hin & Hb).
    apply in_map_iff in Hb. destruct Hb as (rest & <- & Hrest).
    constructor; [|apply IH; auto]. cbn [snd]. rewrite Forall_forall in Hvals. auto.
Qed.

(* Hypotheses: clean store; request parts well-formed and without ignore marker (unknowns anywhere, also below
   set members); clean policies; candidate values [val_ok].  Not needed: NoDup (map fst vars) (the first binding
   wins on both sides), nor that every marker is bound (unbound markers stay in place on both sides). *)
Lemma leaves_brute : forall vars en values ps,
  store_clean en -> (forall x, Q2 (var_value en x)) ->
  Forall (fun ip => policy_clean (snd ip)) ps -> Forall (fun kv => Forall val_ok (snd kv)) vars ->
  leaves vars en values ps =
  map (fun b => final_authz (subst_env (sigma_of b) en) (values ++ b) ps) (product vars).
Proof.
  induction vars as [|[key vals] vars IH]; intros en values ps Hs He Hps Hv;
    assert (Hw : env_wf en) by (intros x; apply He); assert (Hi : no_ignore en) by (intros x; apply He).
  - cbn [leaves product map]. rewrite subst_env_nil by exact Hw. rewrite app_nil_r. reflexivity.
  - cbn [leaves product]. rewrite map_flat_map.
    assert (Hen1 : match vars with [] => fix_ignores en | _ :: _ => en end = en).
    { destruct vars; [apply fix_ignores_id; exact Hi | reflexivity]. }
    rewrite Hen1. inversion Hv as [|? ? Hvals Hv']; subst. cbn [snd] in Hvals.
    apply flat_map_ext_F. eapply Forall_impl; [|exact Hvals]. intros v Hval.
    rewrite IH; [|exact Hs | apply sub_env_Q2; auto | apply do_partial_clean; auto | exact Hv'].
    rewrite map_map. apply map_ext_in. intros b Hb.
    assert (Hsb : sigma_ok (sigma_of b)) by (apply sigma_of_ok; eapply product_ok; eauto).
    rewrite (subst_env_compose _ en key v Hval Hsb Hw), <- sigma_of_cons, <- app_assoc. cbn [app].
    apply final_authz_do_partial; [|exact Hps].
    intros p Hp. apply policy_sound_eff; auto.
Qed.

Lemma final_authz_values en vals ps r : final_authz en vals ps = Some r -> br_values r = vals.
Proof.
  unfold final_authz. destruct (e_principal en); try discriminate. destruct (e_action en); try discriminate.
  destruct (e_resource en); try discriminate. destruct (e_context en); try discriminate.
  intros H; inversion H; reflexivity.
Qed.

Lemma map_some_values en ps : forall bs rs, map Some rs = map (brute en ps) bs -> map br_values rs = bs.
Proof.
  induction bs as [|b bs IH]; intros [|r rs]; cbn [map]; try discriminate; [reflexivity|].
  intros H. inversion H as [[H1 H2]]. f_equal; [|apply IH; exact H2].
  symmetry in H1. apply final_authz_values in H1. exact H1.
Qed.

(* when no substitution produces an invalid request part, all brute-force results exist *)
Lemma all_some {A B} (f : A -> option B) l : (forall x, In x l -> f x <> None) -> exists full, map f l = map Some full.
Proof.
  induction l as [|x l IH]; intros H.
  - exists []. reflexivity.
  - destruct IH as [full Hf]. { intros y Hy. apply H. right. exact Hy. }
    destruct (f x) as [r|] eqn:E; [|exfalso; eapply H; [left; reflexivity | exact E]].
    exists (r :: full). cbn [map]. rewrite E, Hf. reflexivity.
Qed.

Lemma product_nonempty vars : product vars <> [] -> vals_nonempty vars.
Proof.
  induction vars as [|[key vals] vars IH]; intros H; [constructor|].
  cbn [product] in H. constructor.
  - cbn [snd]. intros ->. apply H. reflexivity.
  - apply IH. intros E. apply H. rewrite E. clear. induction vals as [|v vals IHv]; [reflexivity|]. cbn [flat_map map app]. exact IHv.
Qed.

Lemma product_empty vars : existsb (fun kv : str * list value => match snd kv with [] => true | _ => false end) vars = true ->
  product vars = [].
Proof.
  induction vars as [|[key vals] vars IH]; cbn [existsb snd product]; [discriminate|].
  destruct vals as [|v vals]; [reflexivity|]. cbn [orb]. intros H. rewrite (IH H).
  clear. generalize (v :: vals). intros l. induction l as [|x l IHl]; [reflexivity|]. cbn [flat_map map app]. exact IHl.
Qed.

Section Brute.
  Variable vars : list (str * list value).
  Variable en : env.
  Variable ps : list (str * policy).
  Hypothesis Hs : store_clean en.
  Hypothesis He : forall x, Q2 (var_value en x).
  Hypothesis Hps : Forall (fun ip => policy_clean (snd ip)) ps.
  Hypothesis Hv : Forall (fun kv => Forall val_ok (snd kv)) vars.

  Lemma do_batch_brute cancel budget : cancel = false \/ vals_nonempty vars ->
    do_batch cancel vars en [] ps budget = run cancel (map (brute en ps) (product vars)) budget.
  Proof. intros Hc. rewrite do_batch_run by exact Hc. rewrite leaves_brute by assumption. reflexivity. Qed.

  Theorem do_batch_is_bruteforce_gen :
    let '(rs, _, st) := do_batch false vars en [] ps None in
    match st with
    | BOk => map Some rs = map (brute en ps) (product vars)
    | BInvalidPart => exists b, In b (product vars) /\ brute en ps b = None
    | _ => False
    end.
  Proof.
    rewrite (do_batch_brute false None (or_introl eq_refl)).
    destruct (run_unbounded (map (brute en ps) (product vars))) as (rs & st & -> & [[-> Hr]|[-> Hr]]).
    - exact Hr.
    - apply in_map_iff in Hr. destruct Hr as (b & Hb & Hin). eauto.
  Qed.

  Theorem batch_once_each_gen :
    let '(rs, _, st) := do_batch false vars en [] ps None in
    st = BOk -> List.length rs = List.length (product vars) /\ map br_values rs = product vars.
  Proof.
    pose proof do_batch_is_bruteforce_gen as Hb.
    destruct (do_batch false vars en [] ps None) as [[rs b] st]. intros ->.
    split; [|eapply map_some_values; exact Hb].
    rewrite <- (map_length Some rs), Hb, map_length. reflexivity.
  Qed.

  Theorem batch_stops_on_failure_gen k :
    (forall b, In b (product vars) -> brute en ps b <> None) ->
    (k < List.length (product vars))%nat ->
    let '(full, _, _) := do_batch false vars en [] ps None in
    let '(rs, _, st) := do_batch false vars en [] ps (Some k) in
    st = BCallbackFailed /\ List.length rs = S k /\ rs = firstn (S k) full.
  Proof.
    intros Hsome Hk.
    rewrite !(do_batch_brute false _ (or_introl eq_refl)).
    destruct (all_some (brute en ps) (product vars) Hsome) as [full Hf]. rewrite Hf.
    assert (Hlen : List.length full = List.length (product vars)).
    { rewrite <- (map_length Some full), <- Hf, map_length. reflexivity. }
    rewrite run_all_some, run_fail by lia.
    split; [reflexivity|]. split; [|reflexivity]. rewrite firstn_length. lia.
  Qed.

  (* cancel = true, budget k: the context is cancelled during the k-th callback (k = 0: before the first one).
     For k < |product| do_batch stops with BCancelled after exactly k results; for k = |product| > 0 every
     result is delivered and do_batch itself returns BOk with budget Some 0 (batch_authorize's [finish] then
     reports BCancelled). *)
  Theorem batch_stops_on_cancel_gen k :
    (forall b, In b (product vars) -> brute en ps b <> None) ->
    (k <= List.length (product vars))%nat ->
    let '(full, _, _) := do_batch false vars en [] ps None in
    let '(rs, bud, st) := do_batch true vars en [] ps (Some k) in
    List.length rs = k /\ rs = firstn k full /\
    ((k < List.length (product vars))%nat -> st = BCancelled) /\
    (k = List.length (product vars) -> (0 < k)%nat -> st = BOk /\ bud = Some O).
  Proof.
    intros Hsome Hk.
    destruct k as [|k].
    - (* cancelled before the first callback *)
      destruct (do_batch false vars en [] ps None) as [[full b0] st0].
      assert (E : do_batch true vars en [] ps (Some O) = ([], Some O, BCancelled)).
      { destruct vars as [|[key vals] vars']; reflexivity. }
      rewrite E. split; [reflexivity|]. split; [reflexivity|]. split; [intros; reflexivity | intros _ Hlt; lia].
    - assert (Hne : vals_nonempty vars).
      { apply product_nonempty. intros E. rewrite E in Hk. cbn in Hk. lia. }
      rewrite (do_batch_brute false _ (or_introl eq_refl)).
      rewrite (do_batch_brute true _ (or_intror Hne)).
      destruct (all_some (brute en ps) (product vars) Hsome) as [full Hf]. rewrite Hf.
      assert (Hlen : List.length full = List.length (product vars)).
      { rewrite <- (map_length Some full), <- Hf, map_length. reflexivity. }
      rewrite run_all_some.
      destruct (S k <? List.length (product vars))%nat eqn:E.
      + apply Nat.ltb_lt in E. rewrite run_cancel by lia.
        split; [rewrite firstn_length; lia|]. split; [reflexivity|]. split; [reflexivity | intros; lia].
      + apply Nat.ltb_ge in E. assert (Ek : S k = List.length full) by lia. rewrite Ek, run_cancel_all.
        split; [reflexivity|]. split; [rewrite firstn_all; reflexivity|]. split; [intros; lia | split; reflexivity].
  Qed.

  (* the entry point: the checks of Authorize do not change the picture *)
  Theorem batch_authorize_bruteforce_gen :
    let '(rs, st) := batch_authorize false vars en ps None in
    st = BOk -> map Some rs = map (brute en ps) (product vars).
  Proof.
    assert (Hw : env_wf en) by (intros x; apply He). assert (Hi : no_ignore en) by (intros x; apply He).
    pose proof do_batch_is_bruteforce_gen as Hb.
    unfold batch_authorize.
    destruct (negb (forallb _ _)); [discriminate|].
    destruct (negb (forallb _ vars)); [discriminate|].
    destruct (existsb _ vars) eqn:Ee; [intros _; rewrite (product_empty _ Ee); reflexivity|].
    destruct vars as [|kv vars'].
    - pose proof (final_authz_do_partial en (subst_env (sigma_of []) en)
                    (fun p Hp => policy_sound_eff en _ p Hs Hw Hi Hp) [] ps Hps) as E.
      rewrite (subst_env_nil en Hw) in E.
      cbn [do_batch andb product map]. unfold brute.
      rewrite (fix_ignores_id en Hi), (subst_env_nil en Hw), E.
      destruct (final_authz en [] ps) as [r|]; [intros _; reflexivity | discriminate].
    - destruct (do_batch false (kv :: vars') en [] ps None) as [[rs b] st].
      assert (Hfin : (match st, b with BOk, Some O => (rs, BOk) | _, _ => (rs, st) end) = (rs, st)).
      { destruct st; try reflexivity. destruct b as [[|]|]; reflexivity. }
      cbn [negb]. rewrite Hfin. intros ->. exact Hb.
  Qed.
End Brute.

(* The same under the hypothesis that no unknown occurs inside a set *)

Fixpoint tmpl_ok (v : value) : bool :=
  match v with
  | VSet l => negb (has_marker is_variable (VSet l))
  | VRecord l => (fix all (l : list (str * value)) : bool :=
                    match l with [] => true | (_, x) :: l' => tmpl_ok x && all l' end) l
  | _ => true
  end.

Lemma tmpl_ok_record l : tmpl_ok (VRecord l) = forallb (fun kv => tmpl_ok (snd kv)) l.
Proof.
  cbn [tmpl_ok]. induction l as [|[k x] l IH]; [reflexivity|]. cbn [forallb snd]. rewrite <- IH. reflexivity.
Qed.

(* good template value: well-formed, no unknown inside a set, no ignore marker *)
Definition tq (v : value) : Prop := wf_value v = true /\ tmpl_ok v = true /\ has_marker is_ignore v = false.

Definition env_good (en : env) : Prop := forall x, tq (var_value en x).

(* [env_good]: the four request parts are well-formed, contain no ignore marker, and no unknown inside a set *)
Definition batch_hyps (vars : list (str * list value)) (en : env) (ps : list (str * policy)) : Prop :=
  store_clean en /\ env_good en /\
  Forall (fun ip => policy_clean (snd ip)) ps /\
  Forall (fun kv => Forall val_ok (snd kv)) vars.

Lemma batch_hyps_elim vars en ps (C : Prop) :
  (store_clean en -> (forall x, Q2 (var_value en x)) -> Forall (fun ip => policy_clean (snd ip)) ps ->
   Forall (fun kv => Forall val_ok (snd kv)) vars -> C) ->
  batch_hyps vars en ps -> C.
Proof.
  intros H (Hs & He & Hps & Hv). apply H; auto. intros x. destruct (He x) as (Hw & _ & Hi). split; assumption.
Qed.

Theorem do_batch_is_bruteforce : forall vars en ps, batch_hyps vars en ps ->
  let '(rs, _, st) := do_batch false vars en [] ps None in
  match st with
  | BOk => map Some rs = map (brute en ps) (product vars)
  | BInvalidPart => exists b, In b (product vars) /\ brute en ps b = None
  | _ => False
  end.
Proof. intros vars en ps. exact (batch_hyps_elim _ _ _ _ (do_batch_is_bruteforce_gen vars en ps)). Qed.

Theorem batch_once_each : forall vars en ps, batch_hyps vars en ps ->
  let '(rs, _, st) := do_batch false vars en [] ps None in
  st = BOk -> List.length rs = List.length (product vars) /\ map br_values rs = product vars.
Proof. intros vars en ps. exact (batch_hyps_elim _ _ _ _ (batch_once_each_gen vars en ps)). Qed.

Theorem batch_stops_on_failure : forall vars en ps k, batch_hyps vars en ps ->
  (forall b, In b (product vars) -> brute en ps b <> None) ->
  (k < List.length (product vars))%nat ->
  let '(full, _, _) := do_batch false vars en [] ps None in
  let '(rs, _, st) := do_batch false vars en [] ps (Some k) in
  st = BCallbackFailed /\ List.length rs = S k /\ rs = firstn (S k) full.
Proof.
  intros vars en ps k. exact (batch_hyps_elim _ _ _ _ (fun Hs He Hps Hv => batch_stops_on_failure_gen vars en ps Hs He Hps Hv k)).
Qed.

Theorem batch_stops_on_cancel : forall vars en ps k, batch_hyps vars en ps ->
  (forall b, In b (product vars) -> brute en ps b <> None) ->
  (k <= List.length (product vars))%nat ->
  let '(full, _, _) := do_batch false vars en [] ps None in
  let '(rs, bud, st) := do_batch true vars en [] ps (Some k) in
  List.length rs = k /\ rs = firstn k full /\
  ((k < List.length (product vars))%nat -> st = BCancelled) /\
  (k = List.length (product vars) -> (0 < k)%nat -> st = BOk /\ bud = Some O).
Proof.
  intros vars en ps k. exact (batch_hyps_elim _ _ _ _ (fun Hs He Hps Hv => batch_stops_on_cancel_gen vars en ps Hs He Hps Hv k)).
Qed.

Theorem batch_authorize_bruteforce : forall vars en ps, batch_hyps vars en ps ->
  let '(rs, st) := batch_authorize false vars en ps None in
  st = BOk -> map Some rs = map (brute en ps) (product vars).
Proof. intros vars en ps. exact (batch_hyps_elim _ _ _ _ (batch_authorize_bruteforce_gen vars en ps)). Qed.

(* two unknowns (2 x 2 values), two policies *)
Local Open Scope Z_scope.

Definition bx_env : env :=
  {| e_store := []; e_principal := ex_var "p"; e_action := ex_action; e_resource := ex_photo "x";
     e_context := VRecord [(ex_n, ex_var "x")] |}.
Definition bx_vars : list (str * list value) :=
  [(s_of "p", [ex_user "a"; ex_user "b"]); (s_of "x", [VLong 1; VLong 2])].
(* permit(principal == User::"a", action, resource) when { context.n == 1 };
   forbid(principal, action, resource) when { context.n == 2 && principal == User::"a" }; *)
Definition bx_ps : list (str * policy) :=
  [(s_of "p0", {| p_effect := true; p_principal := SEq (s_of "User", s_of "a"); p_action := SAll; p_resource := SAll;
                  p_conds := [(true, EEq (EAccess (EVar VContext) ex_n) (ELit (VLong 1)))] |});
   (s_of "p1", {| p_effect := false; p_principal := SAll; p_action := SAll; p_resource := SAll;
                  p_conds := [(true, EAnd (EEq (EAccess (EVar VContext) ex_n) (ELit (VLong 2)))
                                          (EEq (EVar VPrincipal) (ELit (ex_user "a"))))] |})].

Example bx_hyps : batch_hyps bx_vars bx_env bx_ps.
Proof.
  split; [intros u ent H; discriminate|]. split; [intros x; destruct x; repeat split; reflexivity|]. split.
  - repeat constructor; cbn [snd p_conds expr_forall node_clean]; repeat split; try reflexivity.
  - repeat constructor; reflexivity.
Qed.

Example bx_batch :
  let '(rs, _, st) := do_batch false bx_vars bx_env [] bx_ps None in
  st = BOk /\
  map Some rs = map (brute bx_env bx_ps) (product bx_vars) /\
  map br_decision rs = [Allow; Deny; Deny; Deny] /\
  map br_reasons rs = [[s_of "p0"]; [s_of "p1"]; []; []] /\
  map br_values rs = product bx_vars.
Proof. vm_compute. repeat split. Qed.

Example bx_budget :
  (let '(rs, _, st) := do_batch false bx_vars bx_env [] bx_ps (Some 1%nat) in st = BCallbackFailed /\ List.length rs = 2%nat) /\
  (let '(rs, _, st) := do_batch true bx_vars bx_env [] bx_ps (Some 1%nat) in st = BCancelled /\ List.length rs = 1%nat).
Proof. vm_compute. repeat split. Qed.

(* Outside [batch_hyps] (unknowns INSIDE a set: context = {l: [?x, ?y]}, policy `when { context.l.contains(1) }`):
   an instance of Section Brute (Proofs/BatchSets.v, bx_set_hyps'), here by computation. *)
Definition bx_env_set : env :=
  {| e_store := []; e_principal := ex_user "a"; e_action := ex_action; e_resource := ex_photo "x";
     e_context := VRecord [(s_of "l", VSet [ex_var "x"; ex_var "y"])] |}.
Definition bx_vars_set : list (str * list value) := [(s_of "x", [VLong 1; VLong 2]); (s_of "y", [VLong 1; VLong 2])].
Definition bx_ps_set : list (str * policy) :=
  [(s_of "p0", {| p_effect := true; p_principal := SAll; p_action := SAll; p_resource := SAll;
                  p_conds := [(true, EContains (EAccess (EVar VContext) (s_of "l")) (ELit (VLong 1)))] |})].
Example bx_set_nested :
  let '(rs, _, st) := do_batch false bx_vars_set bx_env_set [] bx_ps_set None in
  st = BOk /\ map Some rs = map (brute bx_env_set bx_ps_set) (product bx_vars_set) /\
  map br_decision rs = [Allow; Allow; Allow; Deny].
Proof. vm_compute. repeat split. Qed.

Print Assumptions do_batch_is_bruteforce.
Print Assumptions batch_once_each.
Print Assumptions batch_stops_on_failure.
Print Assumptions batch_stops_on_cancel.
Print Assumptions batch_authorize_bruteforce.
Print Assumptions partial_clean.
