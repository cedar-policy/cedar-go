(* x/exp/batch (Impl/Batch.v): the batch authorizer delivers exactly the brute-force results, WITHOUT the
   restriction [tmpl_ok] of [batch_hyps]: unknowns (variable marker entities) may occur anywhere in a request part,
   including inside sets, sets of records, sets of sets.  The theorems are those of Section Brute of
   Proofs/BatchProofs.v (see there why sequential and simultaneous substitution agree literally below sets);
   the examples at the end have two unknowns in one set receiving veq-but-not-identical values, sets of sets, sets
   of records.

   Hypotheses [batch_hyps' vars en ps]: store clean; every request part is well-formed and contains no ignore
   marker ([Q2], i.e. [tq] minus [tmpl_ok]); every policy [policy_clean]; every candidate value [val_ok]. *)
From Coq Require Import ZArith List Bool Lia Arith String.
Import ListNotations.
From Cedar Require Import Base.Int64 Lang.Value Lang.Expr Impl.Like Impl.InSearch Impl.Eval Impl.Partial
  Impl.Authorize Impl.Batch Proofs.ValueProofs Proofs.AuthorizeProofs Proofs.PartialProofs Proofs.BatchProofs.

Definition env_good' (en : env) : Prop := forall x, Q2 (var_value en x).

(* batch_hyps minus tmpl_ok *)
Definition batch_hyps' (vars : list (str * list value)) (en : env) (ps : list (str * policy)) : Prop :=
  store_clean en /\ env_good' en /\
  Forall (fun ip => policy_clean (snd ip)) ps /\
  Forall (fun kv => Forall val_ok (snd kv)) vars.

Theorem do_batch_is_bruteforce_full : forall vars en ps, batch_hyps' vars en ps ->
  let '(rs, _, st) := do_batch false vars en [] ps None in
  match st with
  | BOk => map Some rs = map (brute en ps) (product vars)
  | BInvalidPart => exists b, In b (product vars) /\ brute en ps b = None
  | _ => False
  end.
Proof. intros vars en ps (Hs & He & Hps & Hv). exact (do_batch_is_bruteforce_gen vars en ps Hs He Hps Hv). Qed.

Theorem batch_once_each_full : forall vars en ps, batch_hyps' vars en ps ->
  let '(rs, _, st) := do_batch false vars en [] ps None in
  st = BOk -> List.length rs = List.length (product vars) /\ map br_values rs = product vars.
Proof. intros vars en ps (Hs & He & Hps & Hv). exact (batch_once_each_gen vars en ps Hs He Hps Hv). Qed.

Theorem batch_stops_on_failure_full : forall vars en ps k, batch_hyps' vars en ps ->
  (forall b, In b (product vars) -> brute en ps b <> None) ->
  (k < List.length (product vars))%nat ->
  let '(full, _, _) := do_batch false vars en [] ps None in
  let '(rs, _, st) := do_batch false vars en [] ps (Some k) in
  st = BCallbackFailed /\ List.length rs = S k /\ rs = firstn (S k) full.
Proof. intros vars en ps k (Hs & He & Hps & Hv). exact (batch_stops_on_failure_gen vars en ps Hs He Hps Hv k). Qed.

Theorem batch_stops_on_cancel_full : forall vars en ps k, batch_hyps' vars en ps ->
  (forall b, In b (product vars) -> brute en ps b <> None) ->
  (k <= List.length (product vars))%nat ->
  let '(full, _, _) := do_batch false vars en [] ps None in
  let '(rs, bud, st) := do_batch true vars en [] ps (Some k) in
  List.length rs = k /\ rs = firstn k full /\
  ((k < List.length (product vars))%nat -> st = BCancelled) /\
  (k = List.length (product vars) -> (0 < k)%nat -> st = BOk /\ bud = Some O).
Proof. intros vars en ps k (Hs & He & Hps & Hv). exact (batch_stops_on_cancel_gen vars en ps Hs He Hps Hv k). Qed.

Theorem batch_authorize_bruteforce_full : forall vars en ps, batch_hyps' vars en ps ->
  let '(rs, st) := batch_authorize false vars en ps None in
  st = BOk -> map Some rs = map (brute en ps) (product vars).
Proof. intros vars en ps (Hs & He & Hps & Hv). exact (batch_authorize_bruteforce_gen vars en ps Hs He Hps Hv). Qed.

(* the theorems under batch_hyps are instances *)
Corollary do_batch_is_bruteforce_from_full : forall vars en ps, batch_hyps vars en ps ->
  let '(rs, _, st) := do_batch false vars en [] ps None in
  match st with
  | BOk => map Some rs = map (brute en ps) (product vars)
  | BInvalidPart => exists b, In b (product vars) /\ brute en ps b = None
  | _ => False
  end.
Proof. exact do_batch_is_bruteforce. Qed.

Local Open Scope Z_scope.

(* the instance of BatchProofs.bx_set_nested: not covered by batch_hyps, covered by batch_hyps' *)
Example bx_set_not_tmpl_ok : tmpl_ok (e_context bx_env_set) = false.
Proof. reflexivity. Qed.

Example bx_set_hyps' : batch_hyps' bx_vars_set bx_env_set bx_ps_set.
Proof.
  split; [intros u ent H; discriminate|]. split; [intros x; destruct x; split; reflexivity|]. split.
  - repeat constructor; cbn [snd p_conds expr_forall node_clean]; repeat split; try reflexivity.
  - repeat constructor; reflexivity.
Qed.

(* context = { l: [?x, ?y],  m: [[?x, 1], [?y, 1]],  r: [{a: ?x}, {a: ?y}] }
   x in { 1, [1,2] },  y in { 1, [2,1] }: for (x,y) = (1,1) and ([1,2],[2,1]) the two unknowns of each set receive
   veq values (in the second case veq but NOT identical), so every set collapses to one member; the
   representative kept is the first one on both sides. *)
Definition fx_env : env :=
  {| e_store := []; e_principal := ex_user "a"; e_action := ex_action; e_resource := ex_photo "x";
     e_context := VRecord [(s_of "l", VSet [ex_var "x"; ex_var "y"]);
                           (s_of "m", VSet [VSet [ex_var "x"; VLong 1]; VSet [ex_var "y"; VLong 1]]);
                           (s_of "r", VSet [VRecord [(s_of "a", ex_var "x")]; VRecord [(s_of "a", ex_var "y")]])] |}.
Definition fx_vars : list (str * list value) :=
  [(s_of "x", [VLong 1; VSet [VLong 1; VLong 2]]); (s_of "y", [VLong 1; VSet [VLong 2; VLong 1]])].
(* permit when { context.l.contains(1) };  forbid when { context.r.contains({a: [2,1]}) } *)
Definition fx_ps : list (str * policy) :=
  [(s_of "p0", {| p_effect := true; p_principal := SAll; p_action := SAll; p_resource := SAll;
                  p_conds := [(true, EContains (EAccess (EVar VContext) (s_of "l")) (ELit (VLong 1)))] |});
   (s_of "p1", {| p_effect := false; p_principal := SAll; p_action := SAll; p_resource := SAll;
                  p_conds := [(true, EContains (EAccess (EVar VContext) (s_of "r"))
                                               (ELit (VRecord [(s_of "a", VSet [VLong 2; VLong 1])])))] |})].

Example fx_hyps' : batch_hyps' fx_vars fx_env fx_ps.
Proof.
  split; [intros u ent H; discriminate|]. split; [intros x; destruct x; split; reflexivity|]. split.
  - repeat constructor; cbn [snd p_conds expr_forall node_clean]; repeat split; try reflexivity.
  - repeat constructor; reflexivity.
Qed.

Example fx_not_tmpl_ok : tmpl_ok (e_context fx_env) = false.
Proof. reflexivity. Qed.

(* by computation: literally the brute-force results, requests included *)
Example fx_batch :
  let '(rs, _, st) := do_batch false fx_vars fx_env [] fx_ps None in
  st = BOk /\
  map Some rs = map (brute fx_env fx_ps) (product fx_vars) /\
  map br_decision rs = [Allow; Deny; Deny; Deny] /\
  map br_reasons rs = [[s_of "p0"]; [s_of "p1"]; [s_of "p1"]; [s_of "p1"]] /\
  map br_values rs = product fx_vars.
Proof. vm_compute. repeat split. Qed.

(* the request of the last leaf (x = [1,2], y = [2,1]): each set has collapsed to its first member *)
Example fx_last_request :
  let '(rs, _, _) := do_batch false fx_vars fx_env [] fx_ps None in
  map (fun r => snd (br_request r)) (skipn 3 rs) =
  [VRecord [(s_of "l", VSet [VSet [VLong 1; VLong 2]]);
            (s_of "m", VSet [VSet [VSet [VLong 1; VLong 2]; VLong 1]]);
            (s_of "r", VSet [VRecord [(s_of "a", VSet [VLong 1; VLong 2])]])]].
Proof. vm_compute. reflexivity. Qed.

(* and as an instance of the theorem *)
Example fx_batch_thm :
  let '(rs, _, st) := do_batch false fx_vars fx_env [] fx_ps None in
  match st with
  | BOk => map Some rs = map (brute fx_env fx_ps) (product fx_vars)
  | BInvalidPart => exists b, In b (product fx_vars) /\ brute fx_env fx_ps b = None
  | _ => False
  end.
Proof. exact (do_batch_is_bruteforce_full fx_vars fx_env fx_ps fx_hyps'). Qed.

Print Assumptions subst_veq.
Print Assumptions subst_compose_full.
Print Assumptions do_batch_is_bruteforce_full.
Print Assumptions batch_once_each_full.
Print Assumptions batch_stops_on_failure_full.
Print Assumptions batch_stops_on_cancel_full.
Print Assumptions batch_authorize_bruteforce_full.
