(* C18: the buffered scanner + tokenizer, on every read schedule, computes the specification tokenizer of the whole
   byte string (Lang.Cursor), hence chunking invariance, totality and exact positions/text. *)
From Coq Require Import ZArith List Bool Lia String.
Import ListNotations.
From Cedar Require Import Base.Utf8 Lang.Value Impl.Scanner Impl.Tokenizer Lang.Cursor.
From Cedar Require Import Proofs.ScannerProofs Proofs.TokenizerParam Proofs.CursorProofs Proofs.ScannerFailure.
Local Open Scope Z_scope.

Definition scan_loop (fuel bufLen : nat) :=
  tokenize_loop scanner (next fuel bufLen) token_start token_stop set_err token_position token_text s_err.
Definition cur_loop :=
  tokenize_loop cursor (fun c => Some (c_next c)) c_token_start c_token_stop c_set_err c_token_position c_token_text c_err.

(* forward: whatever the scanner-based tokenizer returns, the specification returns (same fuel) *)
Lemma tokenize_refines_spec : forall fuel b r res, (4 <= b)%nat -> no_fail r ->
  tokenize fuel b r = Some res -> spec_tokenize fuel (r_rest r) = Some res.
Proof.
  intros fuel b r res Hb Hnf H. unfold tokenize in H. unfold spec_tokenize.
  destruct (next fuel b (init r)) as [[s ch]|] eqn:Hn; [|discriminate].
  destruct (sim_next b fuel _ _ _ _ (sim_init b r Hb Hnf) Hn) as [c' [Hc Hsim]].
  rewrite Hc.
  eapply (tokenize_loop_param scanner cursor (next fuel b) token_start token_stop set_err token_position token_text s_err
            (fun c => Some (c_next c)) c_token_start c_token_stop c_set_err c_token_position c_token_text c_err (sim b)) with (fuel := fuel);
    eauto using sim_token_start, sim_token_stop, sim_set_err, sim_position, sim_text, sim_err.
  intros a c a' ch' HR Hna. destruct (sim_next b fuel _ _ _ _ HR Hna) as [c2 [Hc2 HR2]]. exists c2. rewrite Hc2. auto.
Qed.

Lemma spec_tokenize_fuel_mono : forall fuel fuel' src res, (fuel <= fuel')%nat ->
  spec_tokenize fuel src = Some res -> spec_tokenize fuel' src = Some res.
Proof.
  intros fuel fuel' src res Hle H. unfold spec_tokenize in *.
  destruct (c_next (c_init src)) as [c ch].
  eapply tokenize_loop_fuel_mono; eauto.
Qed.

(* chunking invariance: two deliveries of the same bytes, any schedules, any buffer sizes >= 4, any (sufficient) fuels *)
Theorem chunking_invariant : forall f1 f2 b1 b2 r1 r2 res1 res2,
  (4 <= b1)%nat -> (4 <= b2)%nat -> no_fail r1 -> no_fail r2 -> r_rest r1 = r_rest r2 ->
  tokenize f1 b1 r1 = Some res1 -> tokenize f2 b2 r2 = Some res2 -> res1 = res2.
Proof.
  intros f1 f2 b1 b2 r1 r2 res1 res2 H1 H2 N1 N2 E T1 T2.
  apply tokenize_refines_spec in T1; auto. apply tokenize_refines_spec in T2; auto.
  rewrite E in T1.
  apply (spec_tokenize_fuel_mono f1 (Nat.max f1 f2)) in T1; [|lia].
  apply (spec_tokenize_fuel_mono f2 (Nat.max f1 f2)) in T2; [|lia].
  congruence.
Qed.

(* every reader terminates (ScannerFailure), and what a reader without failures returns is the specification's result *)
Theorem tokenize_total : forall b r, (4 <= b)%nat -> no_fail r ->
  forall fuel, (List.length (r_rest r) < fuel)%nat -> (List.length (r_sched r) + 2 <= fuel)%nat ->
  exists res, tokenize fuel b r = Some res /\ spec_tokenize fuel (r_rest r) = Some res.
Proof.
  intros b r Hb Hnf fuel Hf1 Hf2.
  destruct (tokenize fuel b r) as [res|] eqn:E.
  - exists res. split; [reflexivity|]. exact (tokenize_refines_spec _ _ _ _ Hb Hnf E).
  - exfalso. exact (tokenize_total_gen b r fuel Hb Hf1 Hf2 E).
Qed.

(* exact text and positions of what the scanner-based tokenizer reports, on every schedule *)
Theorem tokenize_text_exact : forall fuel b r ts t, (4 <= b)%nat -> no_fail r ->
  tokenize fuel b r = Some (Some ts) -> In t ts ->
  0 <= t_off t /\ t_text t = firstn (List.length (t_text t)) (skipn (Z.to_nat (t_off t)) (r_rest r))
  /\ (Z.to_nat (t_off t) + List.length (t_text t) <= List.length (r_rest r))%nat.
Proof.
  intros fuel b r ts t Hb Hnf H Hin. apply tokenize_refines_spec in H; auto.
  eapply spec_token_text_exact; eauto.
Qed.

Theorem tokenize_position_exact : forall fuel b r ts t, (4 <= b)%nat -> no_fail r ->
  tokenize fuel b r = Some (Some ts) -> In t ts -> t_type t <> TEOF ->
  (t_line t, t_col t) = position_of (r_rest r) (Z.to_nat (t_off t)).
Proof.
  intros fuel b r ts t Hb Hnf H Hin Hne. apply tokenize_refines_spec in H; auto.
  eapply spec_token_position_exact; eauto.
Qed.

(* non-vacuity: a concrete 3-line document with multi-byte text, delivered one byte at a time with zero-length reads in
   between into a 4-byte buffer, tokenizes to the same 6 tokens as in one chunk into a 1024-byte buffer *)
Definition ex_src : list Z := s_of "permit(
 /* é */ ""é"" // x
);"%string.
Definition ex_r1 := {| r_rest := ex_src; r_sched := []; r_eof_with_data := false; r_fail_mode := FSticky |}.
Definition ex_r2 := {| r_rest := ex_src; r_sched := flat_map (fun _ => [(1%nat, false); (0%nat, false)]) ex_src; r_eof_with_data := true; r_fail_mode := FSticky |}.
Example ex_nonvacuous :
  no_fail ex_r1 /\ no_fail ex_r2 /\
  (exists ts, tokenize 100 1024 ex_r1 = Some (Some ts) /\ tokenize 100 4 ex_r2 = Some (Some ts) /\ List.length ts = 6%nat).
Proof.
  split; [|split].
  - intros n f Hin. destruct Hin.
  - intros n f Hin. unfold ex_r2 in Hin. cbn [r_sched] in Hin. apply in_flat_map in Hin. destruct Hin as [x [_ Hin]].
    destruct Hin as [Hin|[Hin|[]]]; inversion Hin; reflexivity.
  - eexists. split; [vm_compute; reflexivity|]. split; vm_compute; reflexivity.
Qed.

Print Assumptions tokenize_refines_spec.
Print Assumptions chunking_invariant.
Print Assumptions tokenize_total.
Print Assumptions tokenize_text_exact.
Print Assumptions tokenize_position_exact.
