(* Schema-guided coercion (Impl/Coerce.v, the model of x/exp/types/json.go) maps every accepted spelling of a well-typed value to
   that value.

   [spells t v' v]: v' is an accepted spelling of v at a position of declared type t - the value itself, the implicit {"type","id"}
   record for an entity, the literal string for an extension value, member-wise for sets (as SETS: any order, any multiplicity) and
   records (same keys; attributes the type does not declare must be spelled by themselves).

   Headline theorems
     coerce_typed_eq         a value that already conforms to the type is left alone (EQUALITY)
     coerce_spelling         coerce t v' is Cedar-equal (veq, both directions) to v for every spelling v' of a typed canonical v
     coerce_spelling_eq      ... and EQUAL to v when the spelling lists set members in the order of v (spells_ord)
     coerce_spellings_agree  two spellings of the same value coerce to Cedar-equal values
     printed_forms_spell_*   the strings the encoders write for extension values are accepted spellings
     coerce_tags_spelling    the same for the tag values of an entity (coerce_tags)
     coerce_wf               coercion keeps values canonical (no hypothesis on the type)
     coerce_entity_id        a conforming canonical entity is left alone by coerce_entity
     coerce_entity_spelling  an entity whose attributes / tags spell those of a conforming canonical entity is coerced to it
   No hypothesis says that the SPELLING v' is canonical (its sets may list members twice).

   Shape of [spells]: the record constructor says, member by member, "spelled by itself, OR the key is declared with type t and the
   member spells at t" rather than matching on the lookup of the key (an inductive cannot occur under a match: positivity).  Same
   meaning: sp_record_match (the match formulation is a derived constructor) and sp_record_match_inv (every
   spelling of a record has the match formulation). *)
From Coq Require Import ZArith List Bool Lia Arith String.
Import ListNotations.
From Cedar Require Import Base.Int64 Lang.Value Lang.Expr Impl.Text Impl.Decimal Impl.Duration Impl.Datetime Impl.IPAddr Impl.IPPrint
  Impl.TypeCheck Impl.Coerce Lang.TypeSound
  Proofs.ValueProofs Proofs.DecimalProofs Proofs.DurationProofs Proofs.DatetimeProofs Proofs.IPProofs.
Local Open Scope Z_scope.

Inductive spells : cty -> value -> value -> Prop :=
| sp_same : forall t v, spells t v v
| sp_entity : forall l r ty i,
    rec_get (s_of "type") r = Some (VString ty) -> rec_get (s_of "id") r = Some (VString i) ->
    spells (CEnt l) (VRecord r) (VEntity ty i)
| sp_decimal : forall s z, parse_decimal s = Some z -> spells (CExt (s_of "decimal")) (VString s) (VDecimal z)
| sp_ip : forall s v6 a p, parse_ip s = Some (v6, a, p) -> spells (CExt (s_of "ipaddr")) (VString s) (VIP v6 a p)
| sp_datetime : forall s z, parse_datetime s = Some z -> spells (CExt (s_of "datetime")) (VString s) (VDatetime z)
| sp_duration : forall s z, parse_duration s = Some z -> spells (CExt (s_of "duration")) (VString s) (VDuration z)
| sp_set : forall e l' l,
    Forall (fun x' => exists x, In x l /\ spells e x' x) l' ->
    Forall (fun x => exists x', In x' l' /\ spells e x' x) l ->
    spells (CSet e) (VSet l') (VSet l)
| sp_record : forall attrs kvs' kvs,
    map fst kvs' = map fst kvs ->
    Forall2 (fun kv' kv : str * value =>
               snd kv' = snd kv \/
               exists t q, alookup (fst kv) attrs = Some (t, q) /\ spells t (snd kv') (snd kv)) kvs' kvs ->
    spells (CRec attrs) (VRecord kvs') (VRecord kvs).

(* the record case in the "match" formulation: as a derived constructor and as an inversion (the inductive definition itself cannot
   mention spells under a match: positivity) *)
Definition rec_spells_at (attrs : list (str * (cty * bool))) (kv' kv : str * value) : Prop :=
  match alookup (fst kv) attrs with
  | Some (t, _) => spells t (snd kv') (snd kv)
  | None => snd kv' = snd kv
  end.

Lemma Forall2_impl {A B} (R S : A -> B -> Prop) l' l : (forall a b, R a b -> S a b) -> Forall2 R l' l -> Forall2 S l' l.
Proof. intros H. induction 1; constructor; auto. Qed.

Lemma sp_record_match attrs kvs' kvs :
  map fst kvs' = map fst kvs -> Forall2 (rec_spells_at attrs) kvs' kvs ->
  spells (CRec attrs) (VRecord kvs') (VRecord kvs).
Proof.
  intros Hk HF. apply sp_record; [exact Hk|]. eapply Forall2_impl; [|exact HF].
  intros kv' kv H. unfold rec_spells_at in H. destruct (alookup (fst kv) attrs) as [[t q]|] eqn:E; [right; eauto | left; auto].
Qed.

Lemma sp_record_match_inv attrs v' kvs :
  spells (CRec attrs) v' (VRecord kvs) ->
  exists kvs', v' = VRecord kvs' /\ map fst kvs' = map fst kvs /\ Forall2 (rec_spells_at attrs) kvs' kvs.
Proof.
  intros Hs. inversion Hs as [t v E1 E2 E3 | | | | | | |attrs0 kvs' kvs0 Hk HF E1 E2 E3]; subst.
  - exists kvs. split; [reflexivity|]. split; [reflexivity|].
    apply Forall2_refl_Forall, Forall_forall. intros kv _. unfold rec_spells_at.
    destruct (alookup (fst kv) attrs) as [[t q]|]; [apply sp_same | reflexivity].
  - exists kvs'. split; [reflexivity|]. split; [exact Hk|]. eapply Forall2_impl; [|exact HF].
    intros kv' kv H. unfold rec_spells_at. destruct H as [H | (t & q & Ha & H)].
    + rewrite H. destruct (alookup (fst kv) attrs) as [[t q]|]; [apply sp_same | reflexivity].
    + rewrite Ha. exact H.
Qed.

(* Induction on declared types (nested through the attribute list) *)

Section CtyInd.
  Variable P : cty -> Prop.
  Hypothesis HNever : P CNever.
  Hypothesis HTrue : P CTrue.
  Hypothesis HFalse : P CFalse.
  Hypothesis HBool : P CBool.
  Hypothesis HLong : P CLong.
  Hypothesis HString : P CString.
  Hypothesis HSet : forall e, P e -> P (CSet e).
  Hypothesis HRec : forall attrs, Forall (fun kv : str * (cty * bool) => P (fst (snd kv))) attrs -> P (CRec attrs).
  Hypothesis HEnt : forall l, P (CEnt l).
  Hypothesis HExt : forall n, P (CExt n).

  Fixpoint cty_ind' (t : cty) : P t :=
    match t with
    | CNever => HNever | CTrue => HTrue | CFalse => HFalse | CBool => HBool | CLong => HLong | CString => HString
    | CSet e => HSet e (cty_ind' e)
    | CRec attrs =>
        HRec attrs ((fix go (l : list (str * (cty * bool))) : Forall (fun kv : str * (cty * bool) => P (fst (snd kv))) l :=
                       match l with
                       | [] => Forall_nil _
                       | x :: r => Forall_cons _ (cty_ind' (fst (snd x))) (go r)
                       end) attrs)
    | CEnt l => HEnt l
    | CExt n => HExt n
    end.
End CtyInd.

Lemma alookup_In {A} k (l : list (str * A)) v : alookup k l = Some v -> In (k, v) l.
Proof.
  induction l as [|[k' v'] l IH]; cbn [alookup]; [discriminate|].
  destruct (str_eqb k' k) eqn:E.
  - intros H. injection H as ->. apply str_eqb_eq in E. subst. left. reflexivity.
  - intros H. right. auto.
Qed.

(* what coerceRecord does to one member *)
Definition coerce_kv (attrs : list (str * (cty * bool))) (kv : str * value) : str * value :=
  match alookup (fst kv) attrs with
  | Some (t, _) => (fst kv, coerce t (snd kv))
  | None => kv
  end.

Lemma coerce_rec attrs kvs : coerce (CRec attrs) (VRecord kvs) = VRecord (map (coerce_kv attrs) kvs).
Proof.
  cbn [coerce]. f_equal. apply map_ext. intros kv. unfold coerce_kv.
  induction attrs as [|[k' [t' q]] r IH]; [reflexivity|].
  cbn [alookup]. rewrite (str_eqb_sym k' (fst kv)).
  destruct (str_eqb (fst kv) k'); [reflexivity | exact IH].
Qed.

Lemma coerce_kv_fst attrs kv : fst (coerce_kv attrs kv) = fst kv.
Proof. unfold coerce_kv. destruct (alookup (fst kv) attrs) as [[t q]|]; reflexivity. Qed.

Lemma coerce_kv_keys attrs kvs : map fst (map (coerce_kv attrs) kvs) = map fst kvs.
Proof. rewrite map_map. apply map_ext. apply coerce_kv_fst. Qed.

Lemma coerce_ext_decimal s :
  coerce_ext (s_of "decimal") (VString s) = match parse_decimal s with Some z => VDecimal z | None => VString s end.
Proof. reflexivity. Qed.
Lemma coerce_ext_ip s :
  coerce_ext (s_of "ipaddr") (VString s) = match parse_ip s with Some (v6, a, p) => VIP v6 a p | None => VString s end.
Proof. reflexivity. Qed.
Lemma coerce_ext_datetime s :
  coerce_ext (s_of "datetime") (VString s) = match parse_datetime s with Some z => VDatetime z | None => VString s end.
Proof. reflexivity. Qed.
Lemma coerce_ext_duration s :
  coerce_ext (s_of "duration") (VString s) = match parse_duration s with Some z => VDuration z | None => VString s end.
Proof. reflexivity. Qed.

Lemma coerce_uid_wf v : wf_value v = true -> wf_value (coerce_uid v) = true.
Proof.
  intros Hw. destruct v; try exact Hw. unfold coerce_uid.
  destruct (rec_get (s_of "type") l) as [[]|]; try exact Hw.
  destruct (rec_get (s_of "id") l) as [[]|]; try exact Hw. reflexivity.
Qed.

Lemma coerce_ext_wf n v : wf_value v = true -> wf_value (coerce_ext n v) = true.
Proof.
  intros Hw. destruct v; try exact Hw. unfold coerce_ext.
  destruct (nm n "ipaddr"); [destruct (parse_ip s) as [[[v6 a] p]|]; reflexivity|].
  destruct (nm n "decimal"); [destruct (parse_decimal s); reflexivity|].
  destruct (nm n "datetime"); [destruct (parse_datetime s); reflexivity|].
  destruct (nm n "duration"); [destruct (parse_duration s); reflexivity|].
  reflexivity.
Qed.

Theorem coerce_wf : forall t v, wf_value v = true -> wf_value (coerce t v) = true.
Proof.
  induction t as [| | | | | |e IH|attrs IH|l|n] using cty_ind'; intros v Hw; try exact Hw.
  - destruct v; try exact Hw. cbn [coerce]. apply mk_set_wf.
    apply wf_set_inv in Hw. destruct Hw as [_ Hw].
    apply Forall_forall. intros c Hc. apply in_map_iff in Hc. destruct Hc as (x & <- & Hx). auto.
  - destruct v as [| | | | |kvs| | | |]; try exact Hw. rewrite coerce_rec.
    apply wf_rec_inv in Hw. destruct Hw as [Hk Hw].
    rewrite wf_value_record. apply andb_true_iff. split.
    + rewrite (keys_sorted_ext _ kvs); [exact Hk | apply coerce_kv_keys].
    + apply forallb_forall. intros c Hc. apply in_map_iff in Hc. destruct Hc as (kv & <- & Hkv).
      rewrite Forall_forall in Hw. specialize (Hw kv Hkv). unfold coerce_kv.
      destruct (alookup (fst kv) attrs) as [[t q]|] eqn:E; [|exact Hw].
      cbn [snd]. apply alookup_In in E. rewrite Forall_forall in IH. apply (IH _ E). exact Hw.
  - cbn [coerce]. apply coerce_uid_wf. exact Hw.
  - cbn [coerce]. apply coerce_ext_wf. exact Hw.
Qed.

Theorem coerce_typed_eq : forall t v, vtyped v t -> wf_value v = true -> coerce t v = v.
Proof.
  induction t as [| | | | | |e IH|attrs IH|l|n] using cty_ind'; intros v Ht Hw; try (inversion Ht; reflexivity).
  - inversion Ht as [| | | | | |l ? Hm| | | | |]; subst. rewrite Forall_forall in Hm.
    cbn [coerce]. rewrite map_id_Forall; [apply mk_set_wf_id; exact Hw|].
    apply wf_set_inv in Hw. destruct Hw as [_ Hw]. apply Forall_forall. intros x Hx. apply IH; auto.
  - inversion Ht as [| | | | | | |kvs ? Hm _| | | |]; subst. rewrite Forall_forall in Hm, IH.
    rewrite coerce_rec. f_equal. apply map_id_Forall.
    apply wf_rec_inv in Hw. destruct Hw as [_ Hw]. rewrite Forall_forall in Hw.
    apply Forall_forall. intros kv Hkv. destruct (Hm kv Hkv) as (t & q & Ha & Hv).
    unfold coerce_kv. rewrite Ha. pose proof (IH _ (alookup_In _ _ _ Ha) (snd kv) Hv (Hw kv Hkv)) as E.
    cbn [fst snd] in E. rewrite E. destruct kv; reflexivity.
Qed.

Theorem coerce_typed_id : forall t v, vtyped v t -> wf_value v = true -> veq (coerce t v) v = true.
Proof. intros t v Ht Hw. rewrite (coerce_typed_eq t v Ht Hw). apply veq_refl. Qed.

(* at a type other than a set or record type a spelling is the value itself or one of the five leaf rules, and those compute *)
Lemma coerce_spells_atomic t v' v : spells t v' v -> coerce t v = v ->
  match t with CSet _ | CRec _ => True | _ => coerce t v' = v end.
Proof.
  intros Hs Hv. destruct Hs as [t v|l r ty i H1 H2|s z H|s v6 a p H|s z H|s z H| |]; try exact I.
  - destruct t; auto.
  - cbn [coerce coerce_uid]. rewrite H1, H2. reflexivity.
  - cbn [coerce]. rewrite coerce_ext_decimal, H. reflexivity.
  - cbn [coerce]. rewrite coerce_ext_ip, H. reflexivity.
  - cbn [coerce]. rewrite coerce_ext_datetime, H. reflexivity.
  - cbn [coerce]. rewrite coerce_ext_duration, H. reflexivity.
Qed.

(* Rebuilding a set from members that are Cedar-equal to those of a canonical set *)

(* whatever the members: in dedup's result no member is Cedar-equal to an EARLIER one (no symmetry of veq needed) *)
Lemma dedup_nodup_rev : forall l acc, nodup_veq acc = true -> nodup_veq (rev (dedup l acc)) = true.
Proof.
  induction l as [|y l IH]; intros acc Hacc; cbn [dedup].
  - rewrite rev_involutive. exact Hacc.
  - destruct (vmem y acc) eqn:E; apply IH; auto.
    cbn [nodup_veq]. rewrite E. exact Hacc.
Qed.

Lemma set_collapse cs l :
  nodup_veq l = true -> (forall x, In x l -> wf_value x = true) ->
  (forall c, In c cs -> exists x, In x l /\ veq c x = true /\ veq x c = true) ->
  (forall x, In x l -> exists c, In c cs /\ veq x c = true) ->
  veq (mk_set cs) (VSet l) = true /\ veq (VSet l) (mk_set cs) = true.
Proof.
  intros Hnd Hw Hcs Hl. unfold mk_set. set (d := dedup cs []).
  assert (Hd : forall c, In c d -> exists x, In x l /\ veq c x = true /\ veq x c = true).
  { intros c Hc. apply dedup_incl in Hc. destruct Hc as [Hc|[]]. auto. }
  assert (Hld : forall x, In x l -> exists c, In c d /\ veq x c = true).
  { intros x Hx. destruct (Hl x Hx) as (c & Hc & Hxc).
    assert (Hm : vmem c d = true).
    { unfold d. rewrite mk_set_vmem. apply vmem_true_iff. exists c. split; [exact Hc | apply veq_refl]. }
    apply vmem_true_iff in Hm. destruct Hm as (c' & Hc' & Hcc').
    exists c'. split; [exact Hc'|]. eapply veq_trans_nowf; eauto. }
  assert (Hndd : nodup_veq (rev d) = true) by (apply dedup_nodup_rev; reflexivity).
  (* |d| <= |l| *)
  assert (L1 : (List.length d <= List.length l)%nat).
  { rewrite <- (rev_length d).
    apply (pigeon (fun c x => veq c x = true /\ veq x c = true) (rev d) l).
    - intros c Hc. apply in_rev in Hc. destruct (Hd c Hc) as (x & Hx & H1 & H2). eauto.
    - apply sep_intro; [exact Hndd|].
      intros a a' b _ _ _ [H1 _] [_ H2]. eapply veq_trans_nowf; eauto. }
  (* |l| <= |d| *)
  assert (L2 : (List.length l <= List.length d)%nat).
  { apply (pigeon (fun x c => veq x c = true) l d); [exact Hld|].
    apply sep_intro; [exact Hnd|].
    intros a a' c Ha Ha' Hc H1 H2.
    destruct (Hd c Hc) as (x & Hx & Hcx & _).
    assert (Hax : veq a x = true) by (eapply veq_trans_nowf; eauto).
    assert (Ha'x : veq a' x = true) by (eapply veq_trans_nowf; eauto).
    rewrite (veq_sym a' x) in Ha'x; auto.
    eapply veq_trans_nowf; eauto. }
  split; apply veq_set_iff; (split; [lia|]).
  - intros c Hc. destruct (Hd c Hc) as (x & Hx & H1 & _). eauto.
  - exact Hld.
Qed.

Theorem coerce_spelling_both : forall t v' v,
  vtyped v t -> wf_value v = true -> spells t v' v ->
  veq (coerce t v') v = true /\ veq v (coerce t v') = true.
Proof.
  induction t as [| | | | | |e IH|attrs IH|l|n] using cty_ind'; intros v' v Ht Hw Hs;
    try (rewrite (coerce_spells_atomic _ _ _ Hs (coerce_typed_eq _ _ Ht Hw)); split; apply veq_refl).
  - inversion Hs as [| | | | | |? lv' lv Hl' Hl|]; subst; [rewrite (coerce_typed_eq _ _ Ht Hw); split; apply veq_refl|].
    rewrite Forall_forall in Hl', Hl.
    inversion Ht as [| | | | | |? ? Hm| | | | |]; subst. rewrite Forall_forall in Hm.
    apply wf_set_inv in Hw. destruct Hw as [Hnd Hw].
    cbn [coerce]. apply set_collapse; auto.
    + intros c Hc. apply in_map_iff in Hc. destruct Hc as (x' & <- & Hx').
      destruct (Hl' x' Hx') as (x & Hx & Hsx). exists x. split; [exact Hx|]. apply IH; auto.
    + intros x Hx. destruct (Hl x Hx) as (x' & Hx' & Hsx). exists (coerce e x'). split; [apply in_map; exact Hx'|].
      apply IH; auto.
  - inversion Hs as [| | | | | | |? kvs' kvs Hk HF]; subst; [rewrite (coerce_typed_eq _ _ Ht Hw); split; apply veq_refl|].
    inversion Ht as [| | | | | | |? ? Hm _| | | |]; subst.
    apply wf_rec_inv in Hw. destruct Hw as [_ Hw].
    rewrite coerce_rec, !veq_record. rewrite Forall_forall in IH. clear Hs Ht.
    revert Hk Hm Hw. induction HF as [|[k' x'] [k x] m' m H _ IHm]; intros Hk Hm Hw; [split; reflexivity|].
    cbn [map fst] in Hk. injection Hk as -> Hk.
    inversion Hm as [|? ? (t & q & Ha & Hv) Hm']; subst. inversion Hw as [|? ? Hwx Hw']; subst.
    cbn [fst snd] in *.
    assert (Hsx : spells t x' x).
    { destruct H as [-> | (t2 & q2 & Ha2 & Hsx)]; [apply sp_same|]. rewrite Ha in Ha2. injection Ha2 as <- <-. exact Hsx. }
    pose proof (IH _ (alookup_In _ _ _ Ha) x' x Hv Hwx Hsx) as E. cbn [fst snd] in E. destruct E as [E1 E2].
    destruct (IHm Hk Hm' Hw') as [R1 R2].
    cbn [map]. unfold coerce_kv at 1 3. cbn [fst snd]. rewrite Ha. cbn [rec_eqb].
    rewrite str_eqb_refl, E1, E2, R1, R2. split; reflexivity.
Qed.

Theorem coerce_spelling : forall t v' v,
  vtyped v t -> wf_value v = true -> spells t v' v -> veq (coerce t v') v = true.
Proof. intros t v' v Ht Hw Hs. apply (coerce_spelling_both t v' v Ht Hw Hs). Qed.

Theorem coerce_spelling_sym : forall t v' v,
  vtyped v t -> wf_value v = true -> spells t v' v -> veq v (coerce t v') = true.
Proof. intros t v' v Ht Hw Hs. apply (coerce_spelling_both t v' v Ht Hw Hs). Qed.

Theorem coerce_spellings_agree : forall t v1 v2 v,
  vtyped v t -> wf_value v = true -> spells t v1 v -> spells t v2 v -> veq (coerce t v1) (coerce t v2) = true.
Proof.
  intros t v1 v2 v Ht Hw H1 H2. apply (veq_trans_nowf _ v).
  - apply coerce_spelling; auto.
  - apply coerce_spelling_sym; auto.
Qed.

Theorem printed_forms_spell_decimal : forall z, in64 z ->
  spells (CExt (s_of "decimal")) (VString (print_decimal z)) (VDecimal z).
Proof. intros z Hz. apply sp_decimal. apply decimal_roundtrip. exact Hz. Qed.

Theorem printed_forms_spell_duration : forall z, in64 z ->
  spells (CExt (s_of "duration")) (VString (print_duration z)) (VDuration z).
Proof. intros z Hz. apply sp_duration. apply duration_roundtrip. exact Hz. Qed.

Theorem printed_forms_spell_datetime : forall z, in_dt_range z = true ->
  spells (CExt (s_of "datetime")) (VString (print_datetime z)) (VDatetime z).
Proof. intros z Hz. apply sp_datetime. apply datetime_roundtrip. exact Hz. Qed.

Theorem printed_forms_spell_ip : forall v6 a p, ip_ok v6 a p = true ->
  spells (CExt (s_of "ipaddr")) (VString (print_ip v6 a p)) (VIP v6 a p).
Proof. intros v6 a p H. apply sp_ip. apply parse_print_ip. exact H. Qed.

(* hence: the printed form of an extension value is coerced back to it (equality: these values are atomic) *)
Corollary coerce_printed_decimal : forall z, in64 z -> coerce (CExt (s_of "decimal")) (VString (print_decimal z)) = VDecimal z.
Proof. intros z Hz. exact (coerce_spells_atomic _ _ _ (printed_forms_spell_decimal z Hz) eq_refl). Qed.
Corollary coerce_printed_duration : forall z, in64 z -> coerce (CExt (s_of "duration")) (VString (print_duration z)) = VDuration z.
Proof. intros z Hz. exact (coerce_spells_atomic _ _ _ (printed_forms_spell_duration z Hz) eq_refl). Qed.
Corollary coerce_printed_datetime : forall z, in_dt_range z = true ->
  coerce (CExt (s_of "datetime")) (VString (print_datetime z)) = VDatetime z.
Proof. intros z Hz. exact (coerce_spells_atomic _ _ _ (printed_forms_spell_datetime z Hz) eq_refl). Qed.
Corollary coerce_printed_ip : forall v6 a p, ip_ok v6 a p = true ->
  coerce (CExt (s_of "ipaddr")) (VString (print_ip v6 a p)) = VIP v6 a p.
Proof. intros v6 a p H. exact (coerce_spells_atomic _ _ _ (printed_forms_spell_ip v6 a p H) eq_refl). Qed.

(* the tag record kvs' spells kvs key by key along the tag type t; every tag value of kvs is typed by t and canonical *)
Theorem coerce_tags_spelling : forall t kvs' kvs,
  map fst kvs' = map fst kvs ->
  Forall2 (fun kv' kv : str * value => spells t (snd kv') (snd kv)) kvs' kvs ->
  Forall (fun kv : str * value => vtyped (snd kv) t /\ wf_value (snd kv) = true) kvs ->
  map fst (coerce_tags (Some t) kvs') = map fst kvs /\
  veq (VRecord (coerce_tags (Some t) kvs')) (VRecord kvs) = true /\
  veq (VRecord kvs) (VRecord (coerce_tags (Some t) kvs')) = true.
Proof.
  intros t kvs' kvs Hk HF Ht. unfold coerce_tags. split.
  - rewrite map_map. cbn [fst]. exact Hk.
  - rewrite !veq_record. revert Hk Ht.
    induction HF as [|[k' x'] [k x] l' l H _ IH]; intros Hk Ht; [split; reflexivity|].
    cbn [map fst] in Hk. injection Hk as -> Hk.
    inversion Ht as [|? ? [Hv Hw] Ht']; subst. cbn [fst snd] in *.
    destruct (coerce_spelling_both t x' x Hv Hw H) as [E1 E2].
    destruct (IH Hk Ht') as [R1 R2].
    cbn [map rec_eqb fst snd]. rewrite str_eqb_refl, E1, E2, R1, R2. split; reflexivity.
Qed.

(* member-wise reading: the tag found under a key of the coerced record is Cedar-equal to the tag of kvs under that key *)
Corollary coerce_tags_get : forall t kvs' kvs k,
  map fst kvs' = map fst kvs ->
  Forall2 (fun kv' kv : str * value => spells t (snd kv') (snd kv)) kvs' kvs ->
  Forall (fun kv : str * value => vtyped (snd kv) t /\ wf_value (snd kv) = true) kvs ->
  match rec_get k (coerce_tags (Some t) kvs'), rec_get k kvs with
  | Some x, Some y => veq x y = true
  | None, None => True
  | _, _ => False
  end.
Proof.
  intros t kvs' kvs k Hk HF Ht. destruct (coerce_tags_spelling t kvs' kvs Hk HF Ht) as (_ & E & _).
  rewrite veq_record in E. exact (rec_eqb_get _ _ E k).
Qed.

Theorem coerce_tags_none : forall kvs, coerce_tags None kvs = kvs.
Proof. reflexivity. Qed.

Theorem coerce_tags_typed_eq : forall t kvs,
  Forall (fun kv : str * value => vtyped (snd kv) t /\ wf_value (snd kv) = true) kvs -> coerce_tags (Some t) kvs = kvs.
Proof.
  intros t kvs H. unfold coerce_tags. apply map_id_Forall.
  induction H as [|[k x] l [Hv Hw] _ IH]; constructor; auto.
  cbn [fst snd] in *. rewrite (coerce_typed_eq t x Hv Hw). reflexivity.
Qed.

Inductive spells_ord : cty -> value -> value -> Prop :=
| so_same : forall t v, spells_ord t v v
| so_entity : forall l r ty i,
    rec_get (s_of "type") r = Some (VString ty) -> rec_get (s_of "id") r = Some (VString i) ->
    spells_ord (CEnt l) (VRecord r) (VEntity ty i)
| so_decimal : forall s z, parse_decimal s = Some z -> spells_ord (CExt (s_of "decimal")) (VString s) (VDecimal z)
| so_ip : forall s v6 a p, parse_ip s = Some (v6, a, p) -> spells_ord (CExt (s_of "ipaddr")) (VString s) (VIP v6 a p)
| so_datetime : forall s z, parse_datetime s = Some z -> spells_ord (CExt (s_of "datetime")) (VString s) (VDatetime z)
| so_duration : forall s z, parse_duration s = Some z -> spells_ord (CExt (s_of "duration")) (VString s) (VDuration z)
| so_set : forall e l' l, Forall2 (spells_ord e) l' l -> spells_ord (CSet e) (VSet l') (VSet l)
| so_record : forall attrs kvs' kvs,
    map fst kvs' = map fst kvs ->
    Forall2 (fun kv' kv : str * value =>
               snd kv' = snd kv \/
               exists t q, alookup (fst kv) attrs = Some (t, q) /\ spells_ord t (snd kv') (snd kv)) kvs' kvs ->
    spells_ord (CRec attrs) (VRecord kvs') (VRecord kvs).

Lemma Forall2_In_l {A B} (R : A -> B -> Prop) l' l : Forall2 R l' l -> forall x', In x' l' -> exists x, In x l /\ R x' x.
Proof.
  induction 1 as [|a b l' l H _ IH]; intros x' Hx'; [destruct Hx'|].
  destruct Hx' as [<-|Hx']; [exists b; split; [left; reflexivity | exact H]|].
  destruct (IH x' Hx') as (x & Hx & Hr). exists x. split; [right; exact Hx | exact Hr].
Qed.

Lemma Forall2_In_r {A B} (R : A -> B -> Prop) l' l : Forall2 R l' l -> forall x, In x l -> exists x', In x' l' /\ R x' x.
Proof.
  induction 1 as [|a b l' l H _ IH]; intros x Hx; [destruct Hx|].
  destruct Hx as [<-|Hx]; [exists a; split; [left; reflexivity | exact H]|].
  destruct (IH x Hx) as (x' & Hx' & Hr). exists x'. split; [right; exact Hx' | exact Hr].
Qed.

(* an ordered spelling is a spelling *)
Theorem spells_ord_spells : forall t v' v, spells_ord t v' v -> spells t v' v.
Proof.
  induction t as [| | | | | |e IH|attrs IH|l|n] using cty_ind'; intros v' v Hs;
    try (inversion Hs; subst; constructor; assumption).
  - inversion Hs as [| | | | | |? lv' lv HF|]; subst; [apply sp_same|].
    apply sp_set; apply Forall_forall.
    + intros x' Hx'. destruct (Forall2_In_l _ _ _ HF x' Hx') as (x & Hx & Hr). eauto.
    + intros x Hx. destruct (Forall2_In_r _ _ _ HF x Hx) as (x' & Hx' & Hr). eauto.
  - inversion Hs as [| | | | | | |? kvs' kvs Hk HF]; subst; [apply sp_same|].
    apply sp_record; [exact Hk|]. rewrite Forall_forall in IH. eapply Forall2_impl; [|exact HF].
    intros kv' kv [H | (t & q & Ha & H)]; [left; exact H|].
    right. exists t, q. split; [exact Ha|]. apply (IH _ (alookup_In _ _ _ Ha)). exact H.
Qed.

Theorem coerce_spelling_eq : forall t v' v,
  vtyped v t -> wf_value v = true -> spells_ord t v' v -> coerce t v' = v.
Proof.
  induction t as [| | | | | |e IH|attrs IH|l|n] using cty_ind'; intros v' v Ht Hw Hs;
    try exact (coerce_spells_atomic _ _ _ (spells_ord_spells _ _ _ Hs) (coerce_typed_eq _ _ Ht Hw)).
  - inversion Hs as [| | | | | |? lv' lv HF|]; subst; [apply coerce_typed_eq; assumption|].
    inversion Ht as [| | | | | |? ? Hm| | | | |]; subst.
    cbn [coerce]. rewrite <- (mk_set_wf_id _ Hw). f_equal.
    apply wf_set_inv in Hw. destruct Hw as [_ Hw]. clear Hs Ht.
    revert Hm Hw. induction HF as [|x' x m' m H _ IHm]; intros Hm Hw; [reflexivity|].
    inversion Hm as [|? ? Hv Hm']; subst. cbn [map]. f_equal.
    + apply IH; auto. apply Hw. left. reflexivity.
    + apply IHm; auto. intros y Hy. apply Hw. right. exact Hy.
  - inversion Hs as [| | | | | | |? kvs' kvs Hk HF]; subst; [apply coerce_typed_eq; assumption|].
    inversion Ht as [| | | | | | |? ? Hm _| | | |]; subst.
    apply wf_rec_inv in Hw. destruct Hw as [_ Hw].
    rewrite coerce_rec. f_equal. rewrite Forall_forall in IH. clear Hs Ht.
    revert Hk Hm Hw. induction HF as [|[k' x'] [k x] m' m H _ IHm]; intros Hk Hm Hw; [reflexivity|].
    cbn [map fst] in Hk. injection Hk as -> Hk.
    inversion Hm as [|? ? (t & q & Ha & Hv) Hm']; subst. inversion Hw as [|? ? Hwx Hw']; subst.
    cbn [fst snd] in *. cbn [map]. f_equal; [|apply IHm; auto].
    unfold coerce_kv. cbn [fst snd]. rewrite Ha. f_equal.
    pose proof (IH _ (alookup_In _ _ _ Ha)) as IHt. cbn [fst snd] in IHt.
    destruct H as [-> | (t2 & q2 & Ha2 & Hs)]; [apply coerce_typed_eq; assumption|].
    rewrite Ha in Ha2. injection Ha2 as <- <-. apply IHt; assumption.
Qed.

(* a conforming entity (Lang/TypeSound.v entity_ok: what Validator.Entities checks) with canonical attribute and tag records is left alone *)
Theorem coerce_entity_id : forall sch u e,
  entity_ok sch u e -> wf_value (VRecord (e_attrs e)) = true -> wf_value (VRecord (e_tags e)) = true ->
  coerce_entity sch (u, e) = (u, e).
Proof.
  intros sch u e Hok Hwa Hwt. unfold coerce_entity, entity_ok in *. cbn [fst snd] in *.
  destruct (alookup (fst u) (ts_entities sch)) as [te|]; [|reflexivity].
  destruct Hok as (Ha & Htg & _).
  rewrite (coerce_typed_eq _ _ Ha Hwa).
  assert (Et : coerce_tags (te_tags te) (e_tags e) = e_tags e).
  { destruct (te_tags te) as [tg|] eqn:Ett; [|reflexivity].
    apply coerce_tags_typed_eq. apply wf_rec_inv in Hwt. destruct Hwt as [Hks Hwt].
    rewrite Forall_forall in Hwt. apply Forall_forall. intros [k x] Hkx. cbn [snd]. split; [|exact (Hwt _ Hkx)].
    destruct (Htg k x (rec_get_In_sorted _ _ _ Hks Hkx)) as (tg' & E & Hv). injection E as <-. exact Hv. }
  rewrite Et. destruct e; reflexivity.
Qed.

(* an entity whose attribute record and tag values are spellings of those of a conforming canonical entity is coerced to it
   (attributes and tags up to Cedar equality, parents untouched) *)
Theorem coerce_entity_spelling : forall sch u e' e te,
  alookup (fst u) (ts_entities sch) = Some te ->
  spells (CRec (te_shape te)) (VRecord (e_attrs e')) (VRecord (e_attrs e)) ->
  vtyped (VRecord (e_attrs e)) (CRec (te_shape te)) -> wf_value (VRecord (e_attrs e)) = true ->
  match te_tags te with
  | Some tg => map fst (e_tags e') = map fst (e_tags e) /\
               Forall2 (fun kv' kv : str * value => spells tg (snd kv') (snd kv)) (e_tags e') (e_tags e) /\
               Forall (fun kv : str * value => vtyped (snd kv) tg /\ wf_value (snd kv) = true) (e_tags e)
  | None => e_tags e' = e_tags e
  end ->
  fst (coerce_entity sch (u, e')) = u /\
  e_parents (snd (coerce_entity sch (u, e'))) = e_parents e' /\
  veq (VRecord (e_attrs (snd (coerce_entity sch (u, e'))))) (VRecord (e_attrs e)) = true /\
  veq (VRecord (e_tags (snd (coerce_entity sch (u, e'))))) (VRecord (e_tags e)) = true.
Proof.
  intros sch u e' e te Hte Hs Ht Hw Htags. unfold coerce_entity. cbn [fst snd]. rewrite Hte. cbn [fst snd e_parents e_attrs e_tags].
  split; [reflexivity|]. split; [reflexivity|]. split.
  - pose proof (coerce_spelling _ _ _ Ht Hw Hs) as E. rewrite coerce_rec in E |- *. exact E.
  - destruct (te_tags te) as [tg|].
    + destruct Htags as (Hk & HF & Hty). apply (coerce_tags_spelling tg _ _ Hk HF Hty).
    + rewrite coerce_tags_none, Htags. apply veq_refl.
Qed.

(* the code does not require "type" / "id" to be the ONLY members of an implicit entity reference *)
Example coerce_extra_members :
  coerce (CEnt [s_of "U"]) (VRecord [(s_of "extra", VLong 1); (s_of "id", VString (s_of "a")); (s_of "type", VString (s_of "U"))])
  = VEntity (s_of "U") (s_of "a").
Proof. vm_compute. reflexivity. Qed.

(* a nested case: a record type with a set of entities and a decimal attribute; the spelling lists one member explicitly and once
   more implicitly (they collapse), and spells the decimal by its literal *)
Definition ex_ty : cty :=
  CRec [(s_of "members", (CSet (CEnt [s_of "U"]), true)); (s_of "score", (CExt (s_of "decimal"), true))].
Definition ex_val : value :=
  VRecord [(s_of "members", VSet [VEntity (s_of "U") (s_of "a")]); (s_of "score", VDecimal 15000)].
Definition ex_spelling : value :=
  VRecord [(s_of "members", VSet [VEntity (s_of "U") (s_of "a");
                                  VRecord [(s_of "id", VString (s_of "a")); (s_of "type", VString (s_of "U"))]]);
           (s_of "score", VString (s_of "1.5"))].

Example ex_typed : vtyped ex_val ex_ty.
Proof.
  unfold ex_val, ex_ty. apply vt_record.
  - repeat apply Forall_cons; try apply Forall_nil; eexists _, _; (split; [reflexivity|]); repeat constructor.
  - intros k t H. apply alookup_In in H. destruct H as [H|[H|[]]]; inversion H; subst; eexists; reflexivity.
Qed.

Example ex_wf : wf_value ex_val = true.
Proof. vm_compute. reflexivity. Qed.

Example ex_spells : spells ex_ty ex_spelling ex_val.
Proof.
  apply sp_record; [reflexivity|]. repeat apply Forall2_cons; try apply Forall2_nil; right; eexists _, _; (split; [reflexivity|]).
  - (* every member on either side is matched with the first member of the other side: by sp_same or by sp_entity *)
    apply sp_set; repeat constructor; eexists; (split; [left; reflexivity|]); constructor; reflexivity.
  - apply sp_decimal. reflexivity.
Qed.

Example ex_coerced : coerce ex_ty ex_spelling = ex_val.
Proof. vm_compute. reflexivity. Qed.

(* the instance of the theorem *)
Example ex_coerced_veq : veq (coerce ex_ty ex_spelling) ex_val = true.
Proof. exact (coerce_spelling _ _ _ ex_typed ex_wf ex_spells). Qed.

(* the result is Cedar-equal, not in general EQUAL, to the value: a set spelled in another order keeps that order *)
Example coerce_spelling_not_eq :
  let t := CSet CLong in let v' := VSet [VLong 2; VLong 1] in let v := VSet [VLong 1; VLong 2] in
  vtyped v t /\ wf_value v = true /\ spells t v' v /\ coerce t v' = VSet [VLong 2; VLong 1] /\ veq (coerce t v') v = true.
Proof.
  cbv zeta. split; [|split; [|split; [|split]]]; try reflexivity.
  - apply vt_set. repeat constructor.
  - apply sp_set; repeat constructor; eexists; (split; [|apply sp_same]); cbn; auto.
Qed.

(* what is not a spelling is left as it is: a string that is not a literal of the declared extension type, a value of another kind,
   an attribute the record type does not declare *)
Example coerce_leaves_nonconforming :
  coerce (CExt (s_of "decimal")) (VString (s_of "1.23456")) = VString (s_of "1.23456") /\
  coerce (CExt (s_of "decimal")) (VLong 1) = VLong 1 /\
  coerce (CEnt [s_of "U"]) (VRecord [(s_of "id", VLong 1); (s_of "type", VString (s_of "U"))])
    = VRecord [(s_of "id", VLong 1); (s_of "type", VString (s_of "U"))] /\
  coerce (CRec [(s_of "a", (CExt (s_of "decimal"), true))]) (VRecord [(s_of "a", VString (s_of "1.5")); (s_of "b", VString (s_of "1.5"))])
    = VRecord [(s_of "a", VDecimal 15000); (s_of "b", VString (s_of "1.5"))].
Proof. vm_compute. repeat split. Qed.

Print Assumptions coerce_spelling_both.
Print Assumptions coerce_spelling.
Print Assumptions coerce_spelling_sym.
Print Assumptions coerce_spelling_eq.
Print Assumptions spells_ord_spells.
Print Assumptions coerce_typed_eq.
Print Assumptions coerce_typed_id.
Print Assumptions coerce_spellings_agree.
Print Assumptions printed_forms_spell_decimal.
Print Assumptions printed_forms_spell_duration.
Print Assumptions printed_forms_spell_datetime.
Print Assumptions printed_forms_spell_ip.
Print Assumptions coerce_printed_decimal.
Print Assumptions coerce_printed_duration.
Print Assumptions coerce_printed_datetime.
Print Assumptions coerce_printed_ip.
Print Assumptions coerce_tags_spelling.
Print Assumptions coerce_tags_get.
Print Assumptions coerce_tags_typed_eq.
Print Assumptions coerce_wf.
Print Assumptions coerce_entity_id.
Print Assumptions coerce_entity_spelling.
Print Assumptions sp_record_match.
Print Assumptions sp_record_match_inv.
Print Assumptions coerce_extra_members.
Print Assumptions ex_coerced.
Print Assumptions ex_coerced_veq.
Print Assumptions coerce_spelling_not_eq.
Print Assumptions coerce_leaves_nonconforming.
