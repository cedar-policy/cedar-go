(* The conformance checkers (Impl/Conform.v: Validator.Entity / Entities / Request, check_value.go) establish the hypotheses of the C15
   soundness theorems (Properties/C15.v): a store and a request that pass the executable checks satisfy env_ok, actions_conform,
   store_types_known and request_env, so a validated policy never fails with a type error on them.

   HEADLINE THEOREMS
     check_value_sound    : decl_ty t -> vnodup v -> check_value t v = true -> vtyped v t
     check_value_complete : decl_ty t -> WT t -> vtyped v t -> check_value t v = true
     check_entity_sound, check_entities_sound, check_request_sound, checks_env_ok
     action_closure_exact : In x (action_closure sch u) <-> aclosure sch u x   (soundness for any fuel + completeness: the fuel
       S (S (length ts_agraph)) always suffices; agraph_wf / NoDup of the keys are NOT needed, see action_closure_exact0)
     check_action_entity_exact : check_action_entity accepts exactly the declared actions without attributes and tags whose parents
       are the transitive closure of their declared groups
     validated_and_conforming_never_type_errors (and the wf_value variant validated_and_conforming_never_type_errors_wf)

   HYPOTHESES one might not expect (the counterexamples that make them necessary follow check_value_iff):
   - vnodup v: every record inside the value has pairwise distinct keys (true of every Go value: types.Record is a map; implied by
     wf_value, lemma wf_value_vnodup).  Without it check_value_sound is FALSE of the model: check_value looks attributes up with rec_get
     (first binding) whereas vtyped speaks about every binding of the list (check_value_sound_needs_nodup).
     At the store / request level: store_vals_ok st (attribute records and tag values of every entity) and vnodup (VRecord ctx).
   - WT t in check_value_complete is needed (check_value_complete_needs_WT): check_value iterates over every declared attribute entry,
     vtyped looks the attribute up (first entry).
   - NoDup (map fst st) is NOT needed by check_entities_sound (lookup st u = Some e -> In (u, e) st).
   - enums_ok sch enums: forall n, alookup n enums <> None -> smem n (ts_enums sch) = true  (the weaker direction only). *)
From Coq Require Import ZArith List Bool String Lia Relations.
Import ListNotations.
From Cedar Require Import Base.Int64 Lang.Value Impl.Like Lang.Expr Impl.Eval Impl.TypeCheck Impl.ValidatePolicy Impl.Conform Lang.TypeSound
  Proofs.ValueProofs Proofs.ExtSigTable Proofs.TypeSoundLemmas Proofs.TypeSoundProofs Proofs.PolicySoundProofs.
Local Open Scope Z_scope.

(* the types a resolved schema declares: no CNever / CTrue / CFalse, entity types with exactly one name, the four extension types *)
Definition known_ext (n : str) : bool := nm n "ipaddr" || nm n "decimal" || nm n "datetime" || nm n "duration".
Fixpoint decl_tyb (t : cty) : bool :=
  match t with
  | CBool | CLong | CString => true
  | CSet e => decl_tyb e
  | CRec l => (fix go (l : list (str * (cty * bool))) : bool := match l with [] => true | (_, (x, _)) :: r => decl_tyb x && go r end) l
  | CEnt [_] => true
  | CExt n => known_ext n
  | _ => false
  end.
Definition decl_ty (t : cty) : Prop := decl_tyb t = true.

Lemma decl_ty_rec l : decl_ty (CRec l) <-> Forall (fun kv : str * (cty * bool) => decl_ty (fst (snd kv))) l.
Proof.
  unfold decl_ty. cbn [decl_tyb]. induction l as [|[k [x q]] l IH]; [split; constructor|].
  rewrite andb_true_iff, IH, Forall_cons_iff. reflexivity.
Qed.

(* every record inside the value has pairwise distinct keys (a Go map) *)
Fixpoint vnodup (v : value) : Prop :=
  match v with
  | VSet l => (fix go (l : list value) : Prop := match l with [] => True | x :: r => vnodup x /\ go r end) l
  | VRecord l => NoDup (map fst l) /\
                 (fix go (l : list (str * value)) : Prop := match l with [] => True | (_, x) :: r => vnodup x /\ go r end) l
  | _ => True
  end.

Lemma vnodup_set l : vnodup (VSet l) <-> Forall vnodup l.
Proof.
  cbn [vnodup]. induction l as [|x l IH]; [split; constructor|]. rewrite IH, Forall_cons_iff. reflexivity.
Qed.

Lemma vnodup_rec l : vnodup (VRecord l) <-> NoDup (map fst l) /\ Forall (fun kv : str * value => vnodup (snd kv)) l.
Proof.
  cbn [vnodup]. apply and_iff_compat_l. induction l as [|[k x] l IH]; [split; constructor|].
  rewrite IH, Forall_cons_iff. reflexivity.
Qed.

Lemma wf_value_vnodup : forall v, wf_value v = true -> vnodup v.
Proof.
  induction v as [| | | |l IH|l IH| | | |] using value_ind'; intros Hw; try exact I.
  - apply vnodup_set. apply wf_set_inv in Hw. destruct Hw as [_ Hw].
    rewrite Forall_forall in *. intros x Hx. apply IH; auto.
  - apply vnodup_rec. apply wf_rec_inv in Hw. destruct Hw as [Hk Hw]. split; [apply keys_sorted_NoDup, Hk|].
    rewrite Forall_forall in *. intros x Hx. apply IH; auto.
Qed.

(* checkRecord, unfolded *)
Lemma check_value_rec attrs kvs :
  check_value (CRec attrs) (VRecord kvs) =
  forallb (fun a : str * (cty * bool) =>
             match rec_get (fst a) kvs with Some x => check_value (fst (snd a)) x | None => negb (snd (snd a)) end) attrs &&
  forallb (fun kv : str * value => match alookup (fst kv) attrs with Some _ => true | None => false end) kvs.
Proof.
  cbn [check_value]. f_equal.
  induction attrs as [|[name [t' req]] r IH]; [reflexivity|].
  cbn [forallb fst snd]. rewrite <- IH. reflexivity.
Qed.

(* vtyped speaks of EVERY binding of a record, not of the first one for each key *)
Lemma vtyped_member kvs attrs k x t q : vtyped (VRecord kvs) (CRec attrs) -> In (k, x) kvs -> alookup k attrs = Some (t, q) -> vtyped x t.
Proof.
  intros H Hin E. apply vtyped_rec_inv in H. destruct H as [H _]. rewrite Forall_forall in H.
  destruct (H _ Hin) as (t' & q' & E' & Hx). cbn [fst snd] in E', Hx. rewrite E in E'. injection E' as <- <-. exact Hx.
Qed.

(* checkExtensionValue on the four extension types *)
Lemma check_value_ext n v : known_ext n = true -> check_value (CExt n) v = true -> vtyped v (CExt n).
Proof.
  unfold known_ext. intros H. repeat (apply orb_true_iff in H; destruct H as [H|H]); apply nm_true_eq in H; subst n;
    intros Hc; vm_compute in Hc; destruct v; try discriminate Hc; constructor.
Qed.

(* Both directions go by induction on the VALUE: check_value at a record type and vtyped both reach the member types through a lookup
   by the member's key, so the members of the value are what the two have in common. *)
Theorem check_value_sound : forall t v, decl_ty t -> vnodup v -> check_value t v = true -> vtyped v t.
Proof.
  intros t v. revert t. induction v as [b|z|s|ty i|l IH|kvs IH|z|z|z|b a p] using value_ind'; intros t Hd Hn Hc;
    destruct t as [| | | | | |e|attrs|[|x [|y r]]|n]; try discriminate Hd; try (apply check_value_ext; assumption); try discriminate Hc.
  1-3: constructor.
  - apply str_eqb_eq in Hc. subst x. constructor. left; reflexivity.
  - apply vnodup_set in Hn. cbn [check_value] in Hc. rewrite forallb_forall in Hc. rewrite Forall_forall in IH, Hn.
    constructor. apply Forall_forall. intros x Hx. apply (IH x Hx e); auto.
  - rewrite check_value_rec in Hc. apply andb_true_iff in Hc. destruct Hc as [Heach Hclosed]. rewrite forallb_forall in Heach, Hclosed.
    apply vnodup_rec in Hn. destruct Hn as [Hnd Hn]. apply decl_ty_rec in Hd. rewrite Forall_forall in IH, Hn, Hd.
    constructor.
    + apply Forall_forall. intros [k x] Hkv. specialize (Hclosed _ Hkv). cbn [fst snd] in *.
      destruct (alookup k attrs) as [[t q]|] eqn:E; [|discriminate]. exists t, q. split; [reflexivity|].
      apply alookup_In in E. specialize (Heach _ E). cbn [fst snd] in Heach. rewrite (rec_get_nodup kvs k x Hnd Hkv) in Heach.
      apply (IH _ Hkv t (Hd _ E) (Hn _ Hkv) Heach).
    + intros k t E. apply alookup_In in E. specialize (Heach _ E). cbn [fst snd] in Heach.
      destruct (rec_get k kvs) as [x|]; [eauto | discriminate].
Qed.

(* on a value that is neither a set nor a record, by cases on the typing derivation *)
Lemma check_value_leaf v t : vtyped v t -> decl_ty t -> match v with VSet _ | VRecord _ => True | _ => check_value t v = true end.
Proof.
  destruct 1 as [| | | | |ty i l Hin| | | | | |]; intros Hd; try exact I; try reflexivity; try discriminate Hd.
  destruct l as [|x [|y r]]; try discriminate Hd. destruct Hin as [<-|[]]. apply str_eqb_refl.
Qed.

Theorem check_value_complete : forall t v, decl_ty t -> WT t -> vtyped v t -> check_value t v = true.
Proof.
  intros t v. revert t. induction v as [b|z|s|ty i|l IH|kvs IH|z|z|z|b a p] using value_ind'; intros t Hd Hw Ht;
    try exact (check_value_leaf _ _ Ht Hd).
  - inversion Ht as [| | | | | |? e Hall| | | | |]; subst.
    rewrite Forall_forall in IH, Hall. apply forallb_forall. intros x Hx. apply (IH x Hx e); auto.
  - inversion Ht as [| | | | | | |? attrs Hall Hreq| | | |]; subst.
    rewrite check_value_rec. apply WT_rec in Hw. destruct Hw as [Hnd Hw]. apply decl_ty_rec in Hd. rewrite Forall_forall in IH, Hw, Hall, Hd.
    apply andb_true_iff. split; apply forallb_forall.
    + intros [name [t' req]] Hin. cbn [fst snd]. pose proof (rec_get_nodup attrs name (t', req) Hnd Hin) as El. rewrite rec_get_alookup in El.
      destruct (rec_get name kvs) as [x|] eqn:E.
      * apply rec_get_In in E. apply (IH _ E t' (Hd _ Hin) (Hw _ Hin)), (vtyped_member _ _ _ _ _ _ Ht E El).
      * destruct req; [|reflexivity]. destruct (Hreq _ _ El) as [x Hx]. congruence.
    + intros kv Hkv. destruct (Hall _ Hkv) as (t & q & El & _). rewrite El. reflexivity.
Qed.

Corollary check_value_iff : forall t v, decl_ty t -> WT t -> vnodup v -> (check_value t v = true <-> vtyped v t).
Proof. intros t v Hd Hw Hn. split; [apply check_value_sound | apply check_value_complete]; assumption. Qed.

(* neither vnodup in check_value_sound nor WT in check_value_complete can be dropped *)
(* a record value with a repeated key: check_value only sees the first binding *)
Example check_value_sound_needs_nodup :
  let t := CRec [(s_of "a", (CLong, true))] in
  let v := VRecord [(s_of "a", VLong 1); (s_of "a", VString [])] in
  decl_ty t /\ WT t /\ check_value t v = true /\ ~ vtyped v t.
Proof.
  cbv zeta. split; [reflexivity|]. split; [cbn; split; [repeat constructor; intros []|auto]|]. split; [vm_compute; reflexivity|].
  intros H. assert (X : vtyped (VString []) CLong); [|inversion X].
  apply (vtyped_member _ _ (s_of "a") _ _ true H); [right; left; reflexivity | reflexivity].
Qed.

(* a record type with a repeated key: vtyped only sees the first entry *)
Example check_value_complete_needs_WT :
  let t := CRec [(s_of "a", (CLong, false)); (s_of "a", (CString, true))] in
  let v := VRecord [(s_of "a", VLong 1)] in
  decl_ty t /\ vnodup v /\ vtyped v t /\ check_value t v = false.
Proof.
  cbv zeta. split; [reflexivity|]. split; [cbn; split; [repeat constructor; intros []|auto]|]. split; [|vm_compute; reflexivity].
  constructor.
  - constructor; [|constructor]. exists CLong, false. split; [reflexivity | constructor].
  - intros k t E. cbn [alookup] in E. destruct (str_eqb (s_of "a") k); [discriminate E|]. destruct (str_eqb (s_of "a") k); discriminate E.
Qed.

(* every attribute type and tag type of every declared entity type is a declared type *)
Definition schema_decl (sch : tschema) : Prop :=
  forall n te, entity_of sch n = Some te -> decl_ty (CRec (te_shape te)) /\ forall tt, te_tags te = Some tt -> decl_ty tt.
(* the enumerated types the checker knows (with their ids) are enumerated types of the schema *)
Definition enums_ok (sch : tschema) (enums : list (str * list str)) : Prop :=
  forall n, alookup n enums <> None -> smem n (ts_enums sch) = true.
(* the values an entity carries are Go values: record keys pairwise distinct at every depth *)
Definition entity_vals_ok (e : entity) : Prop :=
  vnodup (VRecord (e_attrs e)) /\ Forall (fun kv : str * value => vnodup (snd kv)) (e_tags e).
Definition store_vals_ok (st : store) : Prop := Forall (fun ue : uid * entity => entity_vals_ok (snd ue)) st.
Definition entity_vals_wf (e : entity) : Prop :=
  wf_value (VRecord (e_attrs e)) = true /\ Forall (fun kv : str * value => wf_value (snd kv) = true) (e_tags e).
Definition store_vals_wf (st : store) : Prop := Forall (fun ue : uid * entity => entity_vals_wf (snd ue)) st.

Lemma store_vals_wf_ok st : store_vals_wf st -> store_vals_ok st.
Proof.
  unfold store_vals_wf, store_vals_ok. rewrite !Forall_forall. intros H ue Hue. destruct (H _ Hue) as [H1 H2].
  split; [apply wf_value_vnodup, H1|]. rewrite Forall_forall in *. intros kv Hkv. apply wf_value_vnodup, H2, Hkv.
Qed.

(* the clauses of actions_conform / store_types_known for one entity *)
Definition action_clause (sch : tschema) (u : uid) (e : entity) : Prop :=
  is_action_type (fst u) = true -> entity_of sch (fst u) = None -> smem (fst u) (ts_enums sch) = false ->
  exists ps, aparents sch u = Some ps /\ forall p, In p (e_parents e) -> aclosure sch u p.
Definition known_clause (sch : tschema) (u : uid) : Prop :=
  entity_of sch (fst u) <> None \/ smem (fst u) (ts_enums sch) = true \/ is_action_type (fst u) = true.

Lemma lookup_In (st : store) u e : lookup st u = Some e -> In (u, e) st.
Proof.
  induction st as [|[k e'] st IH]; cbn [lookup]; [discriminate|].
  destruct (uid_eqb k u) eqn:E.
  - intros H. inversion H; subst. apply uid_eqb_eq in E. subst. left; reflexivity.
  - intros H. right. apply IH, H.
Qed.

Section Entities.
  Variable sch : tschema.
  Variable enums : list (str * list str).

  (* soundness of the closure walk, any fuel: whatever it adds is reachable *)
  Lemma cwalk_fold_sound f
    (IHf : forall u cl x, In x (cwalk sch f u cl) -> In x cl \/ x = u \/ aclosure sch u x) :
    forall ps acc x, In x (fold_left (fun acc p => cwalk sch f p acc) ps acc) ->
      In x acc \/ exists p, In p ps /\ (x = p \/ aclosure sch p x).
  Proof.
    induction ps as [|p ps IHps]; intros acc x Hx; cbn [fold_left] in Hx; [left; exact Hx|].
    destruct (IHps _ _ Hx) as [H|(q & Hq & H)]; [|right; exists q; split; [right; exact Hq | exact H]].
    destruct (IHf _ _ _ H) as [H'|H']; [left; exact H' | right; exists p; split; [left; reflexivity | exact H']].
  Qed.

  Lemma parents_aclosure u p x : In p (aparents_l sch u) -> x = p \/ aclosure sch p x -> aclosure sch u x.
  Proof.
    intros Hp H. apply aedge_parents in Hp. destruct H as [->|H]; [apply t_step, Hp | eapply t_trans; [apply t_step, Hp | exact H]].
  Qed.

  Lemma cwalk_sound : forall f u cl x, In x (cwalk sch f u cl) -> In x cl \/ x = u \/ aclosure sch u x.
  Proof.
    induction f as [|f IH]; intros u cl x Hx; cbn [cwalk] in Hx; [left; exact Hx|].
    destruct (umem u cl); [left; exact Hx|].
    destruct (cwalk_fold_sound f IH _ _ _ Hx) as [[<-|H]|(p & Hp & H)]; [right; left; reflexivity | left; exact H | right; right].
    eapply parents_aclosure; eauto.
  Qed.

  Lemma action_closure_sound u x : In x (action_closure sch u) -> aclosure sch u x.
  Proof.
    unfold action_closure. intros Hx.
    destruct (cwalk_fold_sound _ (cwalk_sound _) _ _ _ Hx) as [[]|(p & Hp & H)]. eapply parents_aclosure; eauto.
  Qed.

  Lemma aparents_key u : In u (akeys sch) -> aparents sch u <> None.
  Proof.
    unfold akeys, aparents. induction (ts_agraph sch) as [|[a ps] r IH]; intros Hin; [destruct Hin|].
    cbn [map fst] in Hin. destruct (uid_eqb a u) eqn:E; [discriminate|].
    destruct Hin as [<-|Hin]; [rewrite uid_eqb_refl in E; discriminate | apply IH, Hin].
  Qed.

  (* Completeness of the closure walk: the fuel action_closure gives always suffices.
     cwalk is the depth-first search of TypeSoundLemmas (Section Search) over the action graph with a test that never hits: it only
     collects its visited set.  What a search that does not hit returns is closed under parents (explored), for any fuel above the
     number of graph keys.  Neither agraph_wf nor NoDup of the keys is needed. *)
  Local Notation cw := (fun f u vis => (false, cwalk sch f u vis)).

  Lemma cwalk_wgo f : forall ps vis,
    wgo (fun _ : uid => false) cw f ps vis = (false, fold_left (fun acc p => cwalk sch f p acc) ps vis).
  Proof. induction ps as [|p ps IH]; intros vis; cbn [wgo fold_left]; [reflexivity | apply IH]. Qed.

  Lemma cwalk_S f u vis :
    cw (S f) u vis = if existsb (uid_eqb u) vis then (false, vis) else wgo (fun _ => false) cw f (aparents_l sch u) (u :: vis).
  Proof. rewrite cwalk_wgo. cbn [cwalk]. unfold umem, aparents_l. destruct (existsb (uid_eqb u) vis); reflexivity. Qed.

  (* the closure is closed under parents and contains the parents of u *)
  Lemma action_closure_closed u :
    (forall p, aedge sch u p -> In p (action_closure sch u)) /\
    (forall x, In x (action_closure sch u) -> forall p, aedge sch x p -> In p (action_closure sch u)).
  Proof.
    assert (Hfuel : (unv uid_eqb (akeys sch) [] + 1 <= S (S (List.length (ts_agraph sch))))%nat).
    { pose proof (unv_le uid_eqb (akeys sch) []) as H. unfold akeys in *. rewrite map_length in H. lia. }
    destruct (wgo_false uid_eqb uid_eqb_eq (aparents_l sch) (akeys sch) (fun _ => false) cw _
                (walk_false uid_eqb uid_eqb_eq (aparents_l sch) (akeys sch) (fun _ => false) cw (aparents_l_key sch) cwalk_S _)
                (aparents_l sch u) [] _ Hfuel (cwalk_wgo _ _ _)) as [[_ E] Hps].
    unfold action_closure. fold (aparents_l sch u). split.
    - intros p Hp. apply Hps, aedge_parents, Hp.
    - intros x Hx p Hp. apply (E x Hx (fun F => F) p), aedge_parents, Hp.
  Qed.

  (* COMPLETENESS: every action reachable from u through the declared groups is in the closure; no hypothesis on the schema *)
  Theorem action_closure_complete0 : forall u x, aclosure sch u x -> In x (action_closure sch u).
  Proof.
    intros u x Hx. destruct (action_closure_closed u) as [Hu Hc].
    assert (G : forall a b, clos_trans uid (aedge sch) a b ->
                  (forall p, aedge sch a p -> In p (action_closure sch u)) -> In b (action_closure sch u)).
    { intros a b X. induction X as [a b X | a y b _ IH1 _ IH2]; intros Ha.
      - apply Ha, X.
      - apply IH2. apply Hc. apply IH1, Ha. }
    apply (G _ _ Hx Hu).
  Qed.

  Theorem action_closure_exact0 : forall u x, In x (action_closure sch u) <-> aclosure sch u x.
  Proof. intros u x. split; [apply action_closure_sound | apply action_closure_complete0]. Qed.

  (* the same two under agraph_wf, which is not used *)
  Theorem action_closure_complete : agraph_wf sch -> forall u x, aclosure sch u x -> In x (action_closure sch u).
  Proof. intros _. exact action_closure_complete0. Qed.

  Theorem action_closure_exact : agraph_wf sch -> forall u x, In x (action_closure sch u) <-> aclosure sch u x.
  Proof. intros _. exact action_closure_exact0. Qed.

  (* what validateActionEntity accepts, exactly: a declared action without attributes and tags whose parents are the transitive
     closure of its declared groups (agraph_wf is not used) *)
  Theorem check_action_entity_exact : agraph_wf sch -> forall u e, check_action_entity sch (u, e) = true <->
    (umem u (ts_actions sch) = true /\ e_attrs e = [] /\ e_tags e = [] /\ (forall p, In p (e_parents e) <-> aclosure sch u p)).
  Proof.
    intros _ u e. unfold check_action_entity. cbn [fst snd].
    rewrite !andb_true_iff, !forallb_forall. split.
    - intros [[[Hd Ha] Ht] [H1 H2]].
      split; [exact Hd|]. split; [destruct (e_attrs e); [reflexivity | discriminate]|].
      split; [destruct (e_tags e); [reflexivity | discriminate]|].
      intros p. split.
      + intros Hp. apply action_closure_exact0, umem_In, H1, Hp.
      + intros Hp. apply umem_In, H2, action_closure_exact0, Hp.
    - intros (Hd & Ha & Ht & Hp). rewrite Ha, Ht. split; [split; [split|]; auto|]. split.
      + intros p Hin. apply umem_In, action_closure_exact0, Hp, Hin.
      + intros p Hin. apply umem_In, Hp, action_closure_exact0, Hin.
  Qed.

  Hypothesis Hdecl : schema_decl sch.
  Hypothesis Hg : agraph_wf sch.
  Hypothesis Henums : enums_ok sch enums.

  Theorem check_entity_sound : forall u e, entity_vals_ok e -> check_entity sch enums (u, e) = true ->
    entity_ok sch u e /\ action_clause sch u e /\ known_clause sch u.
  Proof.
    intros u e [Hva Hvt] Hc. unfold check_entity in Hc. cbn [fst snd] in Hc. unfold entity_ok, known_clause, entity_of in *.
    destruct (is_action_type (fst u)) eqn:Ea.
    - (* an action entity *)
      apply (check_action_entity_exact Hg) in Hc. destruct Hc as (Hd & Hat & Htg & Hp).
      destruct Hg as (Hkeys & _ & Hact & _). destruct (Hact _ Ea) as [Hn Hs]. unfold entity_of in Hn. rewrite Hn.
      split; [|split]; [split; [|split]; [assumption.. | congruence] | | auto].
      intros _ _ _. apply umem_In, Hkeys, aparents_key in Hd.
      destruct (aparents sch u) as [ps|]; [|congruence]. exists ps. split; [reflexivity | apply Hp].
    - destruct (alookup (fst u) (ts_entities sch)) as [te|] eqn:Ee.
      + (* an entity of a declared type *)
        destruct (Hdecl _ _ Ee) as [Hds Hdt]. unfold check_declared_entity in Hc. rewrite !andb_true_iff in Hc.
        destruct Hc as [[Hps Hat] Htg]. rewrite forallb_forall in Hps.
        split; [split; [|split] | split; [intros X; congruence | left; congruence]].
        * apply check_value_sound; assumption.
        * intros k v Hk. apply rec_get_In in Hk.
          destruct (te_tags te) as [tg|]; [|destruct (e_tags e); [destruct Hk | discriminate]].
          exists tg. split; [reflexivity|]. rewrite forallb_forall in Htg. rewrite Forall_forall in Hvt.
          apply check_value_sound; [apply Hdt; reflexivity | apply (Hvt _ Hk) | apply (Htg _ Hk)].
        * intros p Hp. apply smem_In, Hps, Hp.
      + (* an entity of an enumerated type *)
        destruct (alookup (fst u) enums) as [ids|] eqn:En; [|discriminate].
        apply andb_true_iff in Hc. destruct Hc as [_ Hc].
        destruct (e_parents e), (e_attrs e), (e_tags e); try discriminate Hc.
        split; [auto | split; [intros X; congruence | right; left; apply Henums; congruence]].
  Qed.

  (* NoDup (map fst st) is not needed: lookup returns a listed entity *)
  Theorem check_entities_sound : forall st, store_vals_ok st -> check_entities sch enums st = true ->
    store_ok sch st /\ actions_conform sch st /\ store_types_known sch st.
  Proof.
    intros st Hv Hc. unfold check_entities in Hc. rewrite forallb_forall in Hc. unfold store_vals_ok in Hv. rewrite Forall_forall in Hv.
    assert (H : forall u e, lookup st u = Some e -> entity_ok sch u e /\ action_clause sch u e /\ known_clause sch u).
    { intros u e Hl. apply lookup_In in Hl. apply check_entity_sound; [apply (Hv _ Hl) | apply (Hc _ Hl)]. }
    split; [|split]; intros u e Hl; apply (H _ _ Hl).
  Qed.
End Entities.

(* every declared context type is a declared type *)
Definition acts_decl (acts : list (uid * applies)) : Prop :=
  forall u ps rs ctx, In (u, Some (ps, rs, ctx)) acts -> decl_ty (CRec ctx).
(* the declared context of an action (empty if the action is not declared or applies to nothing) *)
Definition ctx_of (acts : list (uid * applies)) (a : uid) : list (str * (cty * bool)) :=
  match applies_of acts a with Some (Some (_, _, c)) => c | _ => [] end.
Definition req_tenv (acts : list (uid * applies)) (p a r : uid) : tenv :=
  {| tv_principal := fst p; tv_action := a; tv_resource := fst r; tv_context := ctx_of acts a |}.
Definition req_env (st : store) (p a r : uid) (ctx : list (str * value)) : env :=
  {| e_store := st; e_principal := VEntity (fst p) (snd p); e_action := VEntity (fst a) (snd a);
     e_resource := VEntity (fst r) (snd r); e_context := VRecord ctx |}.

Section Requests.
  Variable sch : tschema.
  Variable acts : list (uid * applies).
  Hypothesis Hacts : acts_decl acts.

  Theorem check_request_sound : forall p a r ctx, vnodup (VRecord ctx) -> check_request sch acts p a r ctx = true ->
    let tv := {| tv_principal := fst p; tv_action := a; tv_resource := fst r; tv_context := ctx_of acts a |} in
    request_env sch acts tv /\ vtyped (VEntity (fst p) (snd p)) (CEnt [fst p]) /\ vtyped (VEntity (fst r) (snd r)) (CEnt [fst r]) /\
    vtyped (VRecord ctx) (CRec (tv_context tv)).
  Proof.
    intros p a r ctx Hn Hc tv. unfold check_request in Hc.
    destruct (applies_of acts a) as [[[[ps rs] c]|]|] eqn:Ea; try discriminate.
    rewrite !andb_true_iff in Hc. destruct Hc as [[[[Hkp Hps] Hkr] Hrs] Hctx].
    assert (Ec : tv_context tv = c) by (unfold tv, ctx_of; cbn [tv_context]; rewrite Ea; reflexivity).
    split; [|split; [|split]].
    - unfold request_env. split; [|split; [exact Hkp | exact Hkr]].
      exists ps, rs, c. cbn [tv tv_action tv_principal tv_resource].
      split; [exact Ea|]. split; [apply smem_In, Hps|]. split; [apply smem_In, Hrs | exact Ec].
    - constructor. left; reflexivity.
    - constructor. left; reflexivity.
    - rewrite Ec. apply check_value_sound; [|exact Hn | exact Hctx].
      apply applies_of_In in Ea. apply (Hacts _ _ _ _ Ea).
  Qed.

  Theorem checks_env_ok : forall enums st p a r ctx,
    schema_decl sch -> agraph_wf sch -> enums_ok sch enums -> store_vals_ok st -> vnodup (VRecord ctx) ->
    check_entities sch enums st = true -> check_request sch acts p a r ctx = true ->
    env_ok sch (req_tenv acts p a r) (req_env st p a r ctx).
  Proof.
    intros enums st p a r ctx Hsd Hg He Hv Hn Hes Hr.
    destruct (check_entities_sound sch enums Hsd Hg He st Hv Hes) as (Hst & _ & _).
    destruct (check_request_sound p a r ctx Hn Hr) as (_ & Hp & Hres & Hc).
    unfold env_ok, req_tenv, req_env. cbn [e_store e_principal e_action e_resource e_context tv_principal tv_action tv_resource tv_context].
    auto.
  Qed.
End Requests.

(* A policy the validator accepts (strict mode), evaluated on a store that Validator.Entities accepts and a request that
   Validator.Request accepts, yields a Boolean or one of the three allowed errors: never a type error.
   Every side condition of validate_policy_sound about the request and the store follows from the executable checks; what remains are
   the conditions on the SCHEMA (schema_wf, agraph_wf, acts_wf, schema_decl, acts_decl, enums_ok), the model artifact policy_keys_small,
   and that the values are Go values (store_vals_ok, vnodup of the context). *)
Theorem validated_and_conforming_never_type_errors : forall sch enums acts pol st p a r ctx,
  schema_wf sch -> agraph_wf sch -> acts_wf sch acts -> schema_decl sch -> acts_decl acts -> enums_ok sch enums ->
  policy_keys_small pol = true -> store_vals_ok st -> vnodup (VRecord ctx) ->
  validate_policy true sch acts pol = true -> check_entities sch enums st = true -> check_request sch acts p a r ctx = true ->
  match eval {| e_store := st; e_principal := VEntity (fst p) (snd p); e_action := VEntity (fst a) (snd a);
                e_resource := VEntity (fst r) (snd r); e_context := VRecord ctx |} (policy_to_expr pol) with
  | Ok v => exists b, v = VBool b
  | Err k => allowed_error k = true
  end.
Proof.
  intros sch enums acts pol st p a r ctx Hwf Hg Haw Hsd Had He Hks Hv Hn Hval Hes Hr.
  destruct (check_entities_sound sch enums Hsd Hg He st Hv Hes) as (_ & Hac & Hkn).
  destruct (check_request_sound sch acts Had p a r ctx Hn Hr) as (Hreq & _).
  pose proof (checks_env_ok sch acts Had enums st p a r ctx Hsd Hg He Hv Hn Hes Hr) as Hen.
  exact (validate_policy_sound sch acts pol Hwf Hg Haw Hks Hval (req_env st p a r ctx) (req_tenv acts p a r) Hreq Hen Hac Hkn).
Qed.

(* the same for well-formed values (wf_value: records strictly sorted by key, sets duplicate-free) *)
Corollary validated_and_conforming_never_type_errors_wf : forall sch enums acts pol st p a r ctx,
  schema_wf sch -> agraph_wf sch -> acts_wf sch acts -> schema_decl sch -> acts_decl acts -> enums_ok sch enums ->
  policy_keys_small pol = true -> store_vals_wf st -> wf_value (VRecord ctx) = true ->
  validate_policy true sch acts pol = true -> check_entities sch enums st = true -> check_request sch acts p a r ctx = true ->
  match eval {| e_store := st; e_principal := VEntity (fst p) (snd p); e_action := VEntity (fst a) (snd a);
                e_resource := VEntity (fst r) (snd r); e_context := VRecord ctx |} (policy_to_expr pol) with
  | Ok v => exists b, v = VBool b
  | Err k => allowed_error k = true
  end.
Proof.
  intros sch enums acts pol st p a r ctx Hwf Hg Haw Hsd Had He Hks Hv Hn.
  apply validated_and_conforming_never_type_errors; auto using store_vals_wf_ok, wf_value_vnodup.
Qed.

(* entity User in [Team] { age: Long, friends?: Set<User> } tags String;  entity Team;  entity Color enum ["red", "green"];
   action "all"; action "readers" in ["all"]; action "view" in ["readers"] appliesTo { principal: User, resource: [User, Team],
   context: { ip: ipaddr, note?: String } } *)
Definition xUser := s_of "User".
Definition xTeam := s_of "Team".
Definition xColor := s_of "Color".
Definition xAction := s_of "Action".
Definition a_view : uid := (xAction, s_of "view").
Definition a_readers : uid := (xAction, s_of "readers").
Definition a_all : uid := (xAction, s_of "all").
Definition ex_user : tentity :=
  {| te_parents := [xTeam];
     te_shape := [(s_of "age", (CLong, true)); (s_of "friends", (CSet (CEnt [xUser]), false))];
     te_tags := Some CString |}.
Definition ex_team : tentity := {| te_parents := []; te_shape := []; te_tags := None |}.
Definition ex_sch : tschema :=
  {| ts_entities := [(xUser, ex_user); (xTeam, ex_team)];
     ts_enums := [xColor];
     ts_actions := [a_view; a_readers; a_all];
     ts_agraph := [(a_view, [a_readers]); (a_readers, [a_all]); (a_all, [])] |}.
Definition ex_enums : list (str * list str) := [(xColor, [s_of "red"; s_of "green"])].
Definition ex_ctx : list (str * (cty * bool)) := [(s_of "ip", (xt "ipaddr", true)); (s_of "note", (CString, false))].
Definition ex_acts : list (uid * applies) :=
  [(a_view, Some ([xUser], [xUser; xTeam], ex_ctx)); (a_readers, None); (a_all, None)].

Definition u_alice : uid := (xUser, s_of "alice").
Definition u_bob : uid := (xUser, s_of "bob").
Definition u_t1 : uid := (xTeam, s_of "t1").
Definition u_red : uid := (xColor, s_of "red").
Definition bare : entity := {| e_parents := []; e_attrs := []; e_tags := [] |}.
Definition e_alice : entity :=
  {| e_parents := [u_t1];
     e_attrs := [(s_of "age", VLong 30); (s_of "friends", VSet [VEntity xUser (s_of "bob")])];
     e_tags := [(s_of "k", VString (s_of "v"))] |}.
Definition e_bob : entity := {| e_parents := []; e_attrs := [(s_of "age", VLong 5)]; e_tags := [] |}.
Definition ex_store : store :=
  [(u_alice, e_alice); (u_bob, e_bob); (u_t1, bare); (u_red, bare);
   (a_view, {| e_parents := [a_readers; a_all]; e_attrs := []; e_tags := [] |});
   (a_readers, {| e_parents := [a_all]; e_attrs := []; e_tags := [] |});
   (a_all, bare)].
Definition ex_reqctx : list (str * value) := [(s_of "ip", VIP false 2130706433 32)].

Definition ex_pol : policy :=
  {| p_effect := true; p_principal := SIs xUser; p_action := SEq a_view; p_resource := SAll;
     p_conds := [(true, EAnd (EGt (EAccess (EVar VPrincipal) (s_of "age")) (ELit (VLong 3)))
                             (EIn (EVar VAction) (ELit (VEntity xAction (s_of "all")))))] |}.

Example ex_entities_conform : check_entities ex_sch ex_enums ex_store = true.
Proof. vm_compute. reflexivity. Qed.
Example ex_request_conforms : check_request ex_sch ex_acts u_alice a_view u_t1 ex_reqctx = true.
Proof. vm_compute. reflexivity. Qed.
Example ex_closure : action_closure ex_sch a_view = [a_all; a_readers].
Proof. vm_compute. reflexivity. Qed.
Example ex_policy_validates : validate_policy true ex_sch ex_acts ex_pol = true.
Proof. vm_compute. reflexivity. Qed.

(* non-conforming variants: each is rejected *)
Definition with_entity (u : uid) (e : entity) : store := (u, e) :: ex_store.
(* an attribute the type does not declare *)
Example ex_bad_undeclared_attr :
  check_entity ex_sch ex_enums (u_bob, {| e_parents := []; e_attrs := [(s_of "age", VLong 5); (s_of "zzz", VBool true)]; e_tags := [] |}) = false.
Proof. vm_compute. reflexivity. Qed.
(* a required attribute is missing *)
Example ex_bad_missing_required :
  check_entity ex_sch ex_enums (u_bob, {| e_parents := []; e_attrs := []; e_tags := [] |}) = false.
Proof. vm_compute. reflexivity. Qed.
(* an attribute of the wrong type *)
Example ex_bad_attr_type :
  check_entity ex_sch ex_enums (u_bob, {| e_parents := []; e_attrs := [(s_of "age", VString (s_of "5"))]; e_tags := [] |}) = false.
Proof. vm_compute. reflexivity. Qed.
(* an action entity with a parent outside the closure of its declared groups *)
Example ex_bad_action_parent :
  check_entity ex_sch ex_enums (a_readers, {| e_parents := [a_all; a_view]; e_attrs := []; e_tags := [] |}) = false.
Proof. vm_compute. reflexivity. Qed.
(* an action entity that lacks a member of the closure (the code demands equality; the theorems only use the inclusion) *)
Example ex_bad_action_parent_missing :
  check_entity ex_sch ex_enums (a_view, {| e_parents := [a_readers]; e_attrs := []; e_tags := [] |}) = false.
Proof. vm_compute. reflexivity. Qed.
(* an undeclared action *)
Example ex_bad_action_undeclared :
  check_entity ex_sch ex_enums ((xAction, s_of "delete"), bare) = false.
Proof. vm_compute. reflexivity. Qed.
(* an enumerated entity with an id the enumeration does not list *)
Example ex_bad_enum_id : check_entity ex_sch ex_enums ((xColor, s_of "blue"), bare) = false.
Proof. vm_compute. reflexivity. Qed.
(* a tag on an entity whose type declares no tags *)
Example ex_bad_tag : check_entity ex_sch ex_enums (u_t1, {| e_parents := []; e_attrs := []; e_tags := [(s_of "k", VString [])] |}) = false.
Proof. vm_compute. reflexivity. Qed.
(* a parent of a type that is not a declared parent type *)
Example ex_bad_parent_type : check_entity ex_sch ex_enums (u_t1, {| e_parents := [u_bob]; e_attrs := []; e_tags := [] |}) = false.
Proof. vm_compute. reflexivity. Qed.
(* an entity of an unknown type *)
Example ex_bad_unknown_type : check_entity ex_sch ex_enums ((s_of "Robot", s_of "r2"), bare) = false.
Proof. vm_compute. reflexivity. Qed.
(* one bad entity makes the store non-conforming *)
Example ex_bad_store : check_entities ex_sch ex_enums (with_entity (xColor, s_of "blue") bare) = false.
Proof. vm_compute. reflexivity. Qed.
(* requests: principal type outside appliesTo; missing required context attribute; undeclared context attribute; action that applies to
   nothing; undeclared action *)
Example ex_bad_request_principal : check_request ex_sch ex_acts u_t1 a_view u_t1 ex_reqctx = false.
Proof. vm_compute. reflexivity. Qed.
Example ex_bad_request_ctx_missing : check_request ex_sch ex_acts u_alice a_view u_t1 [] = false.
Proof. vm_compute. reflexivity. Qed.
Example ex_bad_request_ctx_extra :
  check_request ex_sch ex_acts u_alice a_view u_t1 [(s_of "ip", VIP false 2130706433 32); (s_of "zzz", VLong 0)] = false.
Proof. vm_compute. reflexivity. Qed.
Example ex_bad_request_group : check_request ex_sch ex_acts u_alice a_readers u_t1 ex_reqctx = false.
Proof. vm_compute. reflexivity. Qed.
Example ex_bad_request_action : check_request ex_sch ex_acts u_alice (xAction, s_of "delete") u_t1 ex_reqctx = false.
Proof. vm_compute. reflexivity. Qed.

(* store_vals_ok cannot be dropped from check_entity_sound: an attribute list with a repeated key *)
Example check_entity_sound_needs_vals_ok :
  let e := {| e_parents := []; e_attrs := [(s_of "age", VLong 5); (s_of "age", VString [])]; e_tags := [] |} in
  check_entity ex_sch ex_enums (u_bob, e) = true /\ ~ entity_ok ex_sch u_bob e.
Proof.
  cbv zeta. split; [vm_compute; reflexivity|]. intros H. unfold entity_ok in H.
  assert (E : alookup (fst u_bob) (ts_entities ex_sch) = Some ex_user) by (vm_compute; reflexivity).
  rewrite E in H. destruct H as [H _]. assert (X : vtyped (VString []) CLong); [|inversion X].
  apply (vtyped_member _ _ (s_of "age") _ _ true H); [right; left; reflexivity | reflexivity].
Qed.

(* the hypotheses of the end-to-end theorem hold of the example schema *)
Lemma ex_schema_decl : schema_decl ex_sch.
Proof.
  intros n te E. apply alookup_In in E. destruct E as [E|[E|[]]]; inversion E;
    (split; [reflexivity | intros tt Et; inversion Et; reflexivity]).
Qed.

Lemma ex_schema_wf : schema_wf ex_sch.
Proof.
  split; [reflexivity|]. intros n te E. apply alookup_In in E. destruct E as [E|[E|[]]]; inversion E;
    (split; [|intros tt Et; inversion Et; exact I]); intros k t q Ek; apply alookup_In in Ek;
    repeat (destruct Ek as [Ek|Ek]; [inversion Ek; exact I|]); destruct Ek.
Qed.

Lemma ex_agraph_wf : agraph_wf ex_sch.
Proof.
  split; [|split; [|split]].
  - intros u. exact (iff_refl _).
  - intros a ps [E|[E|[E|[]]]]; inversion E; (split; [reflexivity | cbn; intuition auto]).
  - intros n Hn. split.
    + apply alookup_none_keys. intros [<-|[<-|[]]]; discriminate Hn.
    + destruct (smem n (ts_enums ex_sch)) eqn:E; [|reflexivity]. apply smem_In in E. destruct E as [<-|[]]. discriminate Hn.
  - intros n te p E Hp. apply alookup_In in E. destruct E as [E|[E|[]]]; inversion E; subst te; cbn in Hp; intuition (subst; reflexivity).
Qed.

Lemma ex_acts_wf : acts_wf ex_sch ex_acts.
Proof.
  split; [intros u; exact (iff_refl _)|].
  intros u ps rs c [E|[E|[E|[]]]]; inversion E. apply WT_rec. split; [apply keys_sorted_NoDup; reflexivity | repeat constructor].
Qed.

Lemma ex_acts_decl : acts_decl ex_acts.
Proof. intros u ps rs c [E|[E|[E|[]]]]; inversion E. reflexivity. Qed.

Lemma ex_enums_ok : enums_ok ex_sch ex_enums.
Proof.
  intros n H. apply alookup_keys in H. destruct H as [<-|[]]. reflexivity.
Qed.

Lemma ex_store_vals_wf : store_vals_wf ex_store.
Proof.
  unfold store_vals_wf, entity_vals_wf, ex_store.
  repeat (constructor; [split; [vm_compute; reflexivity | repeat constructor]|]). constructor.
Qed.

(* the end-to-end theorem, instantiated: no evaluation is performed to obtain it *)
Example ex_never_type_errors :
  match eval (req_env ex_store u_alice a_view u_t1 ex_reqctx) (policy_to_expr ex_pol) with
  | Ok v => exists b, v = VBool b
  | Err k => allowed_error k = true
  end.
Proof.
  apply (validated_and_conforming_never_type_errors_wf ex_sch ex_enums ex_acts ex_pol ex_store u_alice a_view u_t1 ex_reqctx
           ex_schema_wf ex_agraph_wf ex_acts_wf ex_schema_decl ex_acts_decl ex_enums_ok).
  - vm_compute. reflexivity.
  - exact ex_store_vals_wf.
  - vm_compute. reflexivity.
  - exact ex_policy_validates.
  - exact ex_entities_conform.
  - exact ex_request_conforms.
Qed.
(* and what the evaluator actually returns *)
Example ex_eval : eval (req_env ex_store u_alice a_view u_t1 ex_reqctx) (policy_to_expr ex_pol) = Ok (VBool true).
Proof. vm_compute. reflexivity. Qed.

Print Assumptions check_value_sound.
Print Assumptions check_value_complete.
Print Assumptions check_value_sound_needs_nodup.
Print Assumptions check_value_complete_needs_WT.
Print Assumptions action_closure_complete.
Print Assumptions action_closure_exact.
Print Assumptions check_action_entity_exact.
Print Assumptions check_entity_sound.
Print Assumptions check_entities_sound.
Print Assumptions check_request_sound.
Print Assumptions checks_env_ok.
Print Assumptions validated_and_conforming_never_type_errors.
Print Assumptions validated_and_conforming_never_type_errors_wf.
Print Assumptions check_entity_sound_needs_vals_ok.
Print Assumptions ex_never_type_errors.
