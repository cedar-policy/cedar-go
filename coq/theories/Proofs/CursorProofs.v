(* The specification tokenizer [spec_tokenize] (Lang/Cursor.v: the control flow of Impl/Tokenizer.v
   over the reader-free cursor) reports exact byte offsets, exact token texts, exact line/column positions, produces
   tokens in strictly increasing non-overlapping order, ends with exactly one EOF token, and terminates with fuel
   [length src + 1]. *)
From Coq Require Import ZArith List Bool Lia.
Import ListNotations.
From Cedar Require Import Base.Utf8 Lang.Value Impl.Scanner Impl.Tokenizer Lang.Cursor Proofs.TokenizerParam.
Local Open Scope Z_scope.

(* the (character, width) pair both [c_next] and [line_col] compute for a non-empty rest [b :: r] *)
Definition dec1 (b : Z) (r : list Z) : Z * nat := if b <? 128 then (b, 1%nat) else decode_rune (b :: r).

Lemma dec1_decode : forall b r, dec1 b r = decode_rune (b :: r).
Proof. intros b r. unfold dec1, decode_rune. destruct (b <? 128); reflexivity. Qed.

Lemma dec1_width : forall b r ch w, dec1 b r = (ch, w) -> (1 <= w <= S (length r))%nat.
Proof.
  intros b r ch w H. unfold dec1, decode_rune in H.
  repeat match type of H with
         | context [if ?c then _ else _] => destruct c
         | context [match ?l with [] => _ | _ :: _ => _ end] => destruct l
         end; inversion H; subst; cbn [length]; lia.
Qed.

Lemma skipn_nil_length : forall (A : Type) n (l : list A), skipn n l = [] -> (length l <= n)%nat.
Proof.
  intros A n l H. pose proof (skipn_length n l) as HL. rewrite H in HL. cbn [length] in HL. lia.
Qed.

Lemma skipn_add : forall (A : Type) w p (l : list A), skipn p (skipn w l) = skipn (w + p) l.
Proof.
  intros A w. induction w as [|w IH]; intros p l; [reflexivity|].
  destruct l as [|x l]; [destruct p; reflexivity|]. cbn [skipn Nat.add]. apply IH.
Qed.

Lemma skipn_cons_length : forall (A : Type) n (l : list A) b r, skipn n l = b :: r -> (n + S (length r) = length l)%nat.
Proof.
  intros A n l b r H. pose proof (skipn_length n l) as HL. rewrite H in HL. cbn [length] in HL. lia.
Qed.

(* [walk s p l0 c0 l c]: consuming exactly [p] bytes of [s] as whole characters, starting at line/column (l0, c0),
   ends at line/column (l, c).  This is [line_col] as a relation. *)
Inductive walk : list Z -> nat -> Z -> Z -> Z -> Z -> Prop :=
| walk_0 : forall s l c, walk s 0 l c l c
| walk_S : forall s b r ch w p l0 c0 l c,
    s = b :: r -> dec1 b r = (ch, w) ->
    walk (skipn w s) p (if ch =? 10 then l0 + 1 else l0) (if ch =? 10 then 1 else c0 + 1) l c ->
    walk s (w + p) l0 c0 l c.

Lemma walk_line_col : forall s p l0 c0 l c, walk s p l0 c0 l c ->
  forall fuel, (p <= fuel)%nat -> line_col fuel s p l0 c0 = (l, c).
Proof.
  intros s p l0 c0 l c H. induction H as [s l c | s b r ch w p l0 c0 l c Hs Hd Hw IH]; intros fuel Hf.
  - destruct fuel; reflexivity.
  - pose proof (dec1_width _ _ _ _ Hd) as Hwd. subst s.
    destruct fuel as [|f]; [lia|].
    cbn [line_col]. destruct (w + p)%nat as [|n] eqn:Hn; [lia|].
    change (if b <? 128 then (b, 1%nat) else decode_rune (b :: r)) with (dec1 b r). rewrite Hd.
    replace (Nat.max w 1) with w by lia.
    replace (S n - w)%nat with p by lia.
    destruct (ch =? 10); apply IH; lia.
Qed.

Lemma walk_snoc : forall s p l0 c0 l c, walk s p l0 c0 l c ->
  forall b r ch w, skipn p s = b :: r -> dec1 b r = (ch, w) ->
  walk s (p + w) l0 c0 (if ch =? 10 then l + 1 else l) (if ch =? 10 then 1 else c + 1).
Proof.
  intros s p l0 c0 l c H. induction H as [s l c | s b0 r0 ch0 w0 p l0 c0 l c Hs Hd Hw IH]; intros b r ch w Hsk Hdec.
  - cbn [skipn] in Hsk. replace (0 + w)%nat with (w + 0)%nat by lia.
    eapply walk_S; [exact Hsk | exact Hdec | apply walk_0].
  - replace (w0 + p + w)%nat with (w0 + (p + w))%nat by lia.
    eapply walk_S; [exact Hs | exact Hd |].
    eapply IH; [|exact Hdec]. rewrite skipn_add. exact Hsk.
Qed.

Lemma walk_col_pos : forall s p l0 c0 l c, walk s p l0 c0 l c -> 1 <= c0 -> 1 <= c.
Proof.
  intros s p l0 c0 l c H. induction H as [s l c | s b r ch w p l0 c0 l c Hs Hd Hw IH]; intros Hc; [exact Hc|].
  apply IH. destruct (ch =? 10); lia.
Qed.

Lemma walk_position_of : forall src p l c, walk src p 1 1 l c -> (p <= length src)%nat -> position_of src p = (l, c).
Proof. intros src p l c H Hp. unfold position_of. apply walk_line_col; [exact H | lia]. Qed.

(* byte offset at which the lookahead character (the one [c_next] returned last) starts *)
Definition pos (c : cursor) : nat := (c_idx c - c_lastCharLen c)%nat.

(* [cinv src c ch]: [c] is a cursor over [src] whose lookahead character is [ch]:
   - either [ch] is the character decoded at byte [pos c] (width [c_lastCharLen c] > 0), and the line/column fields
     are the bookkeeping of [c_next] for the exact line/column (l, cl) of [pos c];
   - or the end of the source was reached ([ch = rune_eof], width 0). *)
Definition cinv (src : list Z) (c : cursor) (ch : Z) : Prop :=
  c_src c = src /\ (c_idx c <= length src)%nat /\ (c_lastCharLen c <= c_idx c)%nat /\
  exists l cl, walk src (pos c) 1 1 l cl /\
    ((exists b r, (0 < c_lastCharLen c)%nat /\ skipn (pos c) src = b :: r /\ dec1 b r = (ch, c_lastCharLen c) /\
        (if ch =? 10 then c_line c = l + 1 /\ c_col c = 0 /\ c_lastLineLen c = cl
         else c_line c = l /\ c_col c = cl))
     \/ (c_lastCharLen c = 0%nat /\ c_idx c = length src /\ ch = rune_eof /\
         ((c_line c = l /\ c_col c = cl) \/ (src = [] /\ c_col c = 0)))).

(* "[s'] is not behind [s] and collects the same token" *)
Definition le_cur (s s' : cursor) : Prop := (pos s <= pos s')%nat /\ c_tok s' = c_tok s.

Lemma le_cur_refl : forall s, le_cur s s.
Proof. intros s; split; [lia | reflexivity]. Qed.

Lemma le_cur_trans : forall a b c, le_cur a b -> le_cur b c -> le_cur a c.
Proof. intros a b c [H1 H2] [H3 H4]. split; [lia | congruence]. Qed.

Lemma le_cur_set_err : forall c, le_cur c (c_set_err c).
Proof. intros c. split; [unfold pos; cbn; lia | reflexivity]. Qed.

Lemma cinv_pos_le : forall src c ch, cinv src c ch -> (pos c <= length src)%nat.
Proof. intros src c ch (_ & H & _). unfold pos. lia. Qed.

Lemma cinv_not_eof : forall src c ch, cinv src c ch -> ch <> rune_eof -> (0 < c_lastCharLen c)%nat.
Proof.
  intros src c ch (_ & _ & _ & l & cl & _ & [(b & r & H & _) | (_ & _ & H & _)]) Hne; [exact H | contradiction].
Qed.

(* [c_next] on a cursor with bytes left: all it needs is the line and column of the next unread byte *)
Lemma c_next_char : forall src c b r, c_src c = src -> skipn (c_idx c) src = b :: r ->
  walk src (c_idx c) 1 1 (c_line c) (c_col c + 1) ->
  forall c' ch, c_next c = (c', ch) -> cinv src c' ch /\ pos c' = c_idx c /\ c_tok c' = c_tok c.
Proof.
  intros src c b r Hsrc Hsk Hnext c' ch. unfold c_next. rewrite Hsrc, Hsk.
  change (if b <? 128 then (b, 1%nat) else decode_rune (b :: r)) with (dec1 b r).
  destruct (dec1 b r) as [ch' w] eqn:Hd. pose proof (dec1_width _ _ _ _ Hd) as Hw.
  pose proof (skipn_cons_length _ _ _ _ _ Hsk) as Hlen.
  (* an invalid byte decodes to U+FFFD, never to a newline *)
  set (nl := (ch' =? 10) && negb ((128 <=? b) && (ch' =? rune_error) && Nat.eqb w 1)).
  assert (Hnl : nl = (ch' =? 10)).
  { unfold nl. destruct (ch' =? 10) eqn:E; [|reflexivity].
    apply Z.eqb_eq in E. subst ch'. change (10 =? rune_error) with false. rewrite andb_false_r. reflexivity. }
  set (c1 := {| c_src := src; c_idx := c_idx c + w; c_line := if nl then c_line c + 1 else c_line c;
                c_col := if nl then 0 else c_col c + 1; c_lastLineLen := if nl then c_col c + 1 else c_lastLineLen c;
                c_lastCharLen := w; c_tok := c_tok c; c_err := c_err c |}).
  assert (H1 : cinv src c1 ch' /\ pos c1 = c_idx c /\ c_tok c1 = c_tok c).
  { unfold cinv, pos. cbn [c1 c_src c_idx c_line c_col c_lastLineLen c_lastCharLen c_tok].
    replace (c_idx c + w - w)%nat with (c_idx c) by lia.
    split; [|split; reflexivity]. split; [reflexivity|]. split; [lia|]. split; [lia|].
    exists (c_line c), (c_col c + 1). split; [exact Hnext|]. left.
    exists b, r. split; [lia|]. split; [exact Hsk|]. split; [exact Hd|].
    rewrite Hnl. destruct (ch' =? 10); repeat split. }
  (* the error flag is no part of the invariant *)
  destruct ((128 <=? b) && (ch' =? rune_error) && Nat.eqb w 1 || (ch' =? 0)); intros E; injection E as <- <-; exact H1.
Qed.

(* the first character *)
Lemma c_next_init : forall src c ch, c_next (c_init src) = (c, ch) -> cinv src c ch.
Proof.
  intros [|b r] c ch E.
  - injection E as <- <-. unfold cinv, pos. cbn. repeat split; try lia.
    exists 1, 1. split; [apply walk_0|]. right. repeat split. right. split; reflexivity.
  - apply (c_next_char (b :: r) (c_init (b :: r)) b r eq_refl eq_refl (walk_0 _ _ _) _ _ E).
Qed.

(* every later character *)
Lemma c_next_spec : forall src c ch c' ch', cinv src c ch -> c_next c = (c', ch') ->
  cinv src c' ch' /\ le_cur c c' /\ (ch <> rune_eof -> (pos c < pos c')%nat).
Proof.
  intros src c ch c' ch' (Hsrc & Hidx & Hlcl & l & cl & Hwalk & Hst) E.
  (* line/column of the next unread byte *)
  assert (Hnext : (0 < c_lastCharLen c)%nat -> walk src (c_idx c) 1 1 (c_line c) (c_col c + 1)).
  { intros Hpos. destruct Hst as [(b & r & _ & Hsk & Hd & Hlc) | (H0 & _)]; [|lia].
    pose proof (walk_snoc _ _ _ _ _ _ Hwalk _ _ _ _ Hsk Hd) as HW.
    replace (pos c + c_lastCharLen c)%nat with (c_idx c) in HW by (unfold pos; lia).
    destruct (ch =? 10).
    - destruct Hlc as (-> & -> & _). exact HW.
    - destruct Hlc as (-> & ->). exact HW. }
  destruct (skipn (c_idx c) src) as [|b r] eqn:Hsk.
  - (* end of the source *)
    pose proof (skipn_nil_length _ _ _ Hsk) as Hlen.
    unfold c_next in E. rewrite Hsrc, Hsk in E. injection E as <- <-.
    unfold cinv, le_cur, pos.
    cbn [c_src c_idx c_line c_col c_lastLineLen c_lastCharLen c_tok].
    replace (c_idx c - 0)%nat with (c_idx c) by lia.
    split; [|split; [split; [lia | reflexivity] |]].
    + split; [reflexivity|]. split; [exact Hidx|]. split; [lia|].
      destruct Hst as [(b & r & Hpos & _) | (H0 & Hend & Heof & Hlc)].
      * exists (c_line c), (c_col c + 1). split; [apply Hnext; exact Hpos|].
        right. split; [reflexivity|]. split; [lia|]. split; [reflexivity|]. left.
        destruct (Nat.ltb_spec 0 (c_lastCharLen c)); [split; reflexivity | lia].
      * exists l, cl. split; [unfold pos in Hwalk; rewrite H0 in Hwalk; replace (c_idx c - 0)%nat with (c_idx c) in Hwalk by lia; exact Hwalk|].
        right. split; [reflexivity|]. split; [exact Hend|]. split; [reflexivity|].
        rewrite H0. cbn. exact Hlc.
    + intros Hne. destruct Hst as [(b & r & Hpos & _) | (_ & _ & Heof & _)]; [lia | contradiction].
  - (* a character *)
    assert (Hpos : (0 < c_lastCharLen c)%nat).
    { destruct Hst as [(b0 & r0 & Hpos & _) | (_ & Hend & _)]; [exact Hpos|]. apply skipn_cons_length in Hsk. lia. }
    destruct (c_next_char _ _ _ _ Hsrc Hsk (Hnext Hpos) _ _ E) as (Hi' & Hp' & Ht').
    split; [exact Hi'|]. unfold le_cur. rewrite Hp', Ht'. unfold pos.
    split; [split; [lia | reflexivity] | intros _; lia].
Qed.

Definition nxt (c : cursor) : option (cursor * Z) := Some (c_next c).

(* what [next_token] guarantees about the token it returns, when it was called with the lookahead at byte [lo] and
   returns with the lookahead at byte [hi] *)
Definition tok_ok (src : list Z) (lo hi : nat) (t : token) : Prop :=
  exists p0, (lo <= p0 <= hi)%nat /\ (hi <= length src)%nat /\ t_off t = Z.of_nat p0 /\
    t_text t = firstn (hi - p0) (skipn p0 src) /\ (t_type t <> TEOF -> (p0 < hi)%nat) /\
    (src <> [] \/ t_type t <> TEOF -> walk src p0 1 1 (t_line t) (t_col t)).

Lemma pos_token_start : forall s, pos (c_token_start s) = pos s.
Proof. reflexivity. Qed.
Lemma pos_token_stop : forall s, pos (c_token_stop s) = pos s.
Proof. reflexivity. Qed.

Lemma token_position_exact : forall src s ch off line col, cinv src s ch -> c_token_position s = (off, line, col) ->
  off = Z.of_nat (pos s) /\ (ch <> 10 -> src <> [] \/ ch <> rune_eof -> walk src (pos s) 1 1 line col).
Proof.
  intros src s ch off line col (Hsrc & Hidx & Hlcl & l & cl & Hwalk & Hst) Hp.
  pose proof (walk_col_pos _ _ _ _ _ _ Hwalk ltac:(lia)) as Hcl.
  unfold c_token_position in Hp. fold (pos s) in Hp.
  split. { destruct (0 <? c_col s); inversion Hp; reflexivity. }
  intros Hnl Hne.
  assert (Hlc : c_line s = l /\ c_col s = cl).
  { destruct Hst as [(b & r & _ & _ & _ & Hlc) | (_ & _ & Heof & [Hlc | (Hnil & _)])].
    - destruct (Z.eqb_spec ch 10); [contradiction | exact Hlc].
    - exact Hlc.
    - destruct Hne; contradiction. }
  destruct Hlc as (Hl & Hc). destruct (Z.ltb_spec 0 (c_col s)); [|lia].
  inversion Hp. rewrite Hl, Hc. exact Hwalk.
Qed.

Lemma is_ws_10 : forall ch, is_ws ch = false -> ch <> 10.
Proof. intros ch H ->. discriminate. Qed.

Definition ntok := next_token cursor nxt c_token_start c_token_stop c_set_err c_token_position c_token_text.

Lemma ntok_spec : forall src fuel s ch t s' ch', cinv src s ch -> ntok fuel s ch = Some (t, s', ch') ->
  cinv src s' ch' /\ tok_ok src (pos s) (pos s') t.
Proof.
  intros src fuel s ch t s' ch' Hi H.
  (* the invariant also records that the cursor does not fall back behind [pos s]; inside a token [le_cur] holds *)
  eapply (next_token_inv cursor nxt c_token_start c_token_stop c_set_err c_token_position c_token_text
            (fun a c => cinv src a c /\ (pos s <= pos a)%nat) le_cur le_cur_refl le_cur_trans) in H
    as ((Hi' & _) & s0 & c0 & (Hi0 & Hlo) & Hws & Hp & Htext & Hcase).
  - split; [exact Hi'|].
    pose proof (Hi0 : cinv src (c_token_start s0) c0) as Hi1.
    assert (Hend : le_cur (c_token_start s0) s' /\ (t_type t <> TEOF -> c0 <> rune_eof /\ (pos s0 < pos s')%nat)).
    { destruct Hcase as [(_ & Hty & ->) | (Hne & _ & s2 & c2 & E2 & Hle2)]; [split; [apply le_cur_refl | congruence]|].
      injection E2 as E2. destruct (c_next_spec _ _ _ _ _ Hi1 E2) as (_ & Hle & Hlt).
      specialize (Hlt Hne). rewrite pos_token_start in Hlt. split; [exact (le_cur_trans _ _ _ Hle Hle2)|].
      intros _. split; [exact Hne|]. destruct Hle2 as [Hp2 _]. lia. }
    destruct Hend as ((Hle & Htok) & Hty).
    destruct (token_position_exact _ _ _ _ _ _ Hi1 Hp) as (Hoff & Hwalk).
    rewrite pos_token_start in *.
    exists (pos s0). split; [lia|]. split; [eapply cinv_pos_le; exact Hi'|]. split; [exact Hoff|]. split.
    + rewrite Htext. unfold c_token_text. rewrite Htok. cbn [c_token_start c_tok]. fold (pos s0). fold (pos s').
      destruct Hi' as (-> & _). reflexivity.
    + split; [intros Hne; apply Hty; exact Hne|].
      intros Hn. apply Hwalk; [apply is_ws_10; exact Hws|].
      destruct Hn as [Hn | Hn]; [left; exact Hn | right; apply Hty; exact Hn].
  - intros a c a' c' (Ha & Hl) E. injection E as E. destruct (c_next_spec _ _ _ _ _ Ha E) as (Ha' & Hle & _).
    split; [split; [exact Ha' | destruct Hle; lia] | exact Hle].
  - intros a c Ha. split; [exact Ha | apply le_cur_set_err].
  - intros a c Ha. exact Ha.
  - intros a c Ha. exact Ha.
  - split; [exact Hi | lia].
Qed.

Definition tloop := tokenize_loop cursor nxt c_token_start c_token_stop c_set_err c_token_position c_token_text c_err.

Lemma spec_tokenize_unfold : forall fuel src,
  spec_tokenize fuel src = tloop fuel (fst (c_next (c_init src))) (snd (c_next (c_init src))) [].
Proof. intros fuel src. unfold spec_tokenize. destruct (c_next (c_init src)); reflexivity. Qed.

Definition tok_len (t : token) : Z := Z.of_nat (length (t_text t)).

(* consecutive tokens: strictly increasing offsets, and the text of the first ends before the second starts *)
Inductive tok_ordered : list token -> Prop :=
| to_nil : tok_ordered []
| to_one : forall t, tok_ordered [t]
| to_cons : forall t1 t2 ts, t_off t1 < t_off t2 -> t_off t1 + tok_len t1 <= t_off t2 ->
    tok_ordered (t2 :: ts) -> tok_ordered (t1 :: t2 :: ts).

(* exactness of one token: offset/text and line/column *)
Definition tok_text_exact (src : list Z) (t : token) : Prop :=
  0 <= t_off t /\ t_text t = firstn (length (t_text t)) (skipn (Z.to_nat (t_off t)) src)
  /\ (Z.to_nat (t_off t) + length (t_text t) <= length src)%nat.
Definition tok_pos_exact (src : list Z) (t : token) : Prop :=
  src <> [] \/ t_type t <> TEOF -> (t_line t, t_col t) = position_of src (Z.to_nat (t_off t)).

Lemma tok_ok_facts : forall src lo hi t, tok_ok src lo hi t ->
  tok_text_exact src t /\ tok_pos_exact src t /\ Z.of_nat lo <= t_off t /\ t_off t + tok_len t = Z.of_nat hi /\
  (t_type t <> TEOF -> 0 < tok_len t).
Proof.
  intros src lo hi t (p0 & Hp & Hhi & Hoff & Htext & Hne & Hwalk).
  assert (Hlen : length (t_text t) = (hi - p0)%nat).
  { rewrite Htext, firstn_length, skipn_length. lia. }
  unfold tok_text_exact, tok_pos_exact, tok_len. rewrite Hoff, Nat2Z.id, Hlen.
  split; [split; [lia | split; [exact Htext | lia]]|].
  split. { intros H. symmetry. apply walk_position_of; [apply Hwalk; exact H | lia]. }
  split; [lia|]. split; [lia|]. intros H. specialize (Hne H). lia.
Qed.

(* the accumulator of the loop (most recent token first) *)
Fixpoint acc_ok (acc : list token) (hi : Z) : Prop :=
  match acc with
  | [] => True
  | t :: r => t_off t + tok_len t <= hi /\ 0 < tok_len t /\ acc_ok r (t_off t)
  end.

Lemma acc_ok_mono : forall acc hi hi', hi <= hi' -> acc_ok acc hi -> acc_ok acc hi'.
Proof. intros [|t r] hi hi' Hle H; [exact I|]. destruct H as (H1 & H2 & H3). cbn [acc_ok]. repeat split; [lia | exact H2 | exact H3]. Qed.

Lemma acc_ok_ordered : forall acc t tl, acc_ok acc (t_off t) -> tok_ordered (t :: tl) -> tok_ordered (rev acc ++ t :: tl).
Proof.
  induction acc as [|a r IH]; intros t tl Hacc Hord; [exact Hord|].
  destruct Hacc as (H1 & H2 & H3). cbn [rev]. rewrite <- app_assoc. cbn [app].
  apply IH; [exact H3|]. apply to_cons; [lia | exact H1 | exact Hord].
Qed.

Definition loop_result (src : list Z) (ts : list token) : Prop :=
  (forall t, In t ts -> tok_text_exact src t /\ tok_pos_exact src t) /\ tok_ordered ts /\
  exists ts' t, ts = ts' ++ [t] /\ t_type t = TEOF /\ (forall t', In t' ts' -> t_type t' <> TEOF).

Lemma tloop_spec : forall src fuel s ch acc ts, cinv src s ch -> tloop fuel s ch acc = Some (Some ts) ->
  (forall t, In t acc -> (tok_text_exact src t /\ tok_pos_exact src t) /\ t_type t <> TEOF) ->
  acc_ok acc (Z.of_nat (pos s)) -> loop_result src ts.
Proof.
  intros src fuel. induction fuel as [|f IH]; intros s ch acc ts Hi H Hacc Hok; [discriminate|].
  unfold tloop in H. cbn [tokenize_loop] in H. fold ntok in H. fold tloop in H.
  destruct (ntok (S f) s ch) as [[[t s'] c']|] eqn:E; [|discriminate].
  destruct (ntok_spec _ _ _ _ _ _ _ Hi E) as (Hi' & Htok).
  destruct (tok_ok_facts _ _ _ _ Htok) as (Htx & Hps & Hlo & Hend & Hlen).
  destruct (c_err s'); [discriminate|].
  assert (Hok' : acc_ok acc (t_off t)) by (eapply acc_ok_mono; [|exact Hok]; lia).
  assert (Heofc : t_type t = TEOF -> Some (Some (rev (t :: acc))) = Some (Some ts) -> loop_result src ts).
  { intros Hty Heq. injection Heq as <-. split; [|split].
    - intros t0 Hin. apply in_app_or in Hin. destruct Hin as [Hin | [<- | []]]; [|split; assumption].
      apply (proj2 (in_rev _ _)) in Hin. apply Hacc; exact Hin.
    - cbn [rev]. apply acc_ok_ordered; [exact Hok' | apply to_one].
    - exists (rev acc), t. split; [reflexivity|]. split; [exact Hty|].
      intros t' Hin. apply (proj2 (in_rev _ _)) in Hin. apply Hacc; exact Hin. }
  assert (Hcont : t_type t <> TEOF -> tloop f s' c' (t :: acc) = Some (Some ts) -> loop_result src ts).
  { intros Hty Heq. apply (IH _ _ _ _ Hi' Heq).
    - intros t0 [<- | Hin]; [split; [split; assumption | exact Hty] | apply Hacc; exact Hin].
    - cbn [acc_ok]. split; [lia|]. split; [apply Hlen; exact Hty | exact Hok']. }
  destruct (t_type t) eqn:Hty; [apply Heofc; [reflexivity | exact H] | apply Hcont; [discriminate | exact H] ..].
Qed.

Lemma spec_tokenize_result : forall fuel src ts, spec_tokenize fuel src = Some (Some ts) -> loop_result src ts.
Proof.
  intros fuel src ts H. rewrite spec_tokenize_unfold in H.
  eapply tloop_spec; [eapply c_next_init, surjective_pairing | exact H | intros t [] | exact I].
Qed.

(* the text of every token is exactly the source bytes starting at its reported offset *)
Theorem spec_token_text_exact : forall fuel src ts t, spec_tokenize fuel src = Some (Some ts) -> In t ts ->
  0 <= t_off t /\ t_text t = firstn (length (t_text t)) (skipn (Z.to_nat (t_off t)) src)
  /\ (Z.to_nat (t_off t) + length (t_text t) <= length src)%nat.
Proof. intros fuel src ts t H Hin. destruct (spec_tokenize_result _ _ _ H) as (Hall & _). apply Hall; exact Hin. Qed.

(* line = 1 + newlines before the token, column = 1 + characters since the last newline.  It also holds for the
   EOF token unless the source is empty (eof_position_counterexample). *)
Theorem spec_token_position_exact_strong : forall fuel src ts t, spec_tokenize fuel src = Some (Some ts) -> In t ts ->
  src <> [] \/ t_type t <> TEOF ->
  (t_line t, t_col t) = position_of src (Z.to_nat (t_off t)).
Proof. intros fuel src ts t H Hin. destruct (spec_tokenize_result _ _ _ H) as (Hall & _). apply Hall; exact Hin. Qed.

Theorem spec_token_position_exact : forall fuel src ts t, spec_tokenize fuel src = Some (Some ts) -> In t ts ->
  t_type t <> TEOF ->
  (t_line t, t_col t) = position_of src (Z.to_nat (t_off t)).
Proof. intros fuel src ts t H Hin Hty. eapply spec_token_position_exact_strong; [exact H | exact Hin | right; exact Hty]. Qed.

(* the EOF token of the empty source is reported at line 0, column 0, while position_of [] 0 = (1, 1) *)
Example eof_position_counterexample :
  spec_tokenize 2 [] = Some (Some [{| t_type := TEOF; t_off := 0; t_line := 0; t_col := 0; t_text := [] |}])
  /\ position_of [] 0 = (1, 1).
Proof. split; vm_compute; reflexivity. Qed.

Theorem spec_tokens_ordered : forall fuel src ts, spec_tokenize fuel src = Some (Some ts) -> tok_ordered ts.
Proof. intros fuel src ts H. destruct (spec_tokenize_result _ _ _ H) as (_ & Hord & _). exact Hord. Qed.

(* the same, by index *)
Lemma tok_ordered_nth : forall ts, tok_ordered ts -> forall i d, (S i < length ts)%nat ->
  t_off (nth i ts d) < t_off (nth (S i) ts d) /\
  t_off (nth i ts d) + Z.of_nat (length (t_text (nth i ts d))) <= t_off (nth (S i) ts d).
Proof.
  intros ts H. induction H as [| t | t1 t2 ts H1 H2 H IH]; intros i d Hi; cbn [length] in Hi; try lia.
  destruct i as [|i]; [cbn [nth]; split; assumption|].
  change (nth (S i) (t1 :: t2 :: ts) d) with (nth i (t2 :: ts) d).
  change (nth (S (S i)) (t1 :: t2 :: ts) d) with (nth (S i) (t2 :: ts) d).
  apply IH. cbn [length]. lia.
Qed.

Theorem spec_tokens_ordered_nth : forall fuel src ts i d, spec_tokenize fuel src = Some (Some ts) -> (S i < length ts)%nat ->
  t_off (nth i ts d) < t_off (nth (S i) ts d) /\
  t_off (nth i ts d) + Z.of_nat (length (t_text (nth i ts d))) <= t_off (nth (S i) ts d).
Proof. intros fuel src ts i d H Hi. apply tok_ordered_nth; [eapply spec_tokens_ordered; exact H | exact Hi]. Qed.

Theorem spec_last_is_eof : forall fuel src ts, spec_tokenize fuel src = Some (Some ts) ->
  exists ts' t, ts = ts' ++ [t] /\ t_type t = TEOF /\ (forall t', In t' ts' -> t_type t' <> TEOF).
Proof. intros fuel src ts H. destruct (spec_tokenize_result _ _ _ H) as (_ & _ & Hlast). exact Hlast. Qed.

(* fuel [length src + 1] is enough: the input still ahead is the bytes from the lookahead character to the end *)
Theorem spec_tokenize_total_fuel : forall src fuel, (length src < fuel)%nat -> spec_tokenize fuel src <> None.
Proof.
  intros src fuel Hf. rewrite spec_tokenize_unfold.
  apply (tokenize_loop_total cursor nxt c_token_start c_token_stop c_set_err c_token_position c_token_text c_err
           (cinv src) (fun c _ => length src - pos c)%nat).
  - intros s ch Hi. unfold nxt. destruct (c_next s) as [s' c] eqn:E.
    destruct (c_next_spec _ _ _ _ _ Hi E) as (Hi' & [Hle _] & Hlt). pose proof (cinv_pos_le _ _ _ Hi').
    exists s', c. split; [reflexivity|]. split; [exact Hi'|]. split; [lia|]. intros Hne. specialize (Hlt Hne). lia.
  - intros s ch Hi. split; [exact Hi | reflexivity].
  - intros s ch Hi. split; [exact Hi | reflexivity].
  - intros s ch Hi. split; [exact Hi | reflexivity].
  - eapply c_next_init, surjective_pairing.
  - lia.
Qed.

Theorem spec_tokenize_total : forall src, exists fuel, spec_tokenize fuel src <> None.
Proof. intros src. exists (S (length src)). apply spec_tokenize_total_fuel. lia. Qed.

Print Assumptions spec_token_text_exact.
Print Assumptions spec_token_position_exact_strong.
Print Assumptions spec_token_position_exact.
Print Assumptions eof_position_counterexample.
Print Assumptions spec_tokens_ordered.
Print Assumptions spec_tokens_ordered_nth.
Print Assumptions spec_last_is_eof.
Print Assumptions spec_tokenize_total_fuel.
Print Assumptions spec_tokenize_total.
