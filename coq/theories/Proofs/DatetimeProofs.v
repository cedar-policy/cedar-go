(* Proofs about the datetime codec model (Impl/Datetime.v): calendar conversions are mutually inverse,
   print/parse roundtrip on the accepted range, parse results are in range. *)
From Coq Require Import String ZArith List Bool Lia.
Import ListNotations.
From Cedar Require Import Base.Int64 Lang.Value Impl.Text Generated.Tables Impl.Datetime Proofs.TextProofs.
Local Open Scope Z_scope.

Ltac dlia := Z.div_mod_to_equations; lia.

(* Both conversions count in years that begin on 1 March, so that the leap day comes last: year y begins on day
   [year_start y] after 0000-03-01, its month mp (0 = March .. 11 = February) on day [month_start mp] of the year.
   [civil_from_days_spec] reads civil_from_days in these coordinates; everything else is linear arithmetic on them.
   719468 is the day number of 1970-01-01 counted from 0000-03-01, 146097 the length of the 400-year era. *)
Definition year_start (y : Z) : Z := 365 * y + y / 4 - y / 100 + y / 400.
Definition month_start (mp : Z) : Z := (153 * mp + 2) / 5.
Definition civil_month (mp : Z) : Z := if mp <? 10 then mp + 3 else mp - 9.

Lemma is_leap_period : forall y k, is_leap (y + k * 400) = is_leap y.
Proof.
  intros y k. unfold is_leap.
  replace ((y + k * 400) mod 4) with (y mod 4) by dlia.
  replace ((y + k * 400) mod 100) with (y mod 100) by dlia.
  replace ((y + k * 400) mod 400) with (y mod 400) by dlia.
  reflexivity.
Qed.

Lemma days_in_month_period : forall y k m, days_in_month (y + k * 400) m = days_in_month y m.
Proof. intros y k m. unfold days_in_month. rewrite is_leap_period. reflexivity. Qed.

Lemma days_in_month_le31 : forall y m, days_in_month y m <= 31.
Proof.
  intros y m. unfold days_in_month.
  destruct (m =? 2); [destruct (is_leap y); lia|].
  destruct ((m =? 4) || (m =? 6) || (m =? 9) || (m =? 11)); lia.
Qed.

Lemma year_length : forall y, year_start (y + 1) - year_start y = if is_leap (y + 1) then 366 else 365.
Proof.
  intros y. unfold year_start, is_leap.
  destruct (Z.eqb_spec ((y + 1) mod 4) 0), (Z.eqb_spec ((y + 1) mod 100) 0), (Z.eqb_spec ((y + 1) mod 400) 0);
    cbn [andb orb negb]; dlia.
Qed.

Lemma days_from_civil_eq : forall y m d,
  days_from_civil y m d = year_start (if m <=? 2 then y - 1 else y) + month_start ((m + 9) mod 12) + d - 1 - 719468.
Proof.
  intros y m d. unfold days_from_civil, year_start, month_start. cbv zeta.
  generalize (if m <=? 2 then y - 1 else y). intros y'. dlia.
Qed.

(* civil_from_days finds the year of a day of the 400-year era without a search *)
Lemma year_of_doe : forall doe, 0 <= doe < 146097 ->
  let yoe := (doe - doe / 1460 + doe / 36524 - doe / 146096) / 365 in
  0 <= yoe < 400 /\ year_start yoe <= doe < year_start (yoe + 1).
Proof. intros doe H yoe. subst yoe. unfold year_start. dlia. Qed.

Local Arguments is_leap : simpl never.

(* the point of the 153-day formula: the lengths of the months are the differences of month_start; February, the last
   month, takes what is left of the year *)
Lemma month_length : forall y mp, 0 <= mp <= 11 ->
  days_in_month (if civil_month mp <=? 2 then y + 1 else y) (civil_month mp) =
  if mp =? 11 then year_start (y + 1) - year_start y - month_start 11 else month_start (mp + 1) - month_start mp.
Proof.
  intros y mp H. rewrite year_length.
  assert (C : mp = 0 \/ mp = 1 \/ mp = 2 \/ mp = 3 \/ mp = 4 \/ mp = 5 \/ mp = 6 \/ mp = 7 \/ mp = 8 \/ mp = 9 \/ mp = 10 \/ mp = 11)
    by lia.
  repeat (destruct C as [C|C]); subst mp; try reflexivity.
  cbn. unfold days_in_month. cbn. destruct (is_leap (y + 1)); reflexivity.
Qed.

(* month and day of the doy-th day of the year y *)
Lemma doy_split : forall y doy, 0 <= doy < year_start (y + 1) - year_start y ->
  let mp := (5 * doy + 2) / 153 in
  let d := doy - month_start mp + 1 in
  0 <= mp <= 11 /\ 1 <= d <= days_in_month (if civil_month mp <=? 2 then y + 1 else y) (civil_month mp).
Proof.
  intros y doy H mp d. pose proof (year_length y) as L.
  assert (Hmp : 0 <= mp <= 11) by (subst mp; destruct (is_leap (y + 1)); dlia).
  split; [exact Hmp|]. rewrite (month_length y mp Hmp). subst d mp. unfold month_start.
  destruct (Z.eqb_spec ((5 * doy + 2) / 153) 11) as [E|E]; [rewrite E|]; destruct (is_leap (y + 1)); dlia.
Qed.

(* conversely *)
Lemma doy_join : forall y mp d, 0 <= mp <= 11 ->
  1 <= d <= days_in_month (if civil_month mp <=? 2 then y + 1 else y) (civil_month mp) ->
  let doy := month_start mp + d - 1 in
  0 <= doy < year_start (y + 1) - year_start y /\ (5 * doy + 2) / 153 = mp.
Proof.
  intros y mp d Hmp Hd doy. rewrite (month_length y mp Hmp) in Hd. pose proof (year_length y) as L. subst doy.
  unfold month_start in *.
  destruct (Z.eqb_spec mp 11) as [E|E]; [subst mp|]; destruct (is_leap (y + 1)); dlia.
Qed.

Lemma civil_from_days_spec : forall z, exists y' mp d,
  civil_from_days z = (if civil_month mp <=? 2 then y' + 1 else y', civil_month mp, d) /\
  0 <= mp <= 11 /\ 1 <= d <= days_in_month (if civil_month mp <=? 2 then y' + 1 else y') (civil_month mp) /\
  z + 719468 = year_start y' + month_start mp + d - 1.
Proof.
  intros z. unfold civil_from_days. cbv zeta.
  set (era := (z + 719468) / 146097). set (doe := z + 719468 - era * 146097).
  assert (Hdoe : 0 <= doe < 146097) by (subst doe era; dlia).
  destruct (year_of_doe doe Hdoe) as [Hy Hd].
  set (yoe := (doe - doe / 1460 + doe / 36524 - doe / 146096) / 365) in *. clearbody yoe.
  assert (Hys : 365 * yoe + yoe / 4 - yoe / 100 = year_start yoe) by (unfold year_start; dlia).
  rewrite Hys.
  assert (Hera : year_start (yoe + era * 400) = year_start yoe + era * 146097) by (unfold year_start; dlia).
  assert (Hera1 : year_start (yoe + era * 400 + 1) = year_start (yoe + 1) + era * 146097) by (unfold year_start; dlia).
  destruct (doy_split (yoe + era * 400) (doe - year_start yoe) ltac:(lia)) as [Hmp Hdd]. cbv zeta in Hdd.
  set (mp := (5 * (doe - year_start yoe) + 2) / 153) in *.
  exists (yoe + era * 400), mp, (doe - year_start yoe - month_start mp + 1).
  fold (civil_month mp). fold (month_start mp).
  split; [reflexivity|]. split; [exact Hmp|]. split; [exact Hdd|]. subst doe. lia.
Qed.

Theorem civil_from_days_valid : forall z,
  let '(y, m, d) := civil_from_days z in 1 <= m <= 12 /\ 1 <= d <= days_in_month y m.
Proof.
  intros z. destruct (civil_from_days_spec z) as (y' & mp & d & -> & Hmp & Hd & _).
  split; [unfold civil_month; destruct (Z.ltb_spec mp 10); lia | exact Hd].
Qed.

Theorem civil_inverse : forall z,
  let '(y, m, d) := civil_from_days z in days_from_civil y m d = z.
Proof.
  intros z. destruct (civil_from_days_spec z) as (y' & mp & d & -> & Hmp & _ & Hz).
  rewrite days_from_civil_eq.
  replace ((civil_month mp + 9) mod 12) with mp by (unfold civil_month; destruct (Z.ltb_spec mp 10); dlia).
  destruct (civil_month mp <=? 2); rewrite ?Z.add_simpl_r; lia.
Qed.

Theorem days_from_civil_inverse : forall y m d,
  1 <= m <= 12 -> 1 <= d <= days_in_month y m ->
  civil_from_days (days_from_civil y m d) = (y, m, d).
Proof.
  intros y m d Hm Hd.
  destruct (civil_from_days_spec (days_from_civil y m d)) as (y1 & mp1 & d1 & -> & Hmp1 & Hd1 & Hz).
  rewrite days_from_civil_eq in Hz.
  set (y0 := if m <=? 2 then y - 1 else y) in *. set (mp0 := (m + 9) mod 12) in *.
  assert (Hmp0 : 0 <= mp0 <= 11) by (subst mp0; dlia).
  assert (Hm0 : civil_month mp0 = m) by (unfold civil_month; subst mp0; destruct (Z.ltb_spec ((m + 9) mod 12) 10); dlia).
  assert (Hy0 : (if m <=? 2 then y0 + 1 else y0) = y) by (subst y0; destruct (m <=? 2); lia).
  destruct (doy_join y0 mp0 d Hmp0) as [R0 E0]; [rewrite Hm0, Hy0; exact Hd|].
  destruct (doy_join y1 mp1 d1 Hmp1 Hd1) as [R1 E1].
  (* the year is determined by the day, since year_start is increasing *)
  assert (y1 = y0) by (clear - R0 R1 Hz; unfold year_start in *; dlia). subst y1.
  assert (mp1 = mp0) by (rewrite <- E0, <- E1; f_equal; lia). subst mp1.
  rewrite Hm0, Hy0. f_equal. lia.
Qed.

Lemma take_uint_padded : forall w z maxv rest,
  0 <= z < 10 ^ Z.of_nat w -> (1 <= w <= 40)%nat -> z <= maxv ->
  take_uint (print_padded w z ++ rest) w maxv = Some (z, rest).
Proof.
  intros w z maxv rest Hz Hw Hmax.
  destruct (parse_print_padded w z Hz Hw) as (Hlen & Hp & _).
  unfold take_uint. revert Hlen Hp. generalize (print_padded w z). intros p <- Hp. rewrite app_length.
  replace (Nat.ltb _ _) with false by (symmetry; apply Nat.ltb_ge; lia).
  rewrite firstn_app_exact, skipn_app, skipn_all, Nat.sub_diag, Hp.
  destruct (Z.gtb_spec z maxv) as [Hgt|_]; [lia|reflexivity].
Qed.

(* the parser, split after the year field *)

Definition parse_tail (year : Z) (s : str) : option Z :=
    s <- expect_char s 45 ;;
    p <- take_uint s 2 12 ;; let '(month, s) := p in
    s <- expect_char s 45 ;;
    p <- take_uint s 2 31 ;; let '(day, s) := p in
    if (month <? 1) || (day <? 1) || (day >? days_in_month year month) then None else
    let days := days_from_civil year month day in
    match s with
    | [] => let ms := days * MillisPerDay in if in_dt_range ms then Some ms else None
    | _ =>
      s <- expect_char s 84 ;;
      p <- take_uint s 2 23 ;; let '(hour, s) := p in
      s <- expect_char s 58 ;;
      p <- take_uint s 2 59 ;; let '(minute, s) := p in
      s <- expect_char s 58 ;;
      p <- take_uint s 2 59 ;; let '(second, s) := p in
      match s with
      | [] => None
      | _ =>
        p <- (match s with
              | 46 :: s' => take_uint s' 3 999
              | _ => Some (0, s) end) ;; let '(milli, s) := p in
        match s with
        | [] => None
        | z :: s' =>
          p <- (if z =? 90 then Some (0, s')
                else if (z =? 43) || (z =? 45) then
                  q <- take_uint s' 2 23 ;; let '(hh, s2) := q in
                  q <- take_uint s2 2 59 ;; let '(mm, s3) := q in
                  let off := (hh * MillisPerHour + mm * MillisPerMinute) in
                  Some (if z =? 45 then - off else off, s3)
                else None) ;; let '(offset, s) := p in
          match s with
          | _ :: _ => None
          | [] =>
            let ms := days * MillisPerDay + hour * MillisPerHour + minute * MillisPerMinute
                      + second * MillisPerSecond + milli - offset in
            if in_dt_range ms then Some ms else None
          end
        end
      end
    end.

Lemma parse_datetime_unfold : forall c rest,
  parse_datetime (c :: rest) =
  if c =? 43 then (p <- take_uint rest 9 999999999 ;; let '(ay, s) := p in parse_tail (ay * 1) s)
  else if c =? 45 then (p <- take_uint rest 9 999999999 ;; let '(ay, s) := p in parse_tail (ay * -1) s)
  else if is_digit c then (p <- take_uint (c :: rest) 4 9999 ;; let '(ay, s) := p in parse_tail (ay * 1) s)
  else None.
Proof.
  intros c rest. unfold parse_datetime.
  destruct (c =? 43); [reflexivity|]. destruct (c =? 45); [reflexivity|].
  destruct (is_digit c); reflexivity.
Qed.

Ltac dt_step H :=
  match type of H with
  | bind ?o _ = Some _ =>
      let E := fresh "E" in destruct o as [?|] eqn:E; [cbn [bind] in H | discriminate H]
  | (let '(_, _) := ?p in _) = Some _ => destruct p as [? ?]
  | (if ?b then _ else _) = Some _ => let Hb := fresh "Hb" in destruct b eqn:Hb
  | (match ?s with [] => _ | _ :: _ => _ end) = Some _ => destruct s as [|? ?]
  | None = Some _ => discriminate H
  end.

Lemma parse_tail_in_range : forall year s z, parse_tail year s = Some z -> in_dt_range z = true.
Proof.
  intros year s z H. unfold parse_tail in H.
  repeat dt_step H; cbv zeta in H; repeat dt_step H; inversion H; subst; assumption.
Qed.

Theorem datetime_parse_in_range : forall s z, parse_datetime s = Some z -> in_dt_range z = true.
Proof.
  intros s z H. destruct s as [|c rest]; [discriminate H|].
  rewrite parse_datetime_unfold in H.
  repeat dt_step H; eapply parse_tail_in_range; eassumption.
Qed.

Lemma expect_char_cons : forall c s, expect_char (c :: s) c = Some s.
Proof. intros c s. unfold expect_char. rewrite Z.eqb_refl. reflexivity. Qed.

Lemma parse_tail_print : forall y m d hh mi ss ms total,
  1 <= m <= 12 -> 1 <= d <= days_in_month y m ->
  0 <= hh <= 23 -> 0 <= mi <= 59 -> 0 <= ss <= 59 -> 0 <= ms <= 999 ->
  total = days_from_civil y m d * MillisPerDay + hh * MillisPerHour + mi * MillisPerMinute
          + ss * MillisPerSecond + ms ->
  in_dt_range total = true ->
  parse_tail y (45 :: print_padded 2 m ++ 45 :: print_padded 2 d ++ 84 :: print_padded 2 hh
                ++ 58 :: print_padded 2 mi ++ 58 :: print_padded 2 ss ++ 46 :: print_padded 3 ms ++ [90])
  = Some total.
Proof.
  intros y m d hh mi ss ms total Hm Hd Hhh Hmi Hss Hms Htot Hr.
  pose proof (days_in_month_le31 y m) as H31.
  assert (Hchk : (m <? 1) || (d <? 1) || (d >? days_in_month y m) = false).
  { destruct (Z.ltb_spec m 1); [lia|]. destruct (Z.ltb_spec d 1); [lia|].
    destruct (Z.gtb_spec d (days_in_month y m)); [lia|]. reflexivity. }
  unfold parse_tail.
  repeat first [ rewrite expect_char_cons | rewrite Hchk | progress cbn [bind]
               | rewrite take_uint_padded
                   by (try change (10 ^ Z.of_nat 2) with 100; try change (10 ^ Z.of_nat 3) with 1000; lia) ].
  change (90 =? 90) with true. cbn [bind].
  replace (days_from_civil y m d * MillisPerDay + hh * MillisPerHour + mi * MillisPerMinute
           + ss * MillisPerSecond + ms - 0) with total by lia.
  rewrite Hr. reflexivity.
Qed.

Lemma print_datetime_eq : forall z y m d, civil_from_days (z / MillisPerDay) = (y, m, d) ->
  print_datetime z =
  (if (0 <=? y) && (y <=? 9999) then print_padded 4 y
   else (if y <? 0 then 45 else 43) :: print_padded 9 (Z.abs y))
  ++ 45 :: print_padded 2 m ++ 45 :: print_padded 2 d
  ++ 84 :: print_padded 2 (z mod MillisPerDay / MillisPerHour)
  ++ 58 :: print_padded 2 ((z mod MillisPerDay) mod MillisPerHour / MillisPerMinute)
  ++ 58 :: print_padded 2 ((z mod MillisPerDay) mod MillisPerMinute / MillisPerSecond)
  ++ 46 :: print_padded 3 ((z mod MillisPerDay) mod MillisPerSecond) ++ [90].
Proof. intros z y m d E. unfold print_datetime. cbv zeta. rewrite E. reflexivity. Qed.

Lemma civil_year_bound : forall days y m d,
  -106751991168 <= days <= 106751991167 -> civil_from_days days = (y, m, d) ->
  -999999999 <= y <= 999999999.
Proof.
  intros days y m d Hdays E.
  destruct (civil_from_days_spec days) as (y' & mp & d' & E' & Hmp & Hd & Hz).
  rewrite E' in E. injection E as Ey _ _.
  destruct (doy_join y' mp d' Hmp Hd) as [R _].
  assert (-999999999 <= y' < 999999999) by (clear - R Hz Hdays; unfold year_start in *; dlia).
  destruct (civil_month mp <=? 2); lia.
Qed.

Lemma parse_datetime_year4 : forall y rest, 0 <= y <= 9999 ->
  parse_datetime (print_padded 4 y ++ rest) = parse_tail y rest.
Proof.
  intros y rest Hy.
  assert (Hy' : 0 <= y < 10 ^ Z.of_nat 4) by (change (10 ^ Z.of_nat 4) with 10000; lia).
  destruct (parse_print_padded 4 y Hy' ltac:(lia)) as (Hlen & _ & Hall).
  pose proof (take_uint_padded 4 y 9999 rest Hy' ltac:(lia) ltac:(lia)) as Ht.
  destruct (print_padded 4 y) as [|c tl] eqn:Ep; [discriminate Hlen|].
  inversion Hall as [|c' tl' Hc Htl]; subst c' tl'.
  rewrite <- app_comm_cons in *. rewrite parse_datetime_unfold, Hc, Ht.
  unfold is_digit in Hc. apply andb_prop in Hc. destruct Hc as [Hc1 Hc2].
  apply Z.leb_le in Hc1.
  destruct (Z.eqb_spec c 43) as [Hc43|_]; [lia|]. destruct (Z.eqb_spec c 45) as [Hc45|_]; [lia|].
  cbn [bind]. rewrite Z.mul_1_r. reflexivity.
Qed.

Lemma parse_datetime_year_neg : forall y rest, -999999999 <= y < 0 ->
  parse_datetime ((45 :: print_padded 9 (Z.abs y)) ++ rest) = parse_tail y rest.
Proof.
  intros y rest Hy. rewrite <- app_comm_cons, parse_datetime_unfold.
  change (45 =? 43) with false. change (45 =? 45) with true. cbv iota.
  rewrite take_uint_padded by (try (change (10 ^ Z.of_nat 9) with 1000000000); lia).
  cbn [bind]. replace (Z.abs y * -1) with y by lia. reflexivity.
Qed.

Lemma parse_datetime_year_pos : forall y rest, 9999 < y <= 999999999 ->
  parse_datetime ((43 :: print_padded 9 (Z.abs y)) ++ rest) = parse_tail y rest.
Proof.
  intros y rest Hy. rewrite <- app_comm_cons, parse_datetime_unfold.
  change (43 =? 43) with true. cbv iota.
  rewrite take_uint_padded by (try (change (10 ^ Z.of_nat 9) with 1000000000); lia).
  cbn [bind]. replace (Z.abs y * 1) with y by lia. reflexivity.
Qed.

Theorem datetime_roundtrip : forall z, in_dt_range z = true -> parse_datetime (print_datetime z) = Some z.
Proof.
  intros z Hr.
  assert (Hz : min64 + 86400000 <= z <= max64).
  { unfold in_dt_range, min_datetime_bound in Hr. apply andb_prop in Hr. destruct Hr as [H1 H2].
    apply Z.leb_le in H1. apply Z.leb_le in H2. lia. }
  destruct (civil_from_days (z / MillisPerDay)) as [[y m] d] eqn:E.
  pose proof (civil_from_days_valid (z / MillisPerDay)) as Hv. rewrite E in Hv. destruct Hv as [Hm Hd].
  pose proof (civil_inverse (z / MillisPerDay)) as Hi. rewrite E in Hi.
  assert (Hyb : -999999999 <= y <= 999999999).
  { apply (civil_year_bound (z / MillisPerDay) y m d); [|exact E].
    change MillisPerDay with 86400000. unfold min64, max64, two63 in Hz. dlia. }
  rewrite (print_datetime_eq z y m d E).
  assert (Htail : forall rest,
    rest = 45 :: print_padded 2 m ++ 45 :: print_padded 2 d
      ++ 84 :: print_padded 2 (z mod MillisPerDay / MillisPerHour)
      ++ 58 :: print_padded 2 ((z mod MillisPerDay) mod MillisPerHour / MillisPerMinute)
      ++ 58 :: print_padded 2 ((z mod MillisPerDay) mod MillisPerMinute / MillisPerSecond)
      ++ 46 :: print_padded 3 ((z mod MillisPerDay) mod MillisPerSecond) ++ [90] ->
    parse_tail y rest = Some z).
  { intros rest ->. apply parse_tail_print; try assumption; rewrite ?Hi;
    change MillisPerDay with 86400000; change MillisPerHour with 3600000;
    change MillisPerMinute with 60000; change MillisPerSecond with 1000; dlia. }
  destruct (Z.leb_spec 0 y) as [Hy0|Hy0]; cbn [andb].
  - destruct (Z.leb_spec y 9999) as [Hy1|Hy1].
    + rewrite parse_datetime_year4 by lia. apply Htail. reflexivity.
    + destruct (Z.ltb_spec y 0) as [Hy2|_]; [lia|].
      rewrite parse_datetime_year_pos by lia. apply Htail. reflexivity.
  - destruct (Z.ltb_spec y 0) as [_|Hy2]; [|lia].
    rewrite parse_datetime_year_neg by lia. apply Htail. reflexivity.
Qed.


Example ex_print_epoch : print_datetime 0 = s_of "1970-01-01T00:00:00.000Z"%string.
Proof. vm_compute. reflexivity. Qed.
Example ex_print_minus1 : print_datetime (-1) = s_of "1969-12-31T23:59:59.999Z"%string.
Proof. vm_compute. reflexivity. Qed.
Example ex_print_max : print_datetime max64 = s_of "+292278994-08-17T07:12:55.807Z"%string.
Proof. vm_compute. reflexivity. Qed.
Example ex_print_min : print_datetime min64 = s_of "-292275055-05-16T16:47:04.192Z"%string.
Proof. vm_compute. reflexivity. Qed.
Example ex_roundtrip_max : parse_datetime (print_datetime max64) = Some max64.
Proof. vm_compute. reflexivity. Qed.
Example ex_roundtrip_minbound :
  parse_datetime (print_datetime (min64 + 86400000)) = Some (min64 + 86400000).
Proof. vm_compute. reflexivity. Qed.
(* known defect (F27): the smallest int64 datetimes print but do not parse back *)
Example ex_defect_min : parse_datetime (print_datetime min64) = None.
Proof. vm_compute. reflexivity. Qed.
Example ex_defect_below_bound : parse_datetime (print_datetime (min64 + 86399999)) = None.
Proof. vm_compute. reflexivity. Qed.
Example ex_parse_date_only : parse_datetime (s_of "2024-02-29"%string) = Some 1709164800000.
Proof. vm_compute. reflexivity. Qed.
Example ex_parse_bad_day : parse_datetime (s_of "2023-02-29"%string) = None.
Proof. vm_compute. reflexivity. Qed.
Example ex_parse_offset :
  parse_datetime (s_of "1970-01-01T01:00:00+0100"%string) = Some 0.
Proof. vm_compute. reflexivity. Qed.

Print Assumptions civil_from_days_valid.
Print Assumptions civil_inverse.
Print Assumptions days_from_civil_inverse.
Print Assumptions datetime_roundtrip.
Print Assumptions datetime_parse_in_range.
