(* Proofs about the decimal codec model (Impl/Decimal.v): print/parse round trip, range and syntax of
   accepted strings, exactness of the repaired NewDecimal constructor. *)
From Coq Require Import String.
From Coq Require Import ZArith List Bool Lia.
Import ListNotations.
From Cedar Require Import Base.Int64 Lang.Value Impl.Text Impl.Decimal.
From Cedar Require Export Proofs.TextProofs.
Local Open Scope Z_scope.


(** * [new_decimal] *)

Definition nd_ok (ip t : Z) : Prop :=
  ~ (ip > 922337203685477 \/ (ip = 922337203685477 /\ t > 5807)) /\
  ~ (ip < -922337203685477 \/ (ip = -922337203685477 /\ t < -5808)).

(* the shape of the two guards of newDecimal: lexicographic comparison of (intPart, tenThousandths) with a bound *)
Lemma lex_gtb a b m n : (a >? m) || (a =? m) && (b >? n) = true <-> a > m \/ (a = m /\ b > n).
Proof. rewrite orb_true_iff, andb_true_iff, Z.eqb_eq, !Z.gtb_ltb, !Z.ltb_lt. lia. Qed.

Lemma lex_ltb a b m n : (a <? m) || (a =? m) && (b <? n) = true <-> a < m \/ (a = m /\ b < n).
Proof. rewrite orb_true_iff, andb_true_iff, Z.eqb_eq, !Z.ltb_lt. tauto. Qed.

Lemma new_decimal_spec ip t z :
  new_decimal ip t = Some z <-> (nd_ok ip t /\ z = ip * 10000 + t).
Proof.
  unfold new_decimal, nd_ok. rewrite <- lex_gtb, <- lex_ltb.
  destruct (_ || _), (_ || _); cbv iota; intuition congruence.
Qed.

(* with a fractional part of at most four digits the result is an int64 *)
Lemma new_decimal_in64 ip t z : new_decimal ip t = Some z -> -9999 <= t <= 9999 ->
  z = ip * 10000 + t /\ in64 z.
Proof.
  intros H Ht. apply new_decimal_spec in H. destruct H as [[H1 H2] ->]. split; [reflexivity|].
  unfold in64, min64, max64, two63. lia.
Qed.

(** * [parse_decimal] with the byte patterns replaced by boolean tests *)

Definition parse_decimal' (s : str) : option Z :=
  match index_of 46 s with
  | None => None
  | Some i =>
    if hd 0 s =? 43 then None else
      match parse_signed (firstn i s) with
      | None => None
      | Some ip =>
        if negb (in64b ip) then None else
        let fs := skipn (S i) s in
        match parse_digits fs with
        | None => None
        | Some fp =>
          if fp >? 65535 then None
          else if Nat.ltb 4 (length fs) then None
          else
            let t := fp * 10 ^ (4 - Z.of_nat (length fs)) in
            let t := if hd 0 s =? 45 then - t else t in
            new_decimal ip t
        end
      end
  end.

Lemma parse_decimal_eq s : parse_decimal s = parse_decimal' s.
Proof.
  unfold parse_decimal, parse_decimal'.
  destruct (index_of 46 s) as [i|]; [|reflexivity].
  rewrite match_hd_43. destruct (hd 0 s =? 43); [reflexivity|].
  destruct (parse_signed (firstn i s)) as [ip|]; [|reflexivity].
  destruct (negb (in64b ip)); [reflexivity|]. cbv zeta.
  destruct (parse_digits (skipn (S i) s)) as [fp|]; [|reflexivity].
  destruct (fp >? 65535); [reflexivity|]. destruct (Nat.ltb 4 (length (skipn (S i) s))); [reflexivity|].
  rewrite match_hd_45. reflexivity.
Qed.

(* everything a successful parse tells us *)
Lemma parse_decimal_inv s z : parse_decimal s = Some z ->
  exists i ip fp,
    index_of 46 s = Some i /\ hd 0 s <> 43 /\
    parse_signed (firstn i s) = Some ip /\ in64 ip /\
    parse_digits (skipn (S i) s) = Some fp /\ fp <= 65535 /\
    (length (skipn (S i) s) <= 4)%nat /\
    new_decimal ip (let t := fp * 10 ^ (4 - Z.of_nat (length (skipn (S i) s))) in
                    if hd 0 s =? 45 then - t else t) = Some z.
Proof.
  rewrite parse_decimal_eq. unfold parse_decimal'. intros H.
  destruct (index_of 46 s) as [i|] eqn:Hi; [|discriminate].
  destruct (Z.eqb_spec (hd 0 s) 43) as [|H43]; [discriminate|].
  destruct (parse_signed (firstn i s)) as [ip|] eqn:Hps; [|discriminate].
  destruct (in64b ip) eqn:Hin; cbn [negb] in H; [|discriminate].
  cbv zeta in H.
  destruct (parse_digits (skipn (S i) s)) as [fp|] eqn:Hpd; [|discriminate].
  destruct (Z.gtb_spec fp 65535) as [|Hfp]; [discriminate|].
  destruct (Nat.ltb_spec 4 (length (skipn (S i) s))) as [|Hlen]; [discriminate|].
  exists i, ip, fp. apply in64b_spec in Hin. cbv zeta.
  split; [reflexivity|]. split; [exact H43|]. split; [exact Hps|]. split; [exact Hin|].
  split; [exact Hpd|]. split; [exact Hfp|]. split; [lia|exact H].
Qed.

Lemma frac_bound n fp : (1 <= n <= 4)%nat -> 0 <= fp < 10 ^ Z.of_nat n ->
  0 <= fp * 10 ^ (4 - Z.of_nat n) <= 9999.
Proof.
  intros Hn H.
  destruct n as [|[|[|[|[|n]]]]]; lia.
Qed.

Theorem decimal_parse_in_range : forall s z, parse_decimal s = Some z -> in64 z.
Proof.
  intros s z H.
  destruct (parse_decimal_inv s z H) as (i & ip & fp & _ & _ & _ & _ & Hpd & _ & Hlen & Hnd).
  apply parse_digits_some in Hpd. destruct Hpd as [Hne Hv].
  apply digits_val_acc_bound in Hv. destruct Hv as [_ Hb].
  rewrite Z.mul_0_l, Z.add_0_l, Z.mul_1_l in Hb.
  assert (Hl : (1 <= length (skipn (S i) s) <= 4)%nat).
  { split; [|exact Hlen]. destruct (skipn (S i) s); [congruence|cbn [length]; lia]. }
  pose proof (frac_bound _ _ Hl Hb) as Ht.
  cbv zeta in Hnd.
  eapply new_decimal_in64; [exact Hnd|].
  destruct (hd 0 s =? 45); lia.
Qed.

Theorem decimal_parse_shape : forall s z, parse_decimal s = Some z ->
   exists ip fp, s = ip ++ 46 :: fp /\ (1 <= length fp <= 4)%nat /\ Forall (fun c => is_digit c = true) fp /\
                 (match ip with 45 :: d => d <> [] /\ Forall (fun c => is_digit c = true) d
                              | d => d <> [] /\ Forall (fun c => is_digit c = true) d end).
Proof.
  intros s z H.
  destruct (parse_decimal_inv s z H) as (i & ip & fp & Hi & H43 & Hps & _ & Hpd & _ & Hlen & _).
  apply parse_digits_all_digits in Hpd. destruct Hpd as [Hne Hdig].
  pose proof (index_of_split _ _ _ Hi) as Hs.
  exists (firstn i s), (skipn (S i) s).
  split; [exact Hs|]. split.
  { split; [|exact Hlen]. destruct (skipn (S i) s); [congruence|cbn [length]; lia]. }
  split; [exact Hdig|].
  destruct (firstn i s) as [|c r] eqn:Hf; [rewrite parse_signed_nil in Hps; discriminate|].
  assert (Hhd : hd 0 s = c) by (rewrite Hs; reflexivity).
  rewrite Hhd in H43. rewrite parse_signed_cons in Hps.
  cbv iota. rewrite match_byte_45.
  destruct (Z.eqb_spec c 45) as [->|H45].
  - destruct (parse_digits r) as [v|] eqn:Hr; [|discriminate].
    exact (parse_digits_all_digits _ _ Hr).
  - destruct (Z.eqb_spec c 43) as [->|_]; [congruence|].
    exact (parse_digits_all_digits _ _ Hps).
Qed.

(** * [print_decimal]: trimming of trailing zeros *)

Lemma trim_zeros_0 rs : trim_zeros 0 rs = rs.
Proof. destruct rs; reflexivity. Qed.

Lemma trim_zeros_nil n : trim_zeros n [] = [].
Proof. destruct n; reflexivity. Qed.

Lemma trim_zeros_cons n c rs :
  trim_zeros (S n) (c :: rs) = if c =? 48 then trim_zeros n rs else c :: rs.
Proof. destruct c as [|p|p]; try reflexivity; destruct_pos. Qed.

Lemma trim_zeros_spec : forall n rs, exists k, (k <= n)%nat /\ rs = repeat 48 k ++ trim_zeros n rs.
Proof.
  induction n as [|n IH]; intros rs.
  - exists 0%nat. rewrite trim_zeros_0. split; [lia|reflexivity].
  - destruct rs as [|c rs]; [exists 0%nat; split; [lia|reflexivity]|].
    rewrite trim_zeros_cons. destruct (Z.eqb_spec c 48) as [->|Hne].
    + destruct (IH rs) as [k [Hk Hrs]]. exists (S k). split; [lia|].
      cbn [repeat app]. f_equal. exact Hrs.
    + exists 0%nat. split; [lia|reflexivity].
Qed.

Lemma trim_zeros_app : forall n a b, (n < length a)%nat -> trim_zeros n (a ++ b) = trim_zeros n a ++ b.
Proof.
  induction n as [|n IH]; intros a b Hlen.
  - rewrite !trim_zeros_0. reflexivity.
  - destruct a as [|c a]; [cbn [length] in Hlen; lia|].
    cbn [app]. rewrite !trim_zeros_cons. destruct (c =? 48); [|reflexivity].
    apply IH. cbn [length] in Hlen. lia.
Qed.

(* the printed string is  pre ++ "." ++ F  where F is the 4-digit fraction minus k <= 3 trailing zeros *)
Lemma print_trim_shape pre P : length P = 4%nat ->
  exists F k, P = F ++ repeat 48 k /\ F <> [] /\
              rev (trim_zeros 3 (rev (pre ++ 46 :: P))) = pre ++ 46 :: F.
Proof.
  intros HP.
  destruct (trim_zeros_spec 3 (rev P)) as [k [Hk Hr]].
  exists (rev (trim_zeros 3 (rev P))), k.
  assert (HPeq : P = rev (trim_zeros 3 (rev P)) ++ repeat 48 k).
  { rewrite <- (rev_involutive P) at 1. rewrite Hr at 1.
    rewrite rev_app_distr, rev_repeat. reflexivity. }
  split; [exact HPeq|]. split.
  - intros Hnil. rewrite Hnil in HPeq. cbn [app] in HPeq.
    rewrite HPeq, repeat_length in HP. lia.
  - rewrite rev_app_distr. cbn [rev]. rewrite <- app_assoc.
    rewrite trim_zeros_app by (rewrite rev_length; lia).
    rewrite rev_app_distr, rev_app_distr, rev_involutive. cbn [rev app].
    rewrite <- app_assoc. reflexivity.
Qed.

(** * parsing a string of the printed form *)

Lemma hd_app_cons {A} (d : A) c r l : hd d ((c :: r) ++ l) = c.
Proof. reflexivity. Qed.

(* Exactness of ParseDecimal on the grammar  -?[0-9]+.[0-9]{1,4} : the integer part a and the
   fraction v scaled to ten-thousandths, both with the sign, go to newDecimal. *)
Theorem parse_decimal_exact (neg : bool) ip fp a v :
  ip <> [] -> digits_val_acc ip 0 = Some a -> in64 (if neg then - a else a) ->
  (1 <= length fp <= 4)%nat -> digits_val_acc fp 0 = Some v ->
  parse_decimal ((if neg then 45 :: ip else ip) ++ 46 :: fp) =
  new_decimal (if neg then - a else a)
              (let t := v * 10 ^ (4 - Z.of_nat (length fp)) in if neg then - t else t).
Proof.
  intros Hne Ha Hin Hlen Hv.
  destruct (digits_val_acc_bound _ _ _ Ha) as [Hdig _].
  destruct (all_digits_hd _ Hdig Hne) as (c & r & Hcr & Hc & Hr). apply is_digit_range in Hc.
  destruct (digits_val_acc_bound _ _ _ Hv) as [_ Hvb]. rewrite Z.mul_0_l in Hvb.
  assert (Hv4 : v < 10 ^ 4).
  { eapply Z.lt_le_trans; [apply Hvb|]. rewrite Z.add_0_l, Z.mul_1_l. apply Z.pow_le_mono_r; lia. }
  set (pre := if neg then 45 :: ip else ip).
  assert (Hpre46 : ~ In 46 pre).
  { assert (~ In 46 ip) by (apply all_digits_not_in; [exact Hdig|reflexivity]).
    unfold pre. destruct neg; [intros [Hx|Hx]; [discriminate|]|]; auto. }
  assert (Hhd : hd 0 (pre ++ 46 :: fp) = if neg then 45 else c).
  { unfold pre. destruct neg; [reflexivity|]. rewrite Hcr. reflexivity. }
  assert (Hsigned : parse_signed pre = Some (if neg then - a else a)).
  { unfold pre. destruct neg; [|rewrite Hcr at 1]; rewrite parse_signed_cons.
    - change (45 =? 45) with true. cbv iota. rewrite parse_digits_nonempty, Ha by exact Hne. reflexivity.
    - destruct (Z.eqb_spec c 45); [lia|]. destruct (Z.eqb_spec c 43); [lia|].
      rewrite <- Hcr, parse_digits_nonempty by exact Hne. exact Ha. }
  rewrite parse_decimal_eq. unfold parse_decimal'.
  rewrite index_of_app by exact Hpre46.
  rewrite Hhd, firstn_app_exact, skipn_app_exact, Hsigned.
  rewrite (proj2 (Z.eqb_neq (if neg then 45 else c) 43)) by (destruct neg; lia).
  rewrite (proj2 (in64b_spec _) Hin). cbn [negb]. cbv zeta.
  rewrite parse_digits_nonempty, Hv by (destruct fp; [cbn [length] in Hlen; lia|discriminate]).
  destruct (Z.gtb_spec v 65535) as [Hbig|_]; [change (10 ^ 4) with 10000 in Hv4; lia|].
  destruct (Nat.ltb_spec 4 (length fp)) as [Hlong|_]; [lia|].
  destruct neg; [reflexivity|]. rewrite (proj2 (Z.eqb_neq c 45)) by lia. reflexivity.
Qed.

(* a numeral followed by k zeros *)
Lemma digits_val_acc_trimmed F k d : digits_val_acc (F ++ repeat 48 k) 0 = Some d ->
  exists v, digits_val_acc F 0 = Some v /\ d = v * 10 ^ Z.of_nat k.
Proof.
  rewrite digits_val_acc_app. destruct (digits_val_acc F 0) as [v|]; [|discriminate].
  rewrite digits_val_acc_zeros. intros [= <-]. eauto.
Qed.

(* both signs at once: the digits printed are those of |z| *)
Lemma print_decimal_abs z :
  print_decimal z =
  rev (trim_zeros 3 (rev ((if z <? 0 then 45 :: print_nat (Z.abs z / 10000) else print_nat (Z.abs z / 10000))
                          ++ 46 :: print_padded 4 (Z.abs z mod 10000)))).
Proof.
  unfold print_decimal. cbv zeta. destruct (Z.ltb_spec z 0) as [Hneg|Hpos].
  - assert (Hq : Z.quot z 10000 = - (Z.abs z / 10000)).
    { rewrite <- (Z.opp_involutive z) at 1. rewrite Z.quot_opp_l, Z.quot_div_nonneg by lia.
      f_equal. f_equal. lia. }
    pose proof (Z.div_mod (Z.abs z) 10000 ltac:(lia)).
    rewrite Hq, Z.opp_involutive.
    replace (- (Z.abs z / 10000) * 10000 - z) with (Z.abs z mod 10000) by lia. reflexivity.
  - rewrite Z.abs_eq by lia. reflexivity.
Qed.

Theorem decimal_roundtrip : forall z, in64 z -> parse_decimal (print_decimal z) = Some z.
Proof.
  intros z Hz. unfold in64, min64, max64, two63 in Hz.
  rewrite print_decimal_abs.
  pose proof (Z.div_mod (Z.abs z) 10000 ltac:(lia)) as Hdm.
  pose proof (Z.mod_pos_bound (Z.abs z) 10000 ltac:(lia)) as Hmb.
  set (a := Z.abs z / 10000) in *. set (d := Z.abs z mod 10000) in *.
  assert (Ha40 : 0 <= a < 10 ^ 40) by (change (10 ^ 40) with 10000000000000000000000000000000000000000; lia).
  destruct (parse_print_padded 4 d ltac:(change (10 ^ Z.of_nat 4) with 10000; lia) ltac:(lia))
    as (HPlen & HPval & _).
  destruct (print_trim_shape (if z <? 0 then 45 :: print_nat a else print_nat a) _ HPlen)
    as (F & k & HP & HF & ->).
  rewrite HP, app_length, repeat_length in HPlen.
  rewrite HP, parse_digits_nonempty in HPval by (destruct F; [congruence|discriminate]).
  apply digits_val_acc_trimmed in HPval. destruct HPval as (v & Hv & Hd).
  pose proof (parse_print_nat a Ha40) as Hpa. rewrite parse_digits_nonempty in Hpa by apply print_nat_nonempty.
  rewrite (parse_decimal_exact (z <? 0) (print_nat a) F a v); try assumption.
  - cbv zeta. replace (4 - Z.of_nat (length F)) with (Z.of_nat k) by lia. rewrite <- Hd.
    apply new_decimal_spec. unfold nd_ok. destruct (Z.ltb_spec z 0); lia.
  - apply print_nat_nonempty.
  - unfold in64, min64, max64, two63. destruct (z <? 0); lia.
  - destruct F; [congruence|cbn [length] in *; lia].
Qed.

(** * [new_decimal_exp]: the repaired constructor NewDecimal(i, exponent) *)

Lemma quot_rem_facts i p : 0 < p ->
  i = p * Z.quot i p + Z.rem i p /\
  (0 <= i -> 0 <= Z.rem i p < p /\ 0 <= Z.quot i p) /\
  (i <= 0 -> - p < Z.rem i p <= 0 /\ Z.quot i p <= 0).
Proof.
  intros Hp. pose proof (Z.quot_rem' i p) as Hqr. split; [exact Hqr|]. split; intros Hi.
  - pose proof (Z.rem_bound_pos_pos i p Hp Hi) as Hr. split; [exact Hr|]. apply Z.quot_pos; lia.
  - pose proof (Z.rem_bound_pos_neg i p Hp Hi) as Hr. split; [exact Hr|].
    set (q := Z.quot i p) in *. set (r := Z.rem i p) in *. nia.
Qed.

(* the e <= 0 branch, with p = 10^(-e), m = 10^(4+e) *)
Lemma nd_split_facts p m i : 0 < p -> 0 < m -> p * m = 10000 ->
  let q := Z.quot i p in let t := Z.rem i p * m in
  i * m = q * 10000 + t /\ -9999 <= t <= 9999 /\
  (0 <= i -> 0 <= q /\ 0 <= t) /\ (i <= 0 -> q <= 0 /\ t <= 0).
Proof.
  intros Hp Hm Hpm. cbv zeta.
  destruct (quot_rem_facts i p Hp) as (Hqr & Hpos & Hneg).
  set (q := Z.quot i p) in *. set (r := Z.rem i p) in *.
  assert (Hr : - (p - 1) <= r <= p - 1) by (destruct (Z.le_ge_cases 0 i) as [Hs|Hs]; [apply Hpos in Hs|apply Hneg in Hs]; lia).
  assert (H1 : r * m <= (p - 1) * m) by (apply Z.mul_le_mono_nonneg_r; lia).
  assert (H2 : - (p - 1) * m <= r * m) by (apply Z.mul_le_mono_nonneg_r; lia).
  split; [rewrite Hqr at 1; rewrite <- Hpm; ring|].
  split; [lia|]. split; intros Hi.
  - apply Hpos in Hi. split; [lia|]. apply Z.mul_nonneg_nonneg; lia.
  - apply Hneg in Hi. split; [lia|]. apply Z.mul_nonpos_nonneg; lia.
Qed.

Lemma pow_split_neg e : -4 <= e <= 0 ->
  0 < 10 ^ (- e) /\ 0 < 10 ^ (4 + e) /\ 10 ^ (- e) * 10 ^ (4 + e) = 10000.
Proof.
  intros He. split; [apply Z.pow_pos_nonneg; lia|]. split; [apply Z.pow_pos_nonneg; lia|].
  rewrite <- Z.pow_add_r by lia. replace (- e + (4 + e)) with 4 by lia. reflexivity.
Qed.

Lemma pow_split_pos e : 0 <= e -> 0 < 10 ^ e /\ 10 ^ (e + 4) = 10 ^ e * 10000.
Proof.
  intros He. split; [apply Z.pow_pos_nonneg; lia|]. rewrite Z.pow_add_r by lia. reflexivity.
Qed.

Lemma new_decimal_exp_range i e z : new_decimal_exp i e = Some z -> -4 <= e <= 14.
Proof.
  unfold new_decimal_exp. destruct (Z.ltb_spec e (-4)); destruct (Z.gtb_spec e 14); cbn [orb];
    try discriminate. lia.
Qed.

Lemma new_decimal_exp_unfold i e : -4 <= e <= 14 ->
  new_decimal_exp i e =
  if e <=? 0 then new_decimal (Z.quot i (10 ^ (- e))) (Z.rem i (10 ^ (- e)) * 10 ^ (4 + e))
  else if (i >? 0) && (i >? Z.quot max64 (10 ^ e)) then None
  else if (i <? 0) && (i <? Z.quot min64 (10 ^ e)) then None
  else new_decimal (i * 10 ^ e) 0.
Proof.
  intros He. unfold new_decimal_exp.
  destruct (Z.ltb_spec e (-4)); [lia|]. destruct (Z.gtb_spec e 14); [lia|]. reflexivity.
Qed.

Theorem new_decimal_exact : forall i e z, in64 i -> new_decimal_exp i e = Some z ->
   -4 <= e <= 14 /\ z = i * 10 ^ (e + 4) /\ in64 z.
Proof.
  intros i e z Hi H.
  pose proof (new_decimal_exp_range _ _ _ H) as He. split; [exact He|].
  rewrite new_decimal_exp_unfold in H by exact He.
  destruct (Z.leb_spec e 0) as [Hle|Hgt].
  - destruct (pow_split_neg e ltac:(lia)) as (Hp & Hm & Hpm).
    destruct (nd_split_facts _ _ i Hp Hm Hpm) as (Heq & Ht & _).
    apply new_decimal_in64 in H; [|exact Ht]. destruct H as [Hz Hin].
    split; [|exact Hin]. rewrite (Z.add_comm e 4), Heq. exact Hz.
  - destruct ((i >? 0) && (i >? Z.quot max64 (10 ^ e))); [discriminate|].
    destruct ((i <? 0) && (i <? Z.quot min64 (10 ^ e))); [discriminate|].
    apply new_decimal_in64 in H; [|lia]. destruct H as [Hz Hin].
    split; [|exact Hin]. destruct (pow_split_pos e ltac:(lia)) as [_ ->]. lia.
Qed.

Theorem new_decimal_complete : forall i e, in64 i -> -4 <= e <= 14 -> in64 (i * 10 ^ (e + 4)) ->
   new_decimal_exp i e = Some (i * 10 ^ (e + 4)).
Proof.
  intros i e Hi He Hin.
  rewrite new_decimal_exp_unfold by exact He.
  unfold in64, min64, max64, two63 in Hin, Hi.
  destruct (Z.leb_spec e 0) as [Hle|Hgt].
  - destruct (pow_split_neg e ltac:(lia)) as (Hp & Hm & Hpm).
    destruct (nd_split_facts _ _ i Hp Hm Hpm) as (Heq & Ht & Hpos & Hneg).
    rewrite (Z.add_comm e 4) in *. rewrite Heq in *.
    set (q := Z.quot i (10 ^ (- e))) in *. set (t := Z.rem i (10 ^ (- e)) * 10 ^ (4 + e)) in *.
    apply new_decimal_spec. split; [|reflexivity]. unfold nd_ok.
    destruct (Z.le_ge_cases 0 i) as [H0|H0]; [apply Hpos in H0|apply Hneg in H0]; lia.
  - destruct (pow_split_pos e ltac:(lia)) as [Hs Hpw]. rewrite Hpw in *.
    set (sc := 10 ^ e) in *.
    (* both guards compare i * sc with the int64 bounds, and i * sc * 10000 fits *)
    rewrite gtb_quot, ltb_quot by (unfold min64, max64, two63; lia).
    destruct (Z.leb_spec (i * sc) max64), (Z.leb_spec min64 (i * sc));
      try (unfold min64, max64, two63 in *; lia).
    cbn [negb]. rewrite !andb_false_r.
    apply new_decimal_spec. split; [unfold nd_ok; lia|lia].
Qed.

(** * Examples *)

Example ex_print_neg_half : print_decimal (-5000) = s_of "-0.5"%string.
Proof. vm_compute. reflexivity. Qed.
Example ex_parse_min : parse_decimal (s_of "-922337203685477.5808"%string) = Some min64.
Proof. vm_compute. reflexivity. Qed.
Example ex_parse_plus : parse_decimal (s_of "+1.5"%string) = None.
Proof. vm_compute. reflexivity. Qed.
Example ex_parse_5_digits : parse_decimal (s_of "1.23456"%string) = None.
Proof. vm_compute. reflexivity. Qed.
Example ex_parse_no_int : parse_decimal (s_of ".5"%string) = None.
Proof. vm_compute. reflexivity. Qed.
Example ex_parse_neg_zero : parse_decimal (s_of "-0.0"%string) = Some 0.
Proof. vm_compute. reflexivity. Qed.
Example ex_print_max : print_decimal max64 = s_of "922337203685477.5807"%string.
Proof. vm_compute. reflexivity. Qed.
Example ex_new_decimal_exp_1 : new_decimal_exp 12345 (-2) = Some 1234500.
Proof. vm_compute. reflexivity. Qed.
Example ex_new_decimal_exp_2 : new_decimal_exp (-15) (-4) = Some (-15).
Proof. vm_compute. reflexivity. Qed.
Example ex_new_decimal_exp_3 : new_decimal_exp 922337203685478 0 = None.
Proof. vm_compute. reflexivity. Qed.
Example ex_new_decimal_exp_4 : new_decimal_exp 9 14 = Some 9000000000000000000.
Proof. vm_compute. reflexivity. Qed.
Example ex_new_decimal_exp_5 : new_decimal_exp 10 14 = None.
Proof. vm_compute. reflexivity. Qed.

Print Assumptions decimal_roundtrip.
Print Assumptions decimal_parse_in_range.
Print Assumptions decimal_parse_shape.
Print Assumptions new_decimal_exact.
Print Assumptions new_decimal_complete.
