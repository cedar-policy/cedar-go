(* The modelled decoders terminate on EVERY input (the model half of C10).
   "Does not terminate" shows up in the models as the out-of-fuel results PFuel / DFuel / None.  Here: these are never
   produced when the fuel is a simple function of the input size, for ARBITRARY inputs.
     1. the parser (Impl/Parser.v) on EOF-terminated token lists, with fuel 12 * length ts + 100 (what the driver,
        ocaml/cases.ml, hands to p_policies);
     2. the policy-JSON decoder (Impl/PolicyJson.v) with fuel S (jdepth j);
     3. string / pattern literals (Impl/Quote.v): more fuel than the one handed out never changes the result. *)
From Coq Require Import ZArith List Bool String Lia.
Import ListNotations.
From Cedar Require Import Base.Int64 Base.Json Lang.Value Impl.Like Lang.Expr Impl.Eval Impl.Scanner Impl.Tokenizer Impl.Quote
  Impl.Parser Impl.ValueJson Impl.PolicyJson.
From Cedar Require Import Proofs.ParserFuel Proofs.TokenizerParam.

(* token lists as the tokenizer produces them end with the EOF token (empty text) *)
Definition eof_terminated (ts : list token) : Prop := ts <> [] /\ t_text (last ts eof_token) = [].

Lemma eof_adv : forall ts, eof_terminated ts -> eof_terminated (adv ts).
Proof.
  intros ts [Hne Hl]. destruct ts as [|t [|t' ts']]; [congruence | split; assumption |].
  cbn [adv]. split; [discriminate | exact Hl].
Qed.

Lemma adv_le : forall ts, List.length (adv ts) <= List.length ts.
Proof. intros ts. destruct ts as [|t [|t' ts']]; cbn [adv List.length]; lia. Qed.

(* a token whose text matches a non-empty string is not the last one, and neither is the token before it: advancing
   really consumes a token *)
Lemma adv_lt : forall ts s, eof_terminated ts -> s <> EmptyString ->
  tx (peek ts) s = true \/ tx (peek (adv ts)) s = true -> S (List.length (adv ts)) <= List.length ts.
Proof.
  intros ts s [Hne Hl] Hs Htx. destruct ts as [|t [|t' ts']]; [congruence | | cbn [adv List.length]; lia].
  cbn [last adv peek] in Hl, Htx. rewrite (tx_empty_text t s Hl Hs) in Htx. destruct Htx; discriminate.
Qed.

(* [lands n ts x]: what a parser function may answer on the EOF-terminated list [ts] when it has enough fuel.  Not PFuel,
   and the rest of a POk is again EOF-terminated and at least [n] tokens shorter than [ts]. *)
Definition lands {A} (n : nat) (ts : list token) (x : pres A) : Prop :=
  match x with
  | POk _ r => eof_terminated r /\ n + List.length r <= List.length ts
  | PErr => True
  | PFuel => False
  end.

Lemma lands_nf : forall A n ts (x : pres A), lands n ts x -> x <> PFuel.
Proof. intros A n ts x H E. rewrite E in H. exact H. Qed.

Lemma lands_le : forall A n m ts ts' (x : pres A),
  lands m ts' x -> n + List.length ts' <= m + List.length ts -> lands n ts x.
Proof. intros A n m ts ts' [v r| |] H Hl; [|exact H..]. cbn [lands] in *. split; [apply H | lia]. Qed.

(* the prefix of unary operators is read with fuel of its own *)
Lemma unary_ops_rest_le : forall f ts acc ops r, eof_terminated ts -> unary_ops f ts acc = Some (ops, r) ->
  eof_terminated r /\ List.length r <= List.length ts.
Proof.
  induction f as [|f IH]; intros ts acc ops r Hg; [discriminate|].
  cbn [unary_ops]. cbv zeta. pose proof (adv_le ts) as Hle.
  destruct (tx (peek ts) "-"); [|destruct (tx (peek ts) "!")];
    [intros H; apply IH in H; [|apply eof_adv; exact Hg]; split; [apply H | lia] ..|].
  intros H. inversion H; subst. split; [assumption | lia].
Qed.

Lemma unary_ops_lands : forall ts, eof_terminated ts ->
  exists ops r, unary_ops (S (List.length ts)) ts [] = Some (ops, r) /\ eof_terminated r /\ List.length r <= List.length ts.
Proof.
  intros ts Hg. destruct (unary_ops (S (List.length ts)) ts []) as [[ops r]|] eqn:E.
  - exists ops, r. split; [reflexivity | exact (unary_ops_rest_le _ _ _ _ _ Hg E)].
  - exfalso. exact (unary_ops_eof_terminated ts (proj2 Hg) E).
Qed.

(* the closing token ends an entity list, an expression list or a record at once: no fuel is needed for the tail call *)
Lemma p_entlist_close : forall f ts acc, 1 <= f -> tx (peek ts) "]" = true -> p_entlist f ts acc = POk acc ts.
Proof. intros f ts acc Hf E. destruct f as [|f]; [lia|]. cbn [p_entlist]. rewrite E. reflexivity. Qed.

Lemma p_expressions_close : forall f close ts acc, 1 <= f -> tx (peek ts) close = true -> p_expressions f close ts acc = POk acc ts.
Proof. intros f close ts acc Hf E. destruct f as [|f]; [lia|]. cbn [p_expressions]. rewrite E. reflexivity. Qed.

Lemma p_record_close : forall f ts acc, 1 <= f -> tx (peek ts) "}" = true -> p_record f ts acc = POk (ERecord acc) (adv ts).
Proof. intros f ts acc Hf E. destruct f as [|f]; [lia|]. cbn [p_record]. rewrite E. reflexivity. Qed.

(* Why enough fuel is enough: every call either descends one precedence level on the same token list (the constants in
   expr_block_lands decrease), or is made on a strictly shorter EOF-terminated list (and 12 exceeds the largest constant);
   a token whose text matched a non-empty string is not the EOF token, so advancing over it shortens the list (adv_lt).

   The tactic [lands f] follows the code of one function whose calls have fuel [f]; what is known of the callees (induction
   hypothesis, earlier lemmas) stands in the context.  The goal is  lands n ts X :
   - X is a match on [tx (peek x) s]: split, recording in the true branch that advancing consumes a token;
   - X is a match on a call: the call lands by the hypothesis about the callee, which gives its rest in the POk branch and
     excludes PFuel;
   - X is a match on anything else: split (by [case]: the scrutinee stands in no hypothesis, and [destruct] costs more);
   - X is POk: the bookkeeping on lengths, by lia;
   - X is a tail call: by the callee's hypothesis and lands_le, or it is the call of a list loop on its closing token. *)
Ltac solve_eof := repeat apply eof_adv; assumption.

(* bring  length (adv x) <= length x  into the context for every  adv x  whose length is mentioned *)
Ltac adv_facts :=
  repeat match goal with
  | |- context [List.length (adv ?x)] =>
      lazymatch goal with _ : List.length (adv x) <= List.length x |- _ => fail | _ => pose proof (adv_le x) end
  | _ : context [List.length (adv ?x)] |- _ =>
      lazymatch goal with _ : List.length (adv x) <= List.length x |- _ => fail | _ => pose proof (adv_le x) end
  end.

Ltac solve_bound := adv_facts; lia.

Ltac lands_ok := split; [solve_eof | solve_bound].

(* the hypothesis that speaks of the function called in [c], picked by name: unification with a statement about another
   function of the mutual block is slow *)
Ltac head c := lazymatch c with ?h _ => head h | _ => c end.
Ltac callee_lands c :=
  let g := head c in
  match goal with T : context [g] |- _ => apply T; [solve_eof | solve_bound] end.

Ltac lands_tail :=
  first [ eapply lands_le; [lazymatch goal with |- lands _ _ ?c => callee_lands c end | solve_bound]
        | first [rewrite p_entlist_close | rewrite p_expressions_close | rewrite p_record_close];
          [lands_ok | solve_bound | assumption] ].

Ltac lands_scrut f c :=
  lazymatch c with
  | context [if ?b then adv ?x else ?x] => destruct b
  | match ?c' with _ => _ end => lands_scrut f c'
  | context [tx (peek ?x) ?s] =>
      let E := fresh "Etx" in
      destruct (tx (peek x) s) eqn:E; cbn [negb orb];
      [ try (pose proof (adv_lt x s ltac:(solve_eof) ltac:(discriminate) (or_introl E)));
        try (lazymatch x with adv ?y => pose proof (adv_lt y s ltac:(solve_eof) ltac:(discriminate) (or_intror E)) end) | ]
  | unary_ops _ ?x _ =>
      let E := fresh "Eops" in
      destruct (unary_ops_lands x ltac:(solve_eof)) as (? & ? & E & ? & ?); rewrite E
  | context [f] =>
      let H := fresh "Hcall" in
      eassert (H : lands _ _ c) by callee_lands c;
      revert H; case c; [intros ? ? H | intros H | intros H]; cbn [lands] in H; [destruct H as [? ?] | clear H | destruct H]
  | _ => case c; intros
  end.

Ltac lands_step f :=
  cbv beta iota zeta;
  lazymatch goal with
  | |- lands _ _ ?X =>
    lazymatch X with
    | match ?c with _ => _ end => lands_scrut f c
    | POk _ _ => lands_ok
    | PErr => exact I
    | _ => lands_tail
    end
  end.

Ltac lands f := unfold bind, bexact, exact; repeat lands_step f.

Lemma entity_rest_lands : forall f ty ts, eof_terminated ts -> List.length ts + 1 <= f -> lands 0 ts (entity_rest f ty ts).
Proof. induction f as [|f IH]; intros ty ts Hg Hb; [lia|]. cbn [entity_rest]. lands f. Qed.

Lemma p_entity_lands : forall f ts, eof_terminated ts -> List.length ts + 1 <= f -> lands 0 ts (p_entity f ts).
Proof. intros f ts Hg Hb. pose proof (entity_rest_lands f) as T. unfold p_entity. lands f. Qed.

Lemma path_rest_lands : forall f ty ts, eof_terminated ts -> List.length ts + 1 <= f -> lands 0 ts (path_rest f ty ts).
Proof. induction f as [|f IH]; intros ty ts Hg Hb; [lia|]. cbn [path_rest]. lands f. Qed.

Lemma p_path_lands : forall f ts, eof_terminated ts -> List.length ts + 1 <= f -> lands 0 ts (p_path f ts).
Proof. intros f ts Hg Hb. pose proof (path_rest_lands f) as T. unfold p_path. lands f. Qed.

Lemma p_entlist_lands : forall f ts acc, eof_terminated ts -> 2 * List.length ts + 2 <= f -> lands 0 ts (p_entlist f ts acc).
Proof.
  induction f as [|f IH]; intros ts acc Hg Hb; [lia|]. pose proof (p_entity_lands f) as T.
  cbn [p_entlist]. lands f.
Qed.

Lemma p_scope_pr_lands : forall f ts, eof_terminated ts -> List.length ts + 1 <= f -> lands 0 ts (p_scope_pr f ts).
Proof. intros f ts Hg Hb. pose proof (p_entity_lands f) as T1. pose proof (p_path_lands f) as T2. unfold p_scope_pr. lands f. Qed.

Lemma p_scope_action_lands : forall f ts, eof_terminated ts -> 2 * List.length ts + 2 <= f -> lands 0 ts (p_scope_action f ts).
Proof.
  intros f ts Hg Hb. pose proof (p_entity_lands f) as T1. pose proof (p_entlist_lands f) as T2.
  unfold p_scope_action. lands f.
Qed.

(* the mutual block *)
Lemma expr_block_lands : forall f,
  (forall ts, eof_terminated ts -> 12 * List.length ts + 9 <= f -> lands 0 ts (p_expression f ts)) /\
  (forall ts, eof_terminated ts -> 12 * List.length ts + 8 <= f -> lands 0 ts (p_or f ts)) /\
  (forall l ts, eof_terminated ts -> 12 * List.length ts + 1 <= f -> lands 0 ts (p_or_loop f l ts)) /\
  (forall ts, eof_terminated ts -> 12 * List.length ts + 7 <= f -> lands 0 ts (p_and f ts)) /\
  (forall l ts, eof_terminated ts -> 12 * List.length ts + 1 <= f -> lands 0 ts (p_and_loop f l ts)) /\
  (forall ts, eof_terminated ts -> 12 * List.length ts + 6 <= f -> lands 0 ts (p_relation f ts)) /\
  (forall res cur ts, eof_terminated ts -> 12 * List.length ts + 1 <= f -> lands 0 ts (p_has_chain f res cur ts)) /\
  (forall ts, eof_terminated ts -> 12 * List.length ts + 5 <= f -> lands 0 ts (p_add f ts)) /\
  (forall l ts, eof_terminated ts -> 12 * List.length ts + 1 <= f -> lands 0 ts (p_add_loop f l ts)) /\
  (forall ts, eof_terminated ts -> 12 * List.length ts + 4 <= f -> lands 0 ts (p_mult f ts)) /\
  (forall l ts, eof_terminated ts -> 12 * List.length ts + 1 <= f -> lands 0 ts (p_mult_loop f l ts)) /\
  (forall ts, eof_terminated ts -> 12 * List.length ts + 3 <= f -> lands 0 ts (p_unary f ts)) /\
  (forall ts, eof_terminated ts -> 12 * List.length ts + 2 <= f -> lands 0 ts (p_member f ts)) /\
  (forall l ts, eof_terminated ts -> 12 * List.length ts + 1 <= f -> lands 0 ts (p_access_loop f l ts)) /\
  (forall ts, eof_terminated ts -> 12 * List.length ts + 1 <= f -> lands 0 ts (p_primary f ts)) /\
  (forall pre ts, eof_terminated ts -> 12 * List.length ts + 1 <= f -> lands 0 ts (p_entity_or_extfun f pre ts)) /\
  (forall close ts acc, eof_terminated ts -> 12 * List.length ts + 10 <= f -> lands 0 ts (p_expressions f close ts acc)) /\
  (forall ts acc, eof_terminated ts -> 12 * List.length ts + 1 <= f -> lands 0 ts (p_record f ts acc)).
Proof.
  induction f as [|f IH]; [repeat split; intros; lia|].
  pose proof (p_path_lands f) as Tpath.
  destruct IH as (IH1 & IH2 & IH3 & IH4 & IH5 & IH6 & IH7 & IH8 & IH9 & IH10 & IH11 & IH12 & IH13 & IH14 & IH15 & IH16 & IH17 & IH18).
  repeat split; intros;
    cbn [p_expression p_or p_or_loop p_and p_and_loop p_relation p_has_chain p_add p_add_loop p_mult p_mult_loop p_unary
         p_member p_access_loop p_primary p_entity_or_extfun p_expressions p_record];
    lands f.
Qed.

(* The members of the block one by one.  [apply expr_block_lands] would try the conjuncts in turn, and each failure costs a
   unification between two functions of the mutual block; [pick g H] walks down the conjunction [H] to the conjunct that
   mentions [g] and applies that. *)
Ltac pick g H :=
  lazymatch type of H with
  | ?A /\ _ => lazymatch A with
               | context [g] => apply (proj1 H)
               | _ => let H' := fresh in pose proof (proj2 H) as H'; pick g H'
               end
  | _ => apply H
  end.
Ltac block_lands f :=
  let B := fresh in pose proof (expr_block_lands f) as B;
  lazymatch goal with |- lands _ _ ?c => let g := head c in pick g B end.

(* [_k]: with the constant of the function in expr_block_lands, where the theorems at the end have the driver's 100 *)
Lemma p_expression_total_k : forall f ts, eof_terminated ts -> 12 * List.length ts + 9 <= f -> p_expression f ts <> PFuel.
Proof. intros f ts Hg Hb. eapply lands_nf. block_lands f; assumption. Qed.
Lemma p_or_total_k : forall f ts, eof_terminated ts -> 12 * List.length ts + 8 <= f -> p_or f ts <> PFuel.
Proof. intros f ts Hg Hb. eapply lands_nf. block_lands f; assumption. Qed.
Lemma p_or_loop_total_k : forall f l ts, eof_terminated ts -> 12 * List.length ts + 1 <= f -> p_or_loop f l ts <> PFuel.
Proof. intros f l ts Hg Hb. eapply lands_nf. block_lands f; assumption. Qed.
Lemma p_and_total_k : forall f ts, eof_terminated ts -> 12 * List.length ts + 7 <= f -> p_and f ts <> PFuel.
Proof. intros f ts Hg Hb. eapply lands_nf. block_lands f; assumption. Qed.
Lemma p_and_loop_total_k : forall f l ts, eof_terminated ts -> 12 * List.length ts + 1 <= f -> p_and_loop f l ts <> PFuel.
Proof. intros f l ts Hg Hb. eapply lands_nf. block_lands f; assumption. Qed.
Lemma p_relation_total_k : forall f ts, eof_terminated ts -> 12 * List.length ts + 6 <= f -> p_relation f ts <> PFuel.
Proof. intros f ts Hg Hb. eapply lands_nf. block_lands f; assumption. Qed.
Lemma p_has_chain_total_k : forall f res cur ts, eof_terminated ts -> 12 * List.length ts + 1 <= f -> p_has_chain f res cur ts <> PFuel.
Proof. intros f res cur ts Hg Hb. eapply lands_nf. block_lands f; assumption. Qed.
Lemma p_add_total_k : forall f ts, eof_terminated ts -> 12 * List.length ts + 5 <= f -> p_add f ts <> PFuel.
Proof. intros f ts Hg Hb. eapply lands_nf. block_lands f; assumption. Qed.
Lemma p_add_loop_total_k : forall f l ts, eof_terminated ts -> 12 * List.length ts + 1 <= f -> p_add_loop f l ts <> PFuel.
Proof. intros f l ts Hg Hb. eapply lands_nf. block_lands f; assumption. Qed.
Lemma p_mult_total_k : forall f ts, eof_terminated ts -> 12 * List.length ts + 4 <= f -> p_mult f ts <> PFuel.
Proof. intros f ts Hg Hb. eapply lands_nf. block_lands f; assumption. Qed.
Lemma p_mult_loop_total_k : forall f l ts, eof_terminated ts -> 12 * List.length ts + 1 <= f -> p_mult_loop f l ts <> PFuel.
Proof. intros f l ts Hg Hb. eapply lands_nf. block_lands f; assumption. Qed.
Lemma p_unary_total_k : forall f ts, eof_terminated ts -> 12 * List.length ts + 3 <= f -> p_unary f ts <> PFuel.
Proof. intros f ts Hg Hb. eapply lands_nf. block_lands f; assumption. Qed.
Lemma p_member_total_k : forall f ts, eof_terminated ts -> 12 * List.length ts + 2 <= f -> p_member f ts <> PFuel.
Proof. intros f ts Hg Hb. eapply lands_nf. block_lands f; assumption. Qed.
Lemma p_access_loop_total_k : forall f l ts, eof_terminated ts -> 12 * List.length ts + 1 <= f -> p_access_loop f l ts <> PFuel.
Proof. intros f l ts Hg Hb. eapply lands_nf. block_lands f; assumption. Qed.
Lemma p_primary_total_k : forall f ts, eof_terminated ts -> 12 * List.length ts + 1 <= f -> p_primary f ts <> PFuel.
Proof. intros f ts Hg Hb. eapply lands_nf. block_lands f; assumption. Qed.
Lemma p_entity_or_extfun_total_k : forall f pre ts, eof_terminated ts -> 12 * List.length ts + 1 <= f -> p_entity_or_extfun f pre ts <> PFuel.
Proof. intros f pre ts Hg Hb. eapply lands_nf. block_lands f; assumption. Qed.
Lemma p_expressions_total_k : forall f close ts acc, eof_terminated ts -> 12 * List.length ts + 10 <= f -> p_expressions f close ts acc <> PFuel.
Proof. intros f close ts acc Hg Hb. eapply lands_nf. block_lands f; assumption. Qed.
Lemma p_record_total_k : forall f ts acc, eof_terminated ts -> 12 * List.length ts + 1 <= f -> p_record f ts acc <> PFuel.
Proof. intros f ts acc Hg Hb. eapply lands_nf. block_lands f; assumption. Qed.

Lemma p_annotations_lands : forall f ts acc, eof_terminated ts -> List.length ts + 1 <= f -> lands 0 ts (p_annotations f ts acc).
Proof. induction f as [|f IH]; intros ts acc Hg Hb; [lia|]. cbn [p_annotations]. lands f. Qed.

Lemma p_conditions_lands : forall f ts acc, eof_terminated ts -> 12 * List.length ts + 10 <= f -> lands 0 ts (p_conditions f ts acc).
Proof.
  induction f as [|f IH]; intros ts acc Hg Hb; [lia|]. pose proof (proj1 (expr_block_lands f)) as T.
  cbn [p_conditions]. lands f.
Qed.

(* a successfully parsed policy consumed at least one token (its effect keyword) *)
Lemma p_policy_lands : forall f ts, eof_terminated ts -> 12 * List.length ts + 10 <= f -> lands 1 ts (p_policy f ts).
Proof.
  intros f ts Hg Hb.
  pose proof (p_annotations_lands f) as T1. pose proof (p_scope_pr_lands f) as T2.
  pose proof (p_scope_action_lands f) as T3. pose proof (p_conditions_lands f) as T4.
  unfold p_policy. lands f.
Qed.

Lemma p_policies_lands : forall f ts acc, eof_terminated ts -> 12 * List.length ts + 10 <= f -> lands 0 ts (p_policies f ts acc).
Proof.
  induction f as [|f IH]; intros ts acc Hg Hb; [lia|].
  assert (Hk : lands 0 ts (bind (p_policy (S f) ts) (fun p r => p_policies f r (acc ++ [p]))))
    by (pose proof p_policy_lands as T; lands f).
  cbn [p_policies]. destruct (t_type (peek ts)); first [exact Hk | split; [exact Hg | lia]].
Qed.

(* The rest of a POk is a suffix whatever the fuel: two runs that are not PFuel agree (ParserFuel), and one of them lands. *)
Lemma p_expression_rest_le : forall f ts v r, eof_terminated ts -> p_expression f ts = POk v r ->
  eof_terminated r /\ List.length r <= List.length ts.
Proof.
  intros f ts v r Hg E. pose proof (proj1 (expr_block_lands _) ts Hg (le_n _)) as H.
  rewrite (p_expression_agree _ f) in H; [rewrite E in H; exact H | exact (lands_nf _ _ _ _ H) | rewrite E; discriminate].
Qed.

Lemma p_policy_rest_lt : forall f ts v r, eof_terminated ts -> p_policy f ts = POk v r ->
  eof_terminated r /\ S (List.length r) <= List.length ts.
Proof.
  intros f ts v r Hg E. pose proof (p_policy_lands _ ts Hg (le_n _)) as H.
  rewrite (p_policy_agree _ f) in H; [rewrite E in H; exact H | exact (lands_nf _ _ _ _ H) | rewrite E; discriminate].
Qed.

Lemma p_policies_rest_le : forall f ts acc v r, eof_terminated ts -> p_policies f ts acc = POk v r ->
  eof_terminated r /\ List.length r <= List.length ts.
Proof.
  intros f ts acc v r Hg E. pose proof (p_policies_lands _ ts acc Hg (le_n _)) as H.
  rewrite (p_policies_agree _ f) in H; [rewrite E in H; exact H | exact (lands_nf _ _ _ _ H) | rewrite E; discriminate].
Qed.

(* Headline theorems: the fuel of the correspondence driver, 12 * length ts + 100, is enough on every EOF-terminated token list *)
Theorem p_expression_total : forall ts, eof_terminated ts -> forall f, (12 * List.length ts + 100 <= f)%nat -> p_expression f ts <> PFuel.
Proof. intros ts Hg f Hb. apply p_expression_total_k; [assumption | lia]. Qed.

Theorem p_policy_total : forall ts, eof_terminated ts -> forall f, (12 * List.length ts + 100 <= f)%nat -> p_policy f ts <> PFuel.
Proof. intros ts Hg f Hb. apply (lands_nf _ 1 ts), p_policy_lands; [assumption | lia]. Qed.

Theorem p_policies_total : forall ts, eof_terminated ts -> forall f, (12 * List.length ts + 100 <= f)%nat -> p_policies f ts [] <> PFuel.
Proof. intros ts Hg f Hb. apply (lands_nf _ 0 ts), p_policies_lands; [assumption | lia]. Qed.

(* the hypothesis cannot be dropped: ParserFuel.p_expression_minus_never_settles is a token list without EOF token on which
   p_expression is PFuel for every fuel *)

(* The token lists the tokenizer model produces ARE EOF-terminated, so the parser theorems apply to them. *)
Section TokEof.
  Variable scanner : Type.
  Variable nxt : scanner -> option (scanner * Z).
  Variable token_start token_stop set_err : scanner -> scanner.
  Variable token_position : scanner -> Z * Z * Z.
  Variable token_text : scanner -> list Z.
  Variable s_err : scanner -> bool.
  Hypothesis Htext : forall s, token_text (token_start s) = [].

  Lemma next_token_eof_text : forall fuel s ch t s' c,
    next_token scanner nxt token_start token_stop set_err token_position token_text fuel s ch = Some (t, s', c) ->
    t_type t = TEOF -> t_text t = [].
  Proof.
    intros fuel s ch t s' c H Ht.
    eapply (TokenizerParam.next_token_inv scanner nxt token_start token_stop set_err token_position token_text
              (fun _ _ => True) (fun _ _ => True)) in H
      as (_ & s0 & c0 & _ & _ & _ & Htx & [(_ & _ & ->) | (_ & Hne & _)]); auto.
    - rewrite Htx. apply Htext.
    - contradiction.
  Qed.

  Lemma tokenize_loop_eof_terminated : forall fuel s ch acc ts,
    tokenize_loop scanner nxt token_start token_stop set_err token_position token_text s_err fuel s ch acc = Some (Some ts) ->
    eof_terminated ts.
  Proof.
    induction fuel as [|f IH]; intros s ch acc ts; [discriminate|].
    cbn [tokenize_loop].
    destruct (next_token scanner nxt token_start token_stop set_err token_position token_text (S f) s ch) as [[[t s'] c]|] eqn:E;
      [|discriminate].
    destruct (s_err s'); [discriminate|].
    destruct (t_type t) eqn:Et; try (apply IH).
    intros H. inversion H; subst; clear H. cbn [rev]. split.
    - destruct (rev acc); discriminate.
    - rewrite last_last. exact (next_token_eof_text _ _ _ _ _ _ E Et).
  Qed.
End TokEof.

Lemma scanner_token_text_start : forall s, Scanner.token_text (Scanner.token_start s) = [].
Proof.
  intros s. unfold Scanner.token_text, Scanner.token_start. cbn [s_tokPos s_tokBuf s_pos s_lastCharLen s_buf].
  rewrite Nat.sub_diag. reflexivity.
Qed.

Theorem tokenize_eof_terminated : forall fuel bufLen r ts, tokenize fuel bufLen r = Some (Some ts) -> eof_terminated ts.
Proof.
  intros fuel bufLen r ts. unfold tokenize. cbv zeta.
  destruct (next fuel bufLen (init r)) as [[s ch]|]; [|discriminate].
  apply tokenize_loop_eof_terminated. exact scanner_token_text_start.
Qed.

(* end to end: whatever the tokenizer model returns, the parser model does not run out of the driver's fuel on it *)
Corollary tokenize_p_policies_total : forall fuel bufLen r ts, tokenize fuel bufLen r = Some (Some ts) ->
  forall f, (12 * List.length ts + 100 <= f)%nat -> p_policies f ts [] <> PFuel.
Proof. intros fuel bufLen r ts H. apply p_policies_total. exact (tokenize_eof_terminated _ _ _ _ H). Qed.

(* 2. Policy JSON: the fuel decode_expr hands out, S (jdepth j), is enough for every tree. *)
(* imported here, not at the head: part 1 does not need them, and their names stay out of its statements *)
From Cedar Require Import Proofs.ValueProofs Proofs.PolicyJsonProofs.

(* the two loops of dec_expr: over the elements of an array, over the members of a record *)
Lemma dall_go_arr (D : json -> dres expr) (l : list json) :
  (forall x, In x l -> D x <> DFuel) ->
  dall ((fix go (a : list json) : list (dres expr) := match a with [] => [] | x :: r => D x :: go r end) l) <> DFuel.
Proof.
  intros H. apply dall_nofuel. induction l as [|x l IH]; [constructor|].
  constructor; [apply H; left; reflexivity | apply IH; intros y Hy; apply H; right; exact Hy].
Qed.

Lemma dall_go_rec (D : json -> dres expr) (m : list (str * json)) :
  (forall kv, In kv m -> D (snd kv) <> DFuel) ->
  dall ((fix go (a : list (str * json)) : list (dres (str * expr)) :=
           match a with
           | [] => []
           | (key', JNull) :: r => DErr :: go r
           | (key', x) :: r => dbind (D x) (fun e => DOk (key', e)) :: go r
           end) (rec_of_list m)) <> DFuel.
Proof.
  intros H. apply dall_nofuel.
  assert (HF : Forall (fun kv => D (snd kv) <> DFuel) (rec_of_list m))
    by (apply (rec_of_list_Forall (fun x => D x <> DFuel)), Forall_forall, H).
  induction HF as [|[key x] l Hx _ IH]; [constructor|]. cbn [snd] in Hx.
  destruct x; (constructor; [|exact IH]); first [discriminate | apply dbind_nofuel; [exact Hx | discriminate]].
Qed.

Lemma first_field_depth : forall l key v, first_field l = Some (key, v) -> jdepth v < jdepth (JObj l).
Proof.
  intros l key v. unfold first_field. generalize node_keys. induction l0 as [|n r IH]; [discriminate|].
  destruct (field n l) as [x|] eqn:E.
  - intros H. inversion H; subst. exact (field_depth n l v E).
  - exact IH.
Qed.

Lemma dec_expr_S f j : dec_expr (S f) j = ltac:(let t := eval cbn [dec_expr] in (dec_expr (S f) j) in exact t).
Proof. reflexivity. Qed.

Lemma jdepth_obj_hd : forall key v r, jdepth v < jdepth (JObj ((key, v) :: r)).
Proof. intros key v r. apply (jdepth_obj_in (key, v)). left. reflexivity. Qed.

Lemma dec_pattern_nf : forall p, dec_pattern p <> DFuel.
Proof.
  intros p. unfold dec_pattern. destruct p as [| | | | |l|]; try discriminate.
  destruct l as [|c l]; [discriminate|]. destruct (all_some _); discriminate.
Qed.

(* The tactic [nf_with leaf] follows the code of a decoder.  The goal is  X <> DFuel :
   - X is DOk, DErr or DUnk: done;   X is dbind: dbind_nofuel;
   - X is a match on a lookup in an object: split, recording in the Some branch that the member found is shallower than the
     object;   X is a match on anything else: split ([destruct] for a variable, which the depth facts mention, else the
     cheaper [case]);
   - X is dall of a list: no element of the list is DFuel;   the elements of an array and the members of an object are
     shallower than it;
   - otherwise X is a call: [leaf]. *)
Ltac nf_scrut c :=
  let E := fresh "Elook" in
  lazymatch c with
  | match ?c' with _ => _ end => nf_scrut c'
  | jget _ _ => destruct c as [?|] eqn:E; [pose proof (jget_depth _ _ _ E)|]
  | field _ _ => destruct c as [?|] eqn:E; [pose proof (field_depth _ _ _ E)|]
  | first_field _ => destruct c as [[? ?]|] eqn:E; [pose proof (first_field_depth _ _ _ E)|]
  | _ => tryif is_var c then destruct c else (case c; repeat lazymatch goal with |- forall _, _ => intro end)
  end.

Ltac nf_step leaf :=
  cbv beta iota zeta;
  lazymatch goal with
  | |- ?X <> DFuel =>
    lazymatch X with
    | DOk _ => discriminate
    | DErr => discriminate
    | DUnk => discriminate
    | dbind _ _ => apply dbind_nofuel; [|intro]
    | match ?c with _ => _ end => nf_scrut c
    | dall (map _ _) => apply dall_map_nofuel; intros ? _
    | dall [] => discriminate
    | dall _ =>
        let Hin := fresh "Hin" in
        first [apply dall_go_arr; intros ? Hin; apply jdepth_arr_in in Hin
              | apply dall_go_rec; intros ? Hin; apply jdepth_obj_in in Hin]
    | _ => leaf
    end
  end.

Ltac nf_with leaf := repeat nf_step leaf.
(* calls are discharged by the hints in core *)
Ltac nf := nf_with ltac:(solve [auto 2]).

(* every call of dec_expr is on a shallower tree: the depth facts collected on the way, and the first member of an object
   written out as a list is shallower than the object *)
Ltac shallower :=
  first [ lia
        | match goal with _ : context [jdepth (JObj ((?key, ?v) :: ?r))] |- _ => pose proof (jdepth_obj_hd key v r); lia end ].

Theorem dec_expr_total : forall j f, (jdepth j < f)%nat -> dec_expr f j <> DFuel.
Proof.
  intros j f; revert j. induction f as [|f IH]; intros j Hj; [lia|].
  rewrite dec_expr_S. nf_with ltac:(first [apply IH; shallower | apply dec_pattern_nf]).
Qed.

Theorem decode_expr_total : forall j, decode_expr j <> DFuel.
Proof. intros j. unfold decode_expr. apply dec_expr_total. lia. Qed.

(* the other pieces of dec_policy have no fuel at all *)
Lemma sfield_nf : forall key l, sfield key l <> DFuel.
Proof. exact sfield_nofuel. Qed.
#[local] Hint Resolve sfield_nf : core.

Lemma dec_uid_nf : forall j, dec_uid j <> DFuel.
Proof. intros j. unfold dec_uid. nf. Qed.
#[local] Hint Resolve dec_uid_nf : core.

Lemma dec_scope_nf : forall action j, dec_scope action j <> DFuel.
Proof. intros action j. unfold dec_scope. nf. Qed.
#[local] Hint Resolve dec_scope_nf decode_expr_total : core.

Theorem dec_policy_total : forall j, dec_policy j <> DFuel.
Proof. intros j. unfold dec_policy. nf. Qed.

(* 3. String and pattern literals: unquote / parse_pattern / unicode_digits return option, where None means both
   "malformed" and "out of fuel".  The fuel is never the reason: any fuel above the length of the input gives the
   same result as the fuel the callers hand out. *)
(* from here on bytes and runes are in Z; comparisons of lengths and fuels carry %nat *)
From Cedar Require Import Base.Utf8 Base.Utf8Enc Proofs.QuoteProofs.
Local Open Scope Z_scope.

(* a decoded rune has width 1..4; it is '*' only if the first byte is '*' *)
Lemma decode_rune_cons : forall b0 r ch w, decode_rune (b0 :: r) = (ch, w) ->
  (1 <= w)%nat /\ (ch = 42 -> b0 = 42).
Proof.
  intros b0 r ch w H. destruct (decode_rune_cases _ _ _ _ H) as [E|[[_ E]|(bs & rest & Hs & Hu & ->)]].
  - inversion E; subst. split; [lia | unfold rune_error; lia].
  - inversion E; subst. split; [lia | auto].
  - destruct Hu; inversion Hs; subst; cbn [List.length]; split; lia.
Qed.

Lemma next_rune_lt : forall b ch b', next_rune b = Some (ch, b') -> (List.length b' < List.length b)%nat.
Proof.
  intros b ch b'. unfold next_rune. destruct (decode_rune b) as [c w] eqn:E.
  destruct ((c =? rune_error) && Nat.leb w 1) eqn:Ec; [discriminate|].
  intros H. inversion H; subst; clear H.
  destruct b as [|b0 r]; [cbn in E; inversion E; subst; cbn in Ec; discriminate|].
  destruct (decode_rune_cons b0 r ch w E) as [Hw _].
  rewrite skipn_length. cbn [List.length]. lia.
Qed.

Lemma next_rune_star : forall b0 r b', next_rune (b0 :: r) = Some (42, b') -> b0 = 42.
Proof.
  intros b0 r b'. unfold next_rune. destruct (decode_rune (b0 :: r)) as [c w] eqn:E.
  destruct ((c =? rune_error) && Nat.leb w 1); [discriminate|].
  intros H. inversion H; subst; clear H.
  destruct (decode_rune_cons b0 r 42 w E) as [_ Hs]. apply Hs. reflexivity.
Qed.

Lemma parse_hex_escape_lt : forall b r b', parse_hex_escape b = Some (r, b') -> (List.length b' < List.length b)%nat.
Proof.
  intros b r b'. unfold parse_hex_escape.
  destruct (next_rune b) as [[c1 b1]|] eqn:E1; [|discriminate].
  destruct (negb (is_hexd c1)); [discriminate|].
  destruct (next_rune b1) as [[c2 b2]|] eqn:E2; [|discriminate].
  destruct (negb (is_hexd c2)); [discriminate|]. cbv zeta.
  destruct (127 <? 16 * digit_val c1 + digit_val c2); [discriminate|].
  intros H. inversion H; subst; clear H.
  pose proof (next_rune_lt _ _ _ E1). pose proof (next_rune_lt _ _ _ E2). lia.
Qed.

Lemma unicode_digits_lt : forall f b res d r d' b', unicode_digits f b res d = Some (r, d', b') ->
  (List.length b' < List.length b)%nat.
Proof.
  induction f as [|f IH]; intros b res d r d' b'; [discriminate|].
  cbn [unicode_digits]. destruct (next_rune b) as [[ch b1]|] eqn:E1; [|discriminate].
  pose proof (next_rune_lt _ _ _ E1) as Hlt.
  destruct (ch =? 125).
  - intros H. inversion H; subst. exact Hlt.
  - destruct (negb (is_hexd ch)); [discriminate|].
    intros H. apply IH in H. lia.
Qed.

Lemma parse_unicode_escape_lt : forall b r b', parse_unicode_escape b = Some (r, b') -> (List.length b' < List.length b)%nat.
Proof.
  intros b r b'. unfold parse_unicode_escape.
  destruct (next_rune b) as [[ch b1]|] eqn:E1; [|discriminate].
  pose proof (next_rune_lt _ _ _ E1) as Hlt.
  destruct (negb (ch =? 123)); [discriminate|].
  destruct (unicode_digits (S (List.length b1)) b1 0 0) as [[[res digits] b2]|] eqn:E2; [|discriminate].
  pose proof (unicode_digits_lt _ _ _ _ _ _ _ E2) as Hlt2.
  destruct (Nat.eqb digits 0 || Nat.ltb 6 digits || negb (valid_rune res)); [discriminate|].
  intros H. inversion H; subst. lia.
Qed.

(* the digit loop: any fuel above the length of the input gives the same result *)
Lemma unicode_digits_stable : forall f1 f2 b res d, (List.length b < f1)%nat -> (List.length b < f2)%nat ->
  unicode_digits f1 b res d = unicode_digits f2 b res d.
Proof.
  induction f1 as [|f1 IH]; intros f2 b res d H1 H2; [lia|].
  destruct f2 as [|f2]; [lia|].
  cbn [unicode_digits]. destruct (next_rune b) as [[ch b1]|] eqn:E1; [|reflexivity].
  pose proof (next_rune_lt _ _ _ E1) as Hlt.
  destruct (ch =? 125); [reflexivity|]. destruct (negb (is_hexd ch)); [reflexivity|].
  apply IH; lia.
Qed.

Theorem unicode_digits_fuel_enough : forall b res d f, (List.length b < f)%nat ->
  unicode_digits f b res d = unicode_digits (S (List.length b)) b res d.
Proof. intros b res d f Hf. apply unicode_digits_stable; lia. Qed.

(* Unquote.  What one round of unquote_fuel does on a non-empty [b], as a function [x] of the fuel that is left: it fails, or
   stops at an unescaped star, or goes on with a strictly shorter input. *)
Definition uq_round (b : list Z) (star : bool) (acc : list Z) (x : nat -> option (list Z * list Z)) : Prop :=
  (forall f, x f = None) \/
  ((exists t, b = 42 :: t) /\ forall f, x f = Some (acc, b)) \/
  (exists b' acc', (List.length b' < List.length b)%nat /\ forall f, x f = unquote_fuel f b' star acc').

Lemma uq_fail : forall b star acc, uq_round b star acc (fun _ => None).
Proof. left. reflexivity. Qed.

Lemma uq_go : forall b star acc b' acc', (List.length b' < List.length b)%nat ->
  uq_round b star acc (fun f => unquote_fuel f b' star acc').
Proof. intros b star acc b' acc' L. right; right. exists b', acc'. split; [exact L | reflexivity]. Qed.

Lemma unquote_fuel_round : forall b star acc, b <> [] ->
  (forall f, unquote_fuel (S f) b star acc = None) \/
  ((exists t, b = 42 :: t) /\ forall f, unquote_fuel (S f) b star acc = Some (acc, b)) \/
  (exists b' acc', (List.length b' < List.length b)%nat /\
     forall f, unquote_fuel (S f) b star acc = unquote_fuel f b' star acc').
Proof.
  intros b star acc Hb. change (uq_round b star acc (fun f => unquote_fuel (S f) b star acc)).
  destruct b as [|b0 t]; [congruence|]. cbn [unquote_fuel].
  destruct (next_rune (b0 :: t)) as [[ch b1]|] eqn:E1; [|apply uq_fail].
  pose proof (next_rune_lt _ _ _ E1) as L1.
  destruct (star && (ch =? 42)) eqn:Es.
  { right; left. split; [|reflexivity]. apply andb_true_iff in Es. destruct Es as [_ Es]. apply Z.eqb_eq in Es. subst ch.
    exists t. f_equal. exact (next_rune_star _ _ _ E1). }
  destruct (negb (ch =? 92)); [apply uq_go; exact L1|].
  destruct (next_rune b1) as [[e b2]|] eqn:E2; [|apply uq_fail].
  pose proof (next_rune_lt _ _ _ E2) as L2. cbv zeta.
  assert (Hlit : forall r, uq_round (b0 :: t) star acc (fun f => unquote_fuel f b2 star (acc ++ encode_rune r)))
    by (intros r; apply uq_go; lia).
  destruct (e =? 110); [apply Hlit|]. destruct (e =? 114); [apply Hlit|]. destruct (e =? 116); [apply Hlit|].
  destruct (e =? 92); [apply Hlit|]. destruct (e =? 48); [apply Hlit|]. destruct (e =? 39); [apply Hlit|].
  destruct (e =? 34); [apply Hlit|].
  destruct (e =? 120).
  { destruct (parse_hex_escape b2) as [[r b3]|] eqn:E3; [|apply uq_fail].
    apply uq_go. pose proof (parse_hex_escape_lt _ _ _ E3). lia. }
  destruct (e =? 117).
  { destruct (parse_unicode_escape b2) as [[r b3]|] eqn:E3; [|apply uq_fail].
    apply uq_go. pose proof (parse_unicode_escape_lt _ _ _ E3). lia. }
  destruct (e =? 42); [destruct star; [apply Hlit | apply uq_fail] | apply uq_fail].
Qed.

Lemma unquote_fuel_stable : forall f1 f2 b star acc, (List.length b < f1)%nat -> (List.length b < f2)%nat ->
  unquote_fuel f1 b star acc = unquote_fuel f2 b star acc.
Proof.
  induction f1 as [|f1 IH]; intros f2 b star acc H1 H2; [lia|].
  destruct f2 as [|f2]; [lia|]. destruct b as [|b0 t]; [reflexivity|].
  destruct (unquote_fuel_round (b0 :: t) star acc ltac:(discriminate)) as [E|[[_ E]|(b' & acc' & L & E)]]; rewrite !E;
    [reflexivity | reflexivity | apply IH; lia].
Qed.

Theorem unquote_fuel_enough : forall b star acc f, (List.length b < f)%nat ->
  unquote_fuel f b star acc = unquote_fuel (S (List.length b)) b star acc.
Proof. intros b star acc f Hf. apply unquote_fuel_stable; lia. Qed.

Corollary unquote_total : forall b star f, (List.length b < f)%nat -> unquote_fuel f b star [] = unquote b star.
Proof. intros b star f Hf. unfold unquote. apply unquote_fuel_enough. exact Hf. Qed.

(* the unconsumed rest is the input itself (nothing was read: the input is empty or begins with an unescaped star) or is
   strictly shorter *)
Lemma unquote_fuel_rest : forall f b star acc lit b2, unquote_fuel f b star acc = Some (lit, b2) ->
  (b2 = b /\ (b = [] \/ exists t, b = 42 :: t)) \/ (List.length b2 < List.length b)%nat.
Proof.
  induction f as [|f IH]; intros b star acc lit b2; [discriminate|].
  destruct b as [|b0 t]; [intros H; inversion H; subst; left; split; [reflexivity | left; reflexivity]|].
  destruct (unquote_fuel_round (b0 :: t) star acc ltac:(discriminate)) as [E|[[Hs E]|(b' & acc' & L & E)]];
    rewrite E; intros H.
  - discriminate.
  - inversion H; subst. left. split; [reflexivity | right; exact Hs].
  - right. destruct (IH _ _ _ _ _ H) as [[-> _]|L2]; lia.
Qed.

Lemma strip_stars_spec : forall n b comps b1 comps1, strip_stars n b comps = (b1, comps1) ->
  (List.length b1 <= List.length b)%nat /\ ((List.length b <= n)%nat -> no_star_head b1).
Proof.
  induction n as [|n IH]; intros b comps b1 comps1 H.
  - cbn [strip_stars] in H. inversion H; subst. split; [lia|].
    intros Hl. destruct b1; [left; reflexivity | cbn [List.length] in Hl; lia].
  - destruct b as [|c b'].
    + cbn [strip_stars] in H. inversion H; subst. split; [lia | intros _; left; reflexivity].
    + rewrite strip_stars_cons in H. destruct (c =? 42) eqn:Ec.
      * apply IH in H. destruct H as [H1 H2]. cbn [List.length]. split; [lia|].
        intros Hl. apply H2. lia.
      * inversion H; subst. split; [lia|]. intros _. right. exists c, b'. split; [reflexivity|].
        apply Z.eqb_neq. exact Ec.
Qed.

Lemma parse_pattern_fuel_stable : forall f1 f2 b comps, (List.length b < f1)%nat -> (List.length b < f2)%nat ->
  parse_pattern_fuel f1 b comps = parse_pattern_fuel f2 b comps.
Proof.
  induction f1 as [|f1 IH]; intros f2 b comps H1 H2; [lia|].
  destruct f2 as [|f2]; [lia|].
  cbn [parse_pattern_fuel]. destruct b as [|b0 b']; [reflexivity|].
  remember (b0 :: b') as b eqn:Eb.
  destruct (strip_stars (List.length b) b comps) as [b1 comps1] eqn:Es.
  destruct (strip_stars_spec _ _ _ _ _ Es) as [Hle Hhd]. specialize (Hhd (Nat.le_refl _)).
  destruct (unquote b1 true) as [[lit b2]|] eqn:Eu; [|reflexivity].
  (* what is left is shorter than b: after the stars b1 is empty, or it does not begin with a star and unquote reads on *)
  assert (Hlt : (List.length b2 < List.length b)%nat).
  { destruct (unquote_fuel_rest _ _ _ _ _ _ Eu) as [[-> [->|[t ->]]]|L]; [subst b; cbn [List.length]; lia | | lia].
    destruct Hhd as [Hhd|(c & r & Hhd & Hc)]; congruence. }
  apply IH; lia.
Qed.

Theorem parse_pattern_fuel_enough : forall v comps f, (S (List.length v) < f)%nat ->
  parse_pattern_fuel f v comps = parse_pattern_fuel (S (S (List.length v))) v comps.
Proof. intros v comps f Hf. apply parse_pattern_fuel_stable; lia. Qed.

(* even S (length v) would do *)
Theorem parse_pattern_fuel_enough' : forall v comps f, (List.length v < f)%nat ->
  parse_pattern_fuel f v comps = parse_pattern_fuel (S (S (List.length v))) v comps.
Proof. intros v comps f Hf. apply parse_pattern_fuel_stable; lia. Qed.

Print Assumptions p_expression_rest_le.
Print Assumptions p_policy_rest_lt.
Print Assumptions p_policies_rest_le.
Print Assumptions p_expression_total.
Print Assumptions p_policy_total.
Print Assumptions p_policies_total.
Print Assumptions tokenize_eof_terminated.
Print Assumptions tokenize_p_policies_total.
Print Assumptions dec_expr_total.
Print Assumptions decode_expr_total.
Print Assumptions dec_policy_total.
Print Assumptions unicode_digits_fuel_enough.
Print Assumptions unquote_fuel_enough.
Print Assumptions unquote_total.
Print Assumptions parse_pattern_fuel_enough.
Print Assumptions parse_pattern_fuel_enough'.
