(* Determinism: the results of the modelled evaluator and authorizer do not depend on the ORDER in
   which Go happens to iterate its maps.

   In the model every Go map shows up as a list whose order is an arbitrary "schedule":
     - the entity store  [store = list (uid * entity)]  (a Go map uid -> Entity, keys unique),
     - each entity's parent set [e_parents : list uid],
     - the field map of a record literal [ERecord kvs],
     - the policy list given to [authorize].
   Determinism = invariance under permutation of these lists.  For stores we prove the stronger
   statement that evaluation only depends on the *denotation* of the store ([store_equiv]: same keys,
   pointwise the same attributes/tags and the same SET of parents); a permutation of a key-unique
   store has the same denotation ([perm_store_equiv]). *)
From Coq Require Import ZArith List Bool Permutation Lia.
Import ListNotations.
From Cedar Require Import Lang.Value Lang.Expr Impl.InSearch Impl.Eval Impl.Authorize Impl.Batch
  Proofs.ValueProofs Proofs.InSearchProofs Proofs.AuthorizeProofs.

(* two stores denote the same Go map: [lookup] (first match) finds something under the same keys, and
   there the same attrs/tags and the same SET of parents *)
Definition entity_equiv (e1 e2 : entity) : Prop :=
  e_attrs e1 = e_attrs e2 /\ e_tags e1 = e_tags e2 /\ (forall u, In u (e_parents e1) <-> In u (e_parents e2)).
Definition store_equiv (s1 s2 : store) : Prop :=
  forall u, match lookup s1 u, lookup s2 u with
            | Some e1, Some e2 => entity_equiv e1 e2
            | None, None => True
            | _, _ => False end.
Definition env_equiv (a b : env) : Prop :=
  store_equiv (e_store a) (e_store b) /\ e_principal a = e_principal b /\ e_action a = e_action b /\
  e_resource a = e_resource b /\ e_context a = e_context b.

Lemma entity_equiv_refl e : entity_equiv e e.
Proof. split; [reflexivity|]. split; [reflexivity|]. intros u; tauto. Qed.

Lemma entity_equiv_sym e1 e2 : entity_equiv e1 e2 -> entity_equiv e2 e1.
Proof.
  intros [Ha [Ht Hp]]. split; [symmetry; exact Ha|]. split; [symmetry; exact Ht|].
  intros u. symmetry. apply Hp.
Qed.

Lemma entity_equiv_trans e1 e2 e3 : entity_equiv e1 e2 -> entity_equiv e2 e3 -> entity_equiv e1 e3.
Proof.
  intros [Ha [Ht Hp]] [Ha' [Ht' Hp']]. split; [congruence|]. split; [congruence|].
  intros u. rewrite Hp. apply Hp'.
Qed.

Lemma store_equiv_refl s : store_equiv s s.
Proof. intros u. destruct (lookup s u) as [e|]; [apply entity_equiv_refl | exact I]. Qed.

Lemma store_equiv_sym s1 s2 : store_equiv s1 s2 -> store_equiv s2 s1.
Proof.
  intros H u. specialize (H u). destruct (lookup s1 u) as [e1|], (lookup s2 u) as [e2|]; auto.
  apply entity_equiv_sym. exact H.
Qed.

Lemma store_equiv_trans s1 s2 s3 : store_equiv s1 s2 -> store_equiv s2 s3 -> store_equiv s1 s3.
Proof.
  intros H12 H23 u. specialize (H12 u). specialize (H23 u).
  destruct (lookup s1 u) as [e1|], (lookup s2 u) as [e2|], (lookup s3 u) as [e3|]; auto;
    try contradiction.
  eapply entity_equiv_trans; eauto.
Qed.

Lemma env_equiv_refl en : env_equiv en en.
Proof. unfold env_equiv. split; [apply store_equiv_refl|]. auto. Qed.

Lemma env_equiv_sym a b : env_equiv a b -> env_equiv b a.
Proof.
  intros [Hs [Hp [Ha [Hr Hc]]]]. split; [apply store_equiv_sym; exact Hs|]. auto.
Qed.

(* Go's map lookup on the model of a map, an association list with distinct keys, does not see the order
   of the list.  [get] is any first-match lookup: [lookup] for stores, [rec_get] for records. *)
Section AssocPerm.
  Context {K V : Type} (eqb : K -> K -> bool) (get : list (K * V) -> K -> option V).
  Hypothesis eqb_true : forall a b, eqb a b = true -> a = b.
  Hypothesis get_cons : forall k v l u, get ((k, v) :: l) u = if eqb k u then Some v else get l u.

  Lemma assoc_perm l1 l2 : NoDup (map fst l1) -> Permutation l1 l2 -> forall u, get l1 u = get l2 u.
  Proof.
    intros Hnd HP u. induction HP as [|[k v] l l' HP IH|[k1 v1] [k2 v2] l|l l' l'' HP1 IH1 HP2 IH2].
    - reflexivity.
    - rewrite !get_cons. destruct (eqb k u); [reflexivity|]. apply IH. inversion Hnd; assumption.
    - (* two adjacent entries cannot both have the key u *)
      rewrite !get_cons. destruct (eqb k1 u) eqn:E1, (eqb k2 u) eqn:E2; try reflexivity.
      apply eqb_true in E1, E2. subst. inversion Hnd as [|? ? Hn _]. destruct Hn. left. reflexivity.
    - rewrite IH1 by exact Hnd. apply IH2. apply (Permutation_NoDup (Permutation_map fst HP1) Hnd).
  Qed.
End AssocPerm.

Theorem perm_store_equiv : forall s1 s2, NoDup (map fst s1) -> Permutation s1 s2 -> store_equiv s1 s2.
Proof.
  intros s1 s2 Hnd HP u.
  assert (E : lookup s1 u = lookup s2 u).
  { apply (assoc_perm uid_eqb lookup); [intros a b; apply uid_eqb_eq | reflexivity | exact Hnd | exact HP]. }
  rewrite <- E. apply store_equiv_refl.
Qed.

(* the schedule of each parent set may change too *)
Definition perm_parents (e1 e2 : entity) : Prop :=
  e_attrs e1 = e_attrs e2 /\ e_tags e1 = e_tags e2 /\ Permutation (e_parents e1) (e_parents e2).

Lemma perm_parents_equiv e1 e2 : perm_parents e1 e2 -> entity_equiv e1 e2.
Proof.
  intros [Ha [Ht HP]]. split; [exact Ha|]. split; [exact Ht|].
  intros u. split; apply Permutation_in; [exact HP | apply Permutation_sym, HP].
Qed.

(* general form: reorder the store AND reorder every parent list *)
Theorem reschedule_store_equiv : forall s1 s1' s2,
  NoDup (map fst s1) -> Permutation s1 s1' ->
  Forall2 (fun x y => fst x = fst y /\ perm_parents (snd x) (snd y)) s1' s2 ->
  store_equiv s1 s2.
Proof.
  intros s1 s1' s2 Hnd HP HF. apply store_equiv_trans with s1'; [apply perm_store_equiv; assumption|].
  clear Hnd HP. induction HF as [|[k1 e1] [k2 e2] l1 l2 [Hk Hp] HF IH]; intros u; cbn [lookup]; [exact I|].
  cbn [fst snd] in Hk, Hp. subst k2. destruct (uid_eqb k1 u); [apply perm_parents_equiv, Hp | apply IH].
Qed.

Lemma edge_equiv s1 s2 x y : store_equiv s1 s2 ->
  edge uid (parents_of s1) x y -> edge uid (parents_of s2) x y.
Proof.
  intros HS [ps [Hps Hin]]. specialize (HS x). unfold parents_of in Hps.
  destruct (lookup s1 x) as [e1|]; [|discriminate]. injection Hps as <-.
  destruct (lookup s2 x) as [e2|] eqn:E2; [|contradiction].
  exists (e_parents e2). split; [unfold parents_of; rewrite E2; reflexivity | apply HS, Hin].
Qed.

Lemma reach_equiv s1 s2 a b : store_equiv s1 s2 -> (reach_st s1 a b <-> reach_st s2 a b).
Proof.
  intros HS. split; apply reach_mono; intros x y; apply edge_equiv; [exact HS | apply store_equiv_sym, HS].
Qed.

(* both searches decide reachability, which only depends on the denotation of the store *)
Theorem in_one_store_invariant : forall s1 s2 a b, store_equiv s1 s2 -> in_one s1 a b = in_one s2 a b.
Proof.
  intros s1 s2 a b HS.
  apply (same_decision _ _ _ _ (eval_in_one_correct s1 a b) (eval_in_one_correct s2 a b)), reach_equiv, HS.
Qed.

Theorem in_set_invariant : forall s1 s2 a bs1 bs2, store_equiv s1 s2 -> (forall u, In u bs1 <-> In u bs2) ->
   in_set s1 a bs1 = in_set s2 a bs2.
Proof.
  intros s1 s2 a bs1 bs2 HS HB.
  apply (same_decision _ _ _ _ (eval_in_set_correct s1 a bs1) (eval_in_set_correct s2 a bs2)).
  split; intros [b [Hin Hr]]; exists b; (split; [apply HB, Hin | apply (reach_equiv s1 s2 a b HS), Hr]).
Qed.

Lemma bindr_ext r f g : (forall v, f v = g v) -> bindr r f = bindr r g.
Proof. intros H. destruct r as [v|k]; cbn [bindr]; [apply H | reflexivity]. Qed.

Lemma as_entity_ext v f g : (forall u, f u = g u) -> as_entity v f = as_entity v g.
Proof. intros H. destruct v; cbn [as_entity]; try reflexivity. apply H. Qed.

Lemma as_string_ext v f g : (forall s, f s = g s) -> as_string v f = as_string v g.
Proof. intros H. destruct v; cbn [as_string]; try reflexivity. apply H. Qed.

Lemma do_in_invariant s1 s2 u w : store_equiv s1 s2 -> do_in s1 u w = do_in s2 u w.
Proof.
  intros HS. destruct w; cbn [do_in]; try reflexivity.
  - rewrite (in_one_store_invariant s1 s2 u (ty, id) HS). reflexivity.
  - destruct (all_entities l) as [us|]; [|reflexivity].
    rewrite (in_set_invariant s1 s2 u us us HS); [reflexivity|]. intros x; tauto.
Qed.

(* attribute and tag accesses read an entity of the store through a function that respects entity_equiv *)
Lemma lookup_equiv {A} s1 s2 u (d : A) (f : entity -> A) :
  store_equiv s1 s2 -> (forall e1 e2, entity_equiv e1 e2 -> f e1 = f e2) ->
  match lookup s1 u with Some e => f e | None => d end = match lookup s2 u with Some e => f e | None => d end.
Proof.
  intros HS Hf. specialize (HS u).
  destruct (lookup s1 u) as [e1|], (lookup s2 u) as [e2|]; try contradiction; [apply Hf, HS | reflexivity].
Qed.

Lemma get_attr_invariant s1 s2 v k : store_equiv s1 s2 -> get_attr s1 v k = get_attr s2 v k.
Proof.
  intros HS. destruct v; cbn [get_attr]; try reflexivity.
  destruct (is_zero_uid (ty, id)); [reflexivity|].
  apply lookup_equiv; [exact HS|]. intros e1 e2 [Ha _]. cbv beta. rewrite Ha. reflexivity.
Qed.

Lemma has_attr_invariant s1 s2 v k : store_equiv s1 s2 -> has_attr s1 v k = has_attr s2 v k.
Proof.
  intros HS. destruct v; cbn [has_attr]; try reflexivity.
  apply lookup_equiv; [exact HS|]. intros e1 e2 [Ha _]. cbv beta. rewrite Ha. reflexivity.
Qed.

(* value AND which error surfaces: the whole result, for every expression *)
Theorem eval_store_invariant : forall en1 en2 e, env_equiv en1 en2 -> eval en1 e = eval en2 e.
Proof.
  intros en1 en2 e HE. pose proof HE as [HS _].
  induction e as
    [ v | x | a b IHa IHb | a b IHa IHb | a IHa | a IHa | a b IHa IHb | a b IHa IHb | a b IHa IHb
    | a b IHa IHb | a b IHa IHb | a b IHa IHb | a b IHa IHb | a b IHa IHb | a b IHa IHb
    | a b IHa IHb | a b IHa IHb | a b IHa IHb | a b IHa IHb | a IHa | a k IHa | a k IHa
    | a b IHa IHb | a b IHa IHb | a p IHa | a ty IHa | a ty b IHa IHb | c t f IHc IHt IHf
    | es IHes | kvs IHkvs | n args IHargs | k ] using expr_ind';
    cbn [eval]; rewrite ?IHa, ?IHb, ?IHc, ?IHt, ?IHf;
    try (match goal with |- ?l = ?r => constr_eq l r; reflexivity end).
  - (* EVar *) destruct HE as [_ [Hp [Ha [Hr Hc]]]]. destruct x; cbn [var_value]; congruence.
  - (* EIn *)
    apply bindr_ext; intros v. apply as_entity_ext; intros u. apply bindr_ext; intros w.
    apply do_in_invariant. exact HS.
  - (* EAccess *) apply bindr_ext; intros v. apply get_attr_invariant. exact HS.
  - (* EHas *) apply bindr_ext; intros v. apply has_attr_invariant. exact HS.
  - (* EGetTag *)
    apply bindr_ext; intros v. apply as_entity_ext; intros u.
    destruct (is_zero_uid u); [reflexivity|].
    apply bindr_ext; intros w. apply as_string_ext; intros s.
    apply lookup_equiv; [exact HS|]. intros e1 e2 [_ [Ht _]]. cbv beta. rewrite Ht. reflexivity.
  - (* EHasTag *)
    apply bindr_ext; intros v. apply as_entity_ext; intros u.
    apply bindr_ext; intros w. apply as_string_ext; intros s.
    apply lookup_equiv; [exact HS|]. intros e1 e2 [_ [Ht _]]. cbv beta. rewrite Ht. reflexivity.
  - (* EIsIn *)
    apply bindr_ext; intros v. apply as_entity_ext; intros u.
    destruct (negb (str_eqb (fst u) ty)); [reflexivity|].
    apply bindr_ext; intros w. apply do_in_invariant. exact HS.
  - (* ESet *) rewrite (map_ext_Forall _ _ IHes). reflexivity.
  - (* ERecord *)
    rewrite (map_ext_Forall (fun kv : str * expr => (fst kv, eval en1 (snd kv)))
                            (fun kv : str * expr => (fst kv, eval en2 (snd kv)))
                            (Forall_impl _ (fun kv H => f_equal (pair (fst kv)) H) IHkvs)).
    reflexivity.
  - (* ECall *) rewrite (map_ext_Forall _ _ IHargs). reflexivity.
Qed.

Theorem policy_outcome_invariant : forall en1 en2 p, env_equiv en1 en2 ->
   bool_eval en1 (policy_to_expr p) = bool_eval en2 (policy_to_expr p).
Proof.
  intros en1 en2 p HE. unfold bool_eval. rewrite (eval_store_invariant en1 en2 _ HE). reflexivity.
Qed.

(* the usual reading: reorder the store (keys unique), keep the request *)
Corollary eval_store_permutation : forall st1 st2 pr ac rs cx e,
  NoDup (map fst st1) -> Permutation st1 st2 ->
  eval {| e_store := st1; e_principal := pr; e_action := ac; e_resource := rs; e_context := cx |} e =
  eval {| e_store := st2; e_principal := pr; e_action := ac; e_resource := rs; e_context := cx |} e.
Proof.
  intros st1 st2 pr ac rs cx e Hnd HP. apply eval_store_invariant.
  unfold env_equiv; cbn. split; [apply perm_store_equiv; assumption|]. auto.
Qed.

Lemma authorize_ext {P} (eff : P -> effect) (ev1 ev2 : P -> outcome) ps :
  (forall p, ev1 p = ev2 p) -> authorize P eff ev1 ps = authorize P eff ev2 ps.
Proof.
  intros H. unfold authorize, loop.
  assert (HL : forall a, fold_left (step P eff ev1) ps a = fold_left (step P eff ev2) ps a).
  { induction ps as [|p ps IH]; intros a; cbn [fold_left]; [reflexivity|].
    rewrite IH. f_equal. unfold step. rewrite H. reflexivity. }
  rewrite HL. reflexivity.
Qed.

Definition policy_eff (ip : str * policy) : effect := if p_effect (snd ip) then Permit else Forbid.
Definition policy_ev (en : env) (ip : str * policy) : outcome :=
  outcome_of (bool_eval en (policy_to_expr (snd ip))).

Theorem authorize_deterministic : forall en1 en2 (ps1 ps2 : list (str * policy)),
  env_equiv en1 en2 -> Permutation ps1 ps2 ->
  let r1 := authorize _ policy_eff (policy_ev en1) ps1 in
  let r2 := authorize _ policy_eff (policy_ev en2) ps2 in
  dec r1 = dec r2 /\ Permutation (reasons r1) (reasons r2) /\ Permutation (errs r1) (errs r2).
Proof.
  intros en1 en2 ps1 ps2 HE HP. cbv zeta.
  rewrite (authorize_ext policy_eff (policy_ev en1) (policy_ev en2) ps1).
  - apply authorize_order_irrelevant. exact HP.
  - intros p. unfold policy_ev. rewrite (policy_outcome_invariant en1 en2 (snd p) HE). reflexivity.
Qed.

Lemma rec_get_hd {A} k (x : A) l : rec_get k ((k, x) :: l) = Some x.
Proof. cbn [rec_get]. rewrite str_eqb_refl. reflexivity. Qed.

(* in a strictly sorted list no key is below the first *)
Lemma sorted_hd_min {A} k (x : A) k0 y l :
  keys_sorted ((k0, y) :: l) = true -> rec_get k ((k0, y) :: l) = Some x -> str_ltb k k0 = false.
Proof.
  intros Hs Hg. destruct (str_ltb k k0) eqn:E; [|reflexivity].
  rewrite (rec_get_lb k _ Hs E) in Hg. discriminate.
Qed.

(* two strictly sorted association lists with the same [rec_get] are equal *)
Lemma sorted_rec_ext {A} : forall (l m : list (str * A)),
  keys_sorted l = true -> keys_sorted m = true ->
  (forall k, rec_get k l = rec_get k m) -> l = m.
Proof.
  induction l as [|[k1 x] l IH]; intros [|[k2 y] m] Hsl Hsm H.
  - reflexivity.
  - specialize (H k2). rewrite rec_get_hd in H. discriminate.
  - specialize (H k1). rewrite rec_get_hd in H. discriminate.
  - assert (Hk : k1 = k2).
    { apply str_ltb_total.
      - apply (sorted_hd_min k1 x k2 y m Hsm). rewrite <- H. apply rec_get_hd.
      - apply (sorted_hd_min k2 y k1 x l Hsl). rewrite H. apply rec_get_hd. }
    subst k2. pose proof (H k1) as H1. rewrite !rec_get_hd in H1. injection H1 as <-.
    apply keys_sorted_cons in Hsl, Hsm. destruct Hsl as [Hl1 Hsl], Hsm as [Hl2 Hsm].
    f_equal. apply IH; [assumption | assumption |].
    intros k. destruct (str_eqb k k1) eqn:E.
    + apply str_eqb_eq in E. subst k.
      rewrite (rec_get_lb k1 l Hsl Hl1), (rec_get_lb k1 m Hsm Hl2). reflexivity.
    + specialize (H k). cbn [rec_get] in H. rewrite E in H. exact H.
Qed.

(* the canonical (sorted) form of a key-unique association list does not depend on its order *)
Theorem rec_of_list_perm {A} : forall (l1 l2 : list (str * A)),
  NoDup (map fst l1) -> Permutation l1 l2 -> rec_of_list l1 = rec_of_list l2.
Proof.
  intros l1 l2 Hnd HP. apply sorted_rec_ext; try apply rec_of_list_sorted_gen.
  intros k. rewrite !rec_of_list_get_gen.
  apply (assoc_perm (fun k' k => str_eqb k k') (fun l k => rec_get k l)).
  - intros a b E. symmetry. apply str_eqb_eq, E.
  - reflexivity.
  - rewrite map_rev. apply NoDup_rev, Hnd.
  - apply Permutation_rev', HP.
Qed.

Theorem record_fields_order_irrelevant : forall (kvs1 kvs2 : list (str * expr)), NoDup (map fst kvs1) -> Permutation kvs1 kvs2 ->
   forall en, eval en (ERecord kvs1) = eval en (ERecord kvs2).
Proof.
  intros kvs1 kvs2 Hnd HP en. cbn [eval].
  rewrite (rec_of_list_perm (map (fun kv : str * expr => (fst kv, eval en (snd kv))) kvs1)
                            (map (fun kv : str * expr => (fst kv, eval en (snd kv))) kvs2)).
  - reflexivity.
  - rewrite map_map. cbn [fst]. exact Hnd.
  - apply Permutation_map. exact HP.
Qed.

Definition dx_uid (n : Z) : uid := ([69%Z], [n]).            (* E::"<n>" *)
Definition dx_ent (ps : list Z) (a : Z) : entity :=
  {| e_parents := map dx_uid ps; e_attrs := [([97%Z], VLong a)]; e_tags := [([116%Z], VLong (a + 1))] |}.

(* 0 -> {1, 2}, 1 -> {3}, 2 -> {3, 0} (cycle), 3 -> {9 (absent)}, 4 -> {} *)
Definition dx_store : store :=
  [ (dx_uid 0, dx_ent [1; 2] 10); (dx_uid 1, dx_ent [3] 11); (dx_uid 2, dx_ent [3; 0] 12);
    (dx_uid 3, dx_ent [9] 13); (dx_uid 4, dx_ent [] 14) ]%Z.

(* another schedule: the store reversed AND every parent list reversed *)
Definition dx_store' : store :=
  map (fun ke => (fst ke, {| e_parents := rev (e_parents (snd ke)); e_attrs := e_attrs (snd ke);
                             e_tags := e_tags (snd ke) |})) (rev dx_store).

Definition dx_env (st : store) : env :=
  {| e_store := st; e_principal := VEntity [69%Z] [0%Z]; e_action := VEntity [65%Z] [1%Z];
     e_resource := VEntity [69%Z] [4%Z]; e_context := VRecord [] |}.

Definition dx_ent_lit (n : Z) : expr := ELit (VEntity [69%Z] [n]).

Definition dx_exprs : list expr :=
  [ EIn (EVar VPrincipal) (dx_ent_lit 9);
    EIn (EVar VPrincipal) (dx_ent_lit 4);
    EIn (dx_ent_lit 3) (dx_ent_lit 0);
    EIn (EVar VPrincipal) (ESet [dx_ent_lit 7; dx_ent_lit 3]);
    EIn (EVar VResource) (ESet [dx_ent_lit 7; dx_ent_lit 3]);
    EIn (EVar VPrincipal) (ESet [dx_ent_lit 7; ELit (VLong 1)]);
    EAccess (dx_ent_lit 2) [97%Z];
    EAccess (dx_ent_lit 2) [98%Z];
    EAccess (dx_ent_lit 8) [97%Z];
    EHas (dx_ent_lit 3) [97%Z];
    EGetTag (dx_ent_lit 1) (ELit (VString [116%Z]));
    EHasTag (dx_ent_lit 8) (ELit (VString [116%Z]));
    EIsIn (EVar VPrincipal) [69%Z] (dx_ent_lit 3);
    ERecord [([98%Z], EAccess (dx_ent_lit 0) [97%Z]); ([97%Z], EIn (dx_ent_lit 2) (dx_ent_lit 1))] ]%Z.

Example dx_reversal_same :
  map (eval (dx_env dx_store)) dx_exprs = map (eval (dx_env (rev dx_store))) dx_exprs /\
  map (eval (dx_env dx_store)) dx_exprs = map (eval (dx_env dx_store')) dx_exprs /\
  map (eval (dx_env dx_store)) dx_exprs =
    [ Ok (VBool true); Ok (VBool false); Ok (VBool false); Ok (VBool true); Ok (VBool false); Err EType;
      Ok (VLong 12); Err EAttr; Err EEntity; Ok (VBool true); Ok (VLong 12); Ok (VBool false);
      Ok (VBool true); Ok (VRecord [([97%Z], VBool true); ([98%Z], VLong 10)]) ]%Z.
Proof. vm_compute. repeat split; reflexivity. Qed.

(* the same fact obtained from the theorems rather than by computation *)
Example dx_reversal_by_theorem : forall e, eval (dx_env dx_store) e = eval (dx_env (rev dx_store)) e.
Proof.
  intros e. apply eval_store_invariant. unfold env_equiv, dx_env; cbn [e_store e_principal e_action e_resource e_context].
  split; [|auto]. apply perm_store_equiv; [|apply Permutation_rev].
  vm_compute. repeat constructor; cbn; intuition discriminate.
Qed.

Example dx_record_order : forall en,
  eval en (ERecord [([98%Z], ELit (VLong 2)); ([97%Z], ELit (VLong 1)); ([99%Z], ELit (VLong 3))]%Z) =
  eval en (ERecord [([99%Z], ELit (VLong 3)); ([98%Z], ELit (VLong 2)); ([97%Z], ELit (VLong 1))]%Z).
Proof. intros en. vm_compute. reflexivity. Qed.

Print Assumptions perm_store_equiv.
Print Assumptions reschedule_store_equiv.
Print Assumptions in_one_store_invariant.
Print Assumptions in_set_invariant.
Print Assumptions eval_store_invariant.
Print Assumptions policy_outcome_invariant.
Print Assumptions eval_store_permutation.
Print Assumptions authorize_deterministic.
Print Assumptions rec_of_list_perm.
Print Assumptions record_fields_order_irrelevant.
