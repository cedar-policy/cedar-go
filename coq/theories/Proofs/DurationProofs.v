(* Proofs about the model of cedar-go's duration codec (Impl/Duration.v):
   - duration_roundtrip      : parse_duration (print_duration z) = Some z for every int64 z
   - duration_parse_in_range : every accepted text denotes an int64
   - duration_parse_value    : exactness of the parser on every text of the grammar
                               -?([0-9]+d)?([0-9]+h)?([0-9]+m)?([0-9]+s)?([0-9]+ms)?
                               (the result is the mathematical value if it fits in int64, and an error otherwise) *)
From Coq Require Import String ZArith List Bool Lia.
Import ListNotations.
From Cedar Require Import Base.Int64 Lang.Value Impl.Text Generated.Tables Impl.Duration Proofs.TextProofs.
Local Open Scope Z_scope.

Lemma dur_unit_millis_pos u : 0 < unit_millis u.
Proof. unfold unit_millis. repeat destruct (u =? _); reflexivity. Qed.

(** * Digit strings and their values *)

Definition dur_digits (ds : str) : Prop := Forall (fun c => is_digit c = true) ds.
Definition dur_good (ds : str) : Prop := ds <> [] /\ dur_digits ds.

(* value of a digit string read most significant digit first, starting from w *)
Definition dur_dacc (ds : str) (w : Z) : Z := fold_left (fun a c => a * 10 + digit_val c) ds w.

Lemma dur_digit_range c : is_digit c = true -> 0 <= digit_val c <= 9.
Proof. rewrite is_digit_range. unfold digit_val. lia. Qed.

Lemma dur_dacc_cons c ds w : dur_dacc (c :: ds) w = dur_dacc ds (w * 10 + digit_val c).
Proof. reflexivity. Qed.

Lemma dur_dacc_mono ds : dur_digits ds -> forall w, 0 <= w -> w <= dur_dacc ds w.
Proof.
  intros Hds. induction Hds as [|c ds Hc Hds IH]; intros w Hw.
  - cbn [dur_dacc fold_left]. lia.
  - rewrite dur_dacc_cons. pose proof (dur_digit_range c Hc) as Hd.
    specialize (IH (w * 10 + digit_val c) ltac:(lia)). lia.
Qed.

Lemma dur_dacc_nonneg ds : dur_digits ds -> 0 <= dur_dacc ds 0.
Proof. intros H. apply (dur_dacc_mono ds H 0). lia. Qed.

(* agreement with the model's own digit-string evaluator *)
Lemma dur_digits_val_acc ds : dur_digits ds -> forall w, digits_val_acc ds w = Some (dur_dacc ds w).
Proof.
  intros Hds. induction Hds as [|c ds Hc Hds IH]; intros w.
  - reflexivity.
  - cbn [digits_val_acc]. rewrite Hc. rewrite IH. reflexivity.
Qed.

Lemma dur_parse_digits ds : dur_good ds -> parse_digits ds = Some (dur_dacc ds 0).
Proof.
  intros [Hne Hds]. rewrite parse_digits_nonempty by exact Hne. apply dur_digits_val_acc. exact Hds.
Qed.

Definition dur_nat_bound : Z := 10000000000000000000000000000000000000000.   (* 10^40 *)

Lemma dur_print_nat_good z : dur_good (print_nat z).
Proof. split; [apply print_nat_nonempty | exact (print_nat_all_digits z)]. Qed.

Lemma dur_print_nat_val z : 0 <= z < dur_nat_bound -> dur_dacc (print_nat z) 0 = z.
Proof.
  intros Hz. pose proof (dur_parse_digits _ (dur_print_nat_good z)) as H.
  rewrite parse_print_nat in H by exact Hz. injection H as <-. reflexivity.
Qed.

(** * One-step unfolding of the parser loop *)

Definition dur_starts115 (s : str) : bool := match s with 115 :: _ => true | _ => false end.

(* the arithmetic part of the unit step *)
Definition dur_unit_tail (neg : bool) (s' : str) (is_ms : bool) (u total value : Z) : option Z :=
  let millis := unit_millis u in
  if (value >? Z.quot max64 millis) || (value <? Z.quot min64 millis) then None else
  let product := value * millis in
  if (negb neg && (total >? max64 - product)) || (neg && (total <? min64 - product)) then None
  else dur_loop neg s' is_ms (u + 1) (total + product) 0 false.

Lemma dur_loop_cons neg c s' skip unitI total value hasValue :
  dur_loop neg (c :: s') skip unitI total value hasValue =
    if skip then dur_loop neg s' false unitI total value hasValue else
    if 5 <=? unitI then None
    else if is_digit c then
      if neg then
        if value <? Z.quot (min64 + digit_val c) 10 then None
        else dur_loop neg s' false unitI total (value * 10 - digit_val c) true
      else
        if value >? Z.quot (max64 - digit_val c) 10 then None
        else dur_loop neg s' false unitI total (value * 10 + digit_val c) true
    else if (c =? 100) || (c =? 104) || (c =? 109) || (c =? 115) then
      if negb hasValue then None else
      let is_ms := (c =? 109) && dur_starts115 s' in
      let u := if is_ms then 4 else if c =? 100 then 0 else if c =? 104 then 1 else if c =? 109 then 2 else 3 in
      if u <? unitI then None else dur_unit_tail neg s' is_ms u total value
    else None.
Proof.
  destruct skip; [reflexivity|].
  cbn [dur_loop]. rewrite Z.geb_leb.
  destruct (5 <=? unitI); [destruct hasValue; reflexivity|].
  reflexivity.
Qed.

Lemma dur_loop_nil neg skip unitI total value hasValue :
  dur_loop neg [] skip unitI total value hasValue = if hasValue then None else Some total.
Proof. reflexivity. Qed.

Lemma dur_starts115_cons c r : dur_starts115 (c :: r) = (c =? 115).
Proof. unfold dur_starts115. destruct c as [|p|p]; try reflexivity; destruct_pos. Qed.

Lemma dur_starts115_digit c r : is_digit c = true -> dur_starts115 (c :: r) = false.
Proof. rewrite is_digit_range, dur_starts115_cons, Z.eqb_neq. lia. Qed.

(** * The digit phase *)

Definition dur_sgn (neg : bool) : Z := if neg then -1 else 1.

(* every guard of the loop is a comparison against an int64 bound: split each one, the arithmetic is linear *)
Ltac dur_bool :=
  unfold in64b;
  repeat match goal with
  | |- context [Z.leb ?a ?b] => destruct (Z.leb_spec a b)
  | |- context [Z.ltb ?a ?b] => destruct (Z.ltb_spec a b)
  end;
  cbn [negb andb orb]; try reflexivity; exfalso; unfold in64, min64, max64, two63 in *; lia.

Lemma dur_loop_digit neg c s' ui total w hv :
  is_digit c = true -> ui < 5 -> 0 <= w ->
  dur_loop neg (c :: s') false ui total (dur_sgn neg * w) hv =
  if in64b (dur_sgn neg * (w * 10 + digit_val c))
  then dur_loop neg s' false ui total (dur_sgn neg * (w * 10 + digit_val c)) true else None.
Proof.
  intros Hc Hui Hw. pose proof (dur_digit_range c Hc) as Hd.
  rewrite dur_loop_cons, (proj2 (Z.leb_gt 5 ui)), Hc by exact Hui.
  destruct neg; unfold dur_sgn; cbv beta iota.
  - rewrite ltb_quot by (unfold min64, two63; lia).
    replace (-1 * w * 10 - digit_val c) with (-1 * (w * 10 + digit_val c)) by lia. dur_bool.
  - rewrite gtb_quot by (unfold max64, two63; lia).
    replace (1 * w * 10 + digit_val c) with (1 * (w * 10 + digit_val c)) by lia. dur_bool.
Qed.

(* values carry the sign of neg, so a larger magnitude overflows whenever a smaller one does *)
Lemma dur_in64b_mono neg x y :
  in64b x = false -> 0 <= dur_sgn neg * x <= dur_sgn neg * y -> in64b y = false.
Proof.
  rewrite !in64b_false. intros E H G. apply E.
  unfold in64, min64, max64, two63 in *. destruct neg; unfold dur_sgn in *; lia.
Qed.

(* consuming a non-empty run of digits *)
Lemma dur_digits_phase neg rest ui total :
  ui < 5 -> forall ds, dur_digits ds -> ds <> [] -> forall w hv, 0 <= w ->
  dur_loop neg (ds ++ rest) false ui total (dur_sgn neg * w) hv =
  if in64b (dur_sgn neg * dur_dacc ds w)
  then dur_loop neg rest false ui total (dur_sgn neg * dur_dacc ds w) true else None.
Proof.
  intros Hui ds Hds. induction Hds as [|c ds Hc Hds IH]; intros Hne w hv Hw; [congruence|].
  pose proof (dur_digit_range c Hc) as Hd.
  cbn [app]. rewrite dur_loop_digit, dur_dacc_cons by assumption.
  destruct (in64b (dur_sgn neg * (w * 10 + digit_val c))) eqn:E.
  - destruct ds as [|c' ds']; [cbn [app dur_dacc fold_left]; rewrite E; reflexivity|].
    apply IH; [discriminate|lia].
  - pose proof (dur_dacc_mono ds Hds (w * 10 + digit_val c) ltac:(lia)) as Hm.
    rewrite (dur_in64b_mono neg _ _ E) by (destruct neg; unfold dur_sgn; lia). reflexivity.
Qed.

(* consuming a whole non-empty numeral from a fresh state *)
Lemma dur_numeral_phase neg rest ui total ds hv :
  ui < 5 -> dur_good ds ->
  dur_loop neg (ds ++ rest) false ui total 0 hv =
  if in64b (dur_sgn neg * dur_dacc ds 0)
  then dur_loop neg rest false ui total (dur_sgn neg * dur_dacc ds 0) true else None.
Proof.
  intros Hui [Hne Hds]. replace 0 with (dur_sgn neg * 0) at 1 by lia.
  apply dur_digits_phase; assumption || lia.
Qed.

(** * The unit phase *)

Lemma dur_unit_tail_spec neg s' is_ms u total w :
  0 <= w -> in64 total -> 0 <= dur_sgn neg * total ->
  dur_unit_tail neg s' is_ms u total (dur_sgn neg * w) =
  if in64b (total + dur_sgn neg * w * unit_millis u)
  then dur_loop neg s' is_ms (u + 1) (total + dur_sgn neg * w * unit_millis u) 0 false else None.
Proof.
  intros Hw Ht Hs. unfold dur_unit_tail. cbv zeta.
  pose proof (dur_unit_millis_pos u) as Hm. set (m := unit_millis u) in *.
  rewrite gtb_quot, ltb_quot, !Z.gtb_ltb by (unfold min64, max64, two63; lia).
  assert (Hp : 0 <= dur_sgn neg * (dur_sgn neg * w * m)) by (destruct neg; unfold dur_sgn; nia).
  set (p := dur_sgn neg * w * m) in *. clearbody p.
  destruct neg; unfold dur_sgn in *; cbn [negb andb orb]; dur_bool.
Qed.

Definition dur_unit_char (u : Z) : Z :=
  if u =? 0 then 100 else if u =? 1 then 104 else if u =? 2 then 109 else if u =? 3 then 115 else 109.
Definition dur_suffix (u : Z) : str := dur_unit_char u :: (if u =? 4 then [115] else []).

Lemma dur_unit_phase neg u ui total w rest :
  0 <= u < 5 -> ui <= u -> dur_starts115 rest = false ->
  0 <= w -> in64 total -> 0 <= dur_sgn neg * total ->
  dur_loop neg (dur_suffix u ++ rest) false ui total (dur_sgn neg * w) true =
  if in64b (total + dur_sgn neg * w * unit_millis u)
  then dur_loop neg rest false (u + 1) (total + dur_sgn neg * w * unit_millis u) 0 false else None.
Proof.
  intros Hu Hui H115 Hw Ht Hs.
  assert (Hcases : u = 0 \/ u = 1 \/ u = 2 \/ u = 3 \/ u = 4) by lia.
  destruct Hcases as [-> | [-> | [-> | [-> | ->]]]];
    cbn [dur_suffix dur_unit_char Z.eqb Pos.eqb app];
    rewrite dur_loop_cons, (proj2 (Z.leb_gt 5 ui)), ?H115 by lia;
    change (is_digit _) with false; cbn [Z.eqb Pos.eqb orb andb negb dur_starts115];
    rewrite (proj2 (Z.ltb_ge _ ui)), dur_unit_tail_spec by (assumption || lia).
  1-4: reflexivity.
  (* "ms": the skip flag consumes the s *)
  rewrite dur_loop_cons. reflexivity.
Qed.

(* numeral followed by its unit *)
Lemma dur_item_step neg u ui total ds rest :
  0 <= u < 5 -> ui <= u -> dur_good ds -> dur_starts115 rest = false ->
  in64 total -> 0 <= dur_sgn neg * total ->
  dur_loop neg (ds ++ dur_suffix u ++ rest) false ui total 0 false =
  if in64b (total + dur_sgn neg * dur_dacc ds 0 * unit_millis u)
  then dur_loop neg rest false (u + 1) (total + dur_sgn neg * dur_dacc ds 0 * unit_millis u) 0 false
  else None.
Proof.
  intros Hu Hui Hgood H115 Ht Hs.
  rewrite dur_numeral_phase by (assumption || lia).
  pose proof (dur_dacc_nonneg ds (proj2 Hgood)) as Hq.
  destruct (in64b (dur_sgn neg * dur_dacc ds 0)) eqn:E.
  - apply dur_unit_phase; assumption.
  - pose proof (dur_unit_millis_pos u) as Hm.
    rewrite (dur_in64b_mono neg _ _ E) by (destruct neg; unfold dur_sgn in *; nia). reflexivity.
Qed.

(** * Texts of the grammar, as lists of (unit index, digit string) *)

Fixpoint dur_render (l : list (Z * str)) : str :=
  match l with
  | [] => []
  | (u, ds) :: l' => ds ++ dur_suffix u ++ dur_render l'
  end.

Fixpoint dur_sum (l : list (Z * str)) : Z :=
  match l with
  | [] => 0
  | (u, ds) :: l' => dur_dacc ds 0 * unit_millis u + dur_sum l'
  end.

(* units strictly increasing, starting at ui, all below 5; numerals well formed *)
Fixpoint dur_chain (ui : Z) (l : list (Z * str)) : Prop :=
  match l with
  | [] => True
  | (u, ds) :: l' => (0 <= u /\ ui <= u < 5) /\ dur_good ds /\ dur_chain (u + 1) l'
  end.

Lemma dur_chain_weaken l : forall ui ui', ui' <= ui -> dur_chain ui l -> dur_chain ui' l.
Proof.
  destruct l as [|[u ds] l']; intros ui ui' Hle H.
  - exact I.
  - cbn [dur_chain] in *. destruct H as [H1 [H2 H3]].
    split; [lia|]. split; assumption.
Qed.

Lemma dur_sum_nonneg l : forall ui, dur_chain ui l -> 0 <= dur_sum l.
Proof.
  induction l as [|[u ds] l' IH]; intros ui H.
  - cbn [dur_sum]. lia.
  - cbn [dur_chain dur_sum] in *. destruct H as [H1 [[_ H2] H3]].
    pose proof (dur_dacc_nonneg ds H2) as Hq. pose proof (dur_unit_millis_pos u) as Hm.
    specialize (IH _ H3). nia.
Qed.

Lemma dur_render_shape l ui : dur_chain ui l -> l <> [] ->
  exists c x tl, dur_render l = c :: x :: tl /\ is_digit c = true.
Proof.
  destruct l as [|[u ds] l']; intros H Hne; [congruence|].
  cbn [dur_chain] in H. destruct H as [_ [[Hds1 Hds2] _]].
  destruct ds as [|c ds]; [congruence|].
  inversion Hds2 as [|c' ds' Hc Hds' Heq]; subst.
  cbn [dur_render]. unfold dur_suffix.
  destruct ds as [|x ds].
  - exists c, (dur_unit_char u). eexists. split; [reflexivity|exact Hc].
  - exists c, x. eexists. split; [reflexivity|exact Hc].
Qed.

Lemma dur_render_no115 l ui : dur_chain ui l -> dur_starts115 (dur_render l) = false.
Proof.
  intros H. destruct l as [|p l'] eqn:El; [reflexivity|].
  destruct (dur_render_shape (p :: l') ui H ltac:(discriminate)) as [c [x [tl [E Hc]]]].
  rewrite E. apply dur_starts115_digit. exact Hc.
Qed.

(* exactness of the loop on every such text *)
Theorem dur_loop_render neg : forall l ui total,
  dur_chain ui l -> in64 total -> 0 <= dur_sgn neg * total ->
  dur_loop neg (dur_render l) false ui total 0 false =
  if in64b (total + dur_sgn neg * dur_sum l) then Some (total + dur_sgn neg * dur_sum l) else None.
Proof.
  induction l as [|[u ds] l' IH]; intros ui total Hch Ht Hs.
  - cbn [dur_render dur_sum]. rewrite dur_loop_nil.
    replace (total + dur_sgn neg * 0) with total by lia.
    apply in64b_spec in Ht. rewrite Ht. reflexivity.
  - cbn [dur_chain] in Hch. destruct Hch as [[Hu0 Hu] [Hgood Hch]].
    cbn [dur_render dur_sum].
    rewrite dur_item_step; try assumption; try lia;
      [|apply (dur_render_no115 l' (u + 1)); exact Hch].
    pose proof (dur_dacc_nonneg ds (proj2 Hgood)) as Hq.
    pose proof (dur_unit_millis_pos u) as Hm.
    pose proof (dur_sum_nonneg l' _ Hch) as Hsum.
    set (q := dur_dacc ds 0) in *. set (m := unit_millis u) in *.
    assert (Hp : 0 <= q * m) by nia.
    replace (dur_sgn neg * q * m) with (dur_sgn neg * (q * m)) by ring.
    replace (dur_sgn neg * (q * m + dur_sum l')) with (dur_sgn neg * (q * m) + dur_sgn neg * dur_sum l') by ring.
    set (p := q * m) in *. clearbody p. set (r := dur_sum l') in *.
    destruct (in64b (total + dur_sgn neg * p)) eqn:E.
    + rewrite Z.add_assoc. apply in64b_spec in E.
      apply IH; [exact Hch|exact E|destruct neg; unfold dur_sgn in *; lia].
    + rewrite (dur_in64b_mono neg _ _ E) by (destruct neg; unfold dur_sgn in *; lia). reflexivity.
Qed.

(** * parse_duration on the two shapes of input *)

Lemma dur_parse_cases c x tl :
  parse_duration (c :: x :: tl) =
  if c =? 45 then dur_loop true (x :: tl) false 0 0 0 false
  else dur_loop false (c :: x :: tl) false 0 0 0 false.
Proof. unfold parse_duration. destruct c as [|p|p]; try reflexivity; destruct_pos. Qed.

Definition dur_sign (neg : bool) : str := if neg then [45] else [].

(* exactness of parse_duration on list-described texts *)
Theorem dur_parse_render neg l :
  dur_chain 0 l -> l <> [] ->
  parse_duration (dur_sign neg ++ dur_render l) =
  if in64b (dur_sgn neg * dur_sum l) then Some (dur_sgn neg * dur_sum l) else None.
Proof.
  intros Hch Hne.
  destruct (dur_render_shape l 0 Hch Hne) as [c [x [tl [E Hc]]]].
  assert (Hloop := dur_loop_render neg l 0 0 Hch ltac:(unfold in64, min64, max64, two63; lia) ltac:(lia)).
  rewrite Z.add_0_l in Hloop. rewrite <- Hloop, E.
  destruct neg; cbn [dur_sign app]; rewrite dur_parse_cases; [reflexivity|].
  apply is_digit_range in Hc. rewrite (proj2 (Z.eqb_neq c 45)) by lia. reflexivity.
Qed.

(** * The five optional quantities *)

Definition dur_part (o : option str) (suffix : str) : str :=
  match o with Some ds => ds ++ suffix | None => [] end.

(* -?([0-9]+d)?([0-9]+h)?([0-9]+m)?([0-9]+s)?([0-9]+ms)? ; Some ds = the unit is present with numeral ds *)
Definition dur_text (neg : bool) (d h m s ms : option str) : str :=
  dur_sign neg ++
  dur_part d [100] ++ dur_part h [104] ++ dur_part m [109] ++ dur_part s [115] ++ dur_part ms [109; 115].

Definition dur_qty (o : option str) : Z := match o with Some ds => dur_dacc ds 0 | None => 0 end.
Definition dur_ok (o : option str) : Prop := match o with Some ds => dur_good ds | None => True end.

Definition dur_opt (u : Z) (o : option str) : list (Z * str) :=
  match o with Some ds => [(u, ds)] | None => [] end.
Definition dur_items (d h m s ms : option str) : list (Z * str) :=
  dur_opt 0 d ++ dur_opt 1 h ++ dur_opt 2 m ++ dur_opt 3 s ++ dur_opt 4 ms.

Definition dur_total (neg : bool) (d h m s ms : option str) : Z :=
  dur_sgn neg * (dur_qty d * 86400000 + dur_qty h * 3600000 + dur_qty m * 60000 + dur_qty s * 1000 + dur_qty ms).

(* rendering, well-formedness and value of the item list, one optional quantity at a time *)
Lemma dur_render_opt u o l : dur_render (dur_opt u o ++ l) = dur_part o (dur_suffix u) ++ dur_render l.
Proof. destruct o; cbn [dur_opt dur_part dur_render app]; [rewrite <- app_assoc|]; reflexivity. Qed.

Lemma dur_chain_opt ui u o l :
  0 <= u -> ui <= u < 5 -> dur_ok o -> dur_chain (u + 1) l -> dur_chain ui (dur_opt u o ++ l).
Proof.
  intros H0 Hu Ho Hl. destruct o as [ds|]; cbn [dur_opt app dur_chain].
  - auto.
  - apply (dur_chain_weaken l (u + 1)); [lia|exact Hl].
Qed.

Lemma dur_sum_opt u o l : dur_sum (dur_opt u o ++ l) = dur_qty o * unit_millis u + dur_sum l.
Proof. destruct o; reflexivity. Qed.

Lemma dur_text_render neg d h m s ms :
  dur_text neg d h m s ms = dur_sign neg ++ dur_render (dur_items d h m s ms).
Proof.
  unfold dur_text, dur_items. rewrite <- (app_nil_r (dur_opt 4 ms)), !dur_render_opt.
  cbn [dur_render]. rewrite app_nil_r. reflexivity.
Qed.

Lemma dur_items_chain d h m s ms :
  dur_ok d -> dur_ok h -> dur_ok m -> dur_ok s -> dur_ok ms -> dur_chain 0 (dur_items d h m s ms).
Proof.
  intros Hd Hh Hm Hs Hms. unfold dur_items. rewrite <- (app_nil_r (dur_opt 4 ms)).
  repeat (apply dur_chain_opt; [lia|lia|assumption|]). exact I.
Qed.

Lemma dur_items_sum d h m s ms :
  dur_sum (dur_items d h m s ms) =
  dur_qty d * 86400000 + dur_qty h * 3600000 + dur_qty m * 60000 + dur_qty s * 1000 + dur_qty ms.
Proof.
  unfold dur_items. rewrite <- (app_nil_r (dur_opt 4 ms)), !dur_sum_opt. cbn [dur_sum].
  change (unit_millis 0) with 86400000. change (unit_millis 1) with 3600000.
  change (unit_millis 2) with 60000. change (unit_millis 3) with 1000. change (unit_millis 4) with 1. lia.
Qed.

Lemma dur_items_nil d h m s ms :
  dur_items d h m s ms = [] -> d = None /\ h = None /\ m = None /\ s = None /\ ms = None.
Proof.
  unfold dur_items. destruct d; [discriminate|]. destruct h; [discriminate|]. destruct m; [discriminate|].
  destruct s; [discriminate|]. destruct ms; [discriminate|]. auto.
Qed.

(* Exactness of ParseDuration: on a text of the grammar with at least one unit present, the result is the
   mathematical value sign * (d*86400000 + h*3600000 + m*60000 + s*1000 + ms) when that value is an int64,
   and an error otherwise.  Numerals are arbitrary non-empty digit strings (leading zeros allowed). *)
Theorem duration_parse_value : forall neg d h m s ms,
  dur_ok d -> dur_ok h -> dur_ok m -> dur_ok s -> dur_ok ms ->
  dur_items d h m s ms <> [] ->
  parse_duration (dur_text neg d h m s ms) =
  if in64b (dur_total neg d h m s ms) then Some (dur_total neg d h m s ms) else None.
Proof.
  intros neg d h m s ms Hd Hh Hm Hs Hms Hne.
  rewrite dur_text_render. unfold dur_total. rewrite <- dur_items_sum.
  apply dur_parse_render.
  - apply dur_items_chain; assumption.
  - exact Hne.
Qed.

(* the same with the numerals printed canonically from their quantities *)
Definition dur_zqty (o : option Z) : Z := match o with Some q => q | None => 0 end.
Definition dur_zok (o : option Z) : Prop := match o with Some q => 0 <= q < dur_nat_bound | None => True end.

Theorem duration_parse_value_nat : forall neg (d h m s ms : option Z),
  dur_zok d -> dur_zok h -> dur_zok m -> dur_zok s -> dur_zok ms ->
  (d <> None \/ h <> None \/ m <> None \/ s <> None \/ ms <> None) ->
  let total := dur_sgn neg * (dur_zqty d * 86400000 + dur_zqty h * 3600000 + dur_zqty m * 60000
                              + dur_zqty s * 1000 + dur_zqty ms) in
  parse_duration (dur_text neg (option_map print_nat d) (option_map print_nat h) (option_map print_nat m)
                               (option_map print_nat s) (option_map print_nat ms)) =
  if in64b total then Some total else None.
Proof.
  intros neg d h m s ms Hd Hh Hm Hs Hms Hne total.
  assert (Hok : forall o, dur_zok o -> dur_ok (option_map print_nat o)).
  { intros [q|] H; cbn [option_map dur_ok]; [apply dur_print_nat_good|exact I]. }
  assert (Hq : forall o, dur_zok o -> dur_qty (option_map print_nat o) = dur_zqty o).
  { intros [q|] H; cbn [option_map dur_qty dur_zqty]; [apply dur_print_nat_val; exact H|reflexivity]. }
  rewrite duration_parse_value; try (apply Hok; assumption).
  - unfold dur_total. rewrite !Hq by assumption. reflexivity.
  - intros Hnil. apply dur_items_nil in Hnil. destruct Hnil as (Ed & Eh & Em & Es & Ems).
    assert (Hn : forall o : option Z, option_map print_nat o = None -> o = None)
      by (intros [q|]; [discriminate|reflexivity]).
    apply Hn in Ed, Eh, Em, Es, Ems. tauto.
Qed.

(** * Round trip *)

Definition dur_qopt (q : Z) : option str := if q >? 0 then Some (print_nat q) else None.

Lemma dur_part_qopt q suffix :
  dur_part (dur_qopt q) suffix = if q >? 0 then print_nat q ++ suffix else [].
Proof. unfold dur_qopt. destruct (q >? 0); reflexivity. Qed.

Lemma dur_qopt_ok q : dur_ok (dur_qopt q).
Proof. unfold dur_qopt. destruct (q >? 0); cbn [dur_ok]; [apply dur_print_nat_good|exact I]. Qed.

Lemma dur_qopt_qty q : 0 <= q < dur_nat_bound -> dur_qty (dur_qopt q) = q.
Proof.
  intros Hq. unfold dur_qopt. rewrite Z.gtb_ltb. destruct (Z.ltb_spec 0 q) as [L|L]; cbn [dur_qty].
  - apply dur_print_nat_val. exact Hq.
  - lia.
Qed.

Lemma dur_qopt_none q : 0 <= q -> dur_qopt q = None -> q = 0.
Proof.
  intros Hq. unfold dur_qopt. rewrite Z.gtb_ltb. destruct (Z.ltb_spec 0 q) as [L|L]; [discriminate|].
  intros _. lia.
Qed.

Theorem duration_roundtrip : forall z, in64 z -> parse_duration (print_duration z) = Some z.
Proof.
  intros z Hz.
  destruct (Z.eqb_spec z 0) as [->|Hnz]; [reflexivity|].
  set (a := Z.abs z).
  set (days := a / 86400000). set (r1 := a mod 86400000).
  set (hours := r1 / 3600000). set (r2 := r1 mod 3600000).
  set (minutes := r2 / 60000). set (r3 := r2 mod 60000).
  set (seconds := r3 / 1000). set (r4 := r3 mod 1000).
  assert (Hprint : print_duration z =
    dur_text (z <? 0) (dur_qopt days) (dur_qopt hours) (dur_qopt minutes) (dur_qopt seconds) (dur_qopt r4)).
  { unfold print_duration, dur_text, dur_sign. rewrite !dur_part_qopt.
    destruct (Z.eqb_spec z 0) as [H0|_]; [contradiction|]. reflexivity. }
  pose proof (Z.div_mod a 86400000 ltac:(lia)) as E1.
  pose proof (Z.mod_pos_bound a 86400000 ltac:(lia)) as M1.
  pose proof (Z.div_mod r1 3600000 ltac:(lia)) as E2.
  pose proof (Z.mod_pos_bound r1 3600000 ltac:(lia)) as M2.
  pose proof (Z.div_mod r2 60000 ltac:(lia)) as E3.
  pose proof (Z.mod_pos_bound r2 60000 ltac:(lia)) as M3.
  pose proof (Z.div_mod r3 1000 ltac:(lia)) as E4.
  pose proof (Z.mod_pos_bound r3 1000 ltac:(lia)) as M4.
  fold days r1 in E1, M1. fold hours r2 in E2, M2. fold minutes r3 in E3, M3. fold seconds r4 in E4, M4.
  assert (Ha : 0 < a <= 9223372036854775808).
  { unfold a. unfold in64, min64, max64, two63 in Hz. lia. }
  assert (B : forall q, 0 <= q <= a -> 0 <= q < dur_nat_bound) by (unfold dur_nat_bound; lia).
  rewrite Hprint.
  rewrite duration_parse_value; try apply dur_qopt_ok.
  - unfold dur_total. rewrite !dur_qopt_qty by (apply B; lia).
    assert (Hval : dur_sgn (z <? 0) * (days * 86400000 + hours * 3600000 + minutes * 60000 + seconds * 1000 + r4) = z).
    { unfold dur_sgn. destruct (Z.ltb_spec z 0) as [L|L]; unfold a in *; lia. }
    rewrite Hval. apply in64b_spec in Hz. rewrite Hz. reflexivity.
  - intros Hnil. apply dur_items_nil in Hnil. destruct Hnil as (Qd & Qh & Qm & Qs & Qr).
    apply dur_qopt_none in Qd, Qh, Qm, Qs, Qr; lia.
Qed.

(** * Range of accepted values *)

Lemma dur_loop_range : forall s neg skip u total v hv z,
  in64 total -> 0 <= dur_sgn neg * total -> 0 <= dur_sgn neg * v ->
  dur_loop neg s skip u total v hv = Some z -> in64 z.
Proof.
  induction s as [|c s IH]; intros neg skip u total v hv z Ht Hs Hv H.
  - rewrite dur_loop_nil in H. destruct hv; [discriminate|]. injection H as <-. exact Ht.
  - rewrite dur_loop_cons in H.
    destruct skip; [eapply IH; eassumption|].
    destruct (5 <=? u); [discriminate|].
    destruct (is_digit c) eqn:Hc.
    + pose proof (dur_digit_range c Hc) as Hd.
      destruct neg.
      * destruct (v <? Z.quot (min64 + digit_val c) 10); [discriminate|].
        eapply IH; [exact Ht|exact Hs| |exact H]. unfold dur_sgn in *. lia.
      * destruct (v >? Z.quot (max64 - digit_val c) 10); [discriminate|].
        eapply IH; [exact Ht|exact Hs| |exact H]. unfold dur_sgn in *. lia.
    + destruct ((c =? 100) || (c =? 104) || (c =? 109) || (c =? 115)); [|discriminate].
      destruct (negb hv); [discriminate|].
      cbv zeta in H.
      set (is_ms := (c =? 109) && dur_starts115 s) in H.
      set (u' := if is_ms then 4 else if c =? 100 then 0 else if c =? 104 then 1 else if c =? 109 then 2 else 3) in H.
      destruct (u' <? u); [discriminate|].
      replace v with (dur_sgn neg * (dur_sgn neg * v)) in H by (destruct neg; unfold dur_sgn; lia).
      rewrite dur_unit_tail_spec in H by assumption.
      destruct (in64b _) eqn:E in H; [|discriminate]. apply in64b_spec in E.
      pose proof (dur_unit_millis_pos u') as Hm.
      eapply IH; [| | |exact H]; [exact E| |lia]. destruct neg; unfold dur_sgn in *; nia.
Qed.

Theorem duration_parse_in_range : forall s z, parse_duration s = Some z -> in64 z.
Proof.
  intros s z H.
  destruct s as [|c [|x tl]].
  - change (parse_duration []) with (@None Z) in H. discriminate H.
  - assert (E : parse_duration [c] = None)
      by (unfold parse_duration; destruct c as [|p|p]; try reflexivity; destruct_pos).
    rewrite E in H. discriminate H.
  - rewrite dur_parse_cases in H.
    assert (H0 : in64 0) by (unfold in64, min64, max64, two63; lia).
    destruct (c =? 45).
    + eapply (dur_loop_range _ true); [exact H0| | |exact H]; unfold dur_sgn; lia.
    + eapply (dur_loop_range _ false); [exact H0| | |exact H]; unfold dur_sgn; lia.
Qed.

(* a consequence: texts whose mathematical value does not fit are rejected, and accepted ones are exact *)
Corollary duration_parse_value_some : forall neg d h m s ms z,
  dur_ok d -> dur_ok h -> dur_ok m -> dur_ok s -> dur_ok ms ->
  parse_duration (dur_text neg d h m s ms) = Some z -> z = dur_total neg d h m s ms.
Proof.
  intros neg d h m s ms z Hd Hh Hm Hs Hms H.
  destruct (dur_items d h m s ms) as [|p l] eqn:E.
  - apply dur_items_nil in E. destruct E as (-> & -> & -> & -> & ->). destruct neg; discriminate.
  - rewrite duration_parse_value in H; try assumption; [|rewrite E; discriminate].
    destruct (in64b (dur_total neg d h m s ms)); [|discriminate]. injection H as <-. reflexivity.
Qed.

(** * Examples *)

Example dur_ex_print_min64 : print_duration min64 = s_of "-106751991167d7h12m55s808ms".
Proof. vm_compute. reflexivity. Qed.
Example dur_ex_print_max64 : print_duration max64 = s_of "106751991167d7h12m55s807ms".
Proof. vm_compute. reflexivity. Qed.
Example dur_ex_roundtrip_min64 : parse_duration (print_duration min64) = Some min64.
Proof. vm_compute. reflexivity. Qed.
Example dur_ex_roundtrip_max64 : parse_duration (print_duration max64) = Some max64.
Proof. vm_compute. reflexivity. Qed.
Example dur_ex_zero : print_duration 0 = s_of "0ms".
Proof. vm_compute. reflexivity. Qed.
Example dur_ex_order : parse_duration (s_of "1h1d") = None.
Proof. vm_compute. reflexivity. Qed.
Example dur_ex_twice : parse_duration (s_of "1d1d") = None.
Proof. vm_compute. reflexivity. Qed.
Example dur_ex_overflow : parse_duration (s_of "9223372036854775808ms") = None.
Proof. vm_compute. reflexivity. Qed.
Example dur_ex_neg_min : parse_duration (s_of "-9223372036854775808ms") = Some min64.
Proof. vm_compute. reflexivity. Qed.
Example dur_ex_neg_overflow : parse_duration (s_of "-9223372036854775809ms") = None.
Proof. vm_compute. reflexivity. Qed.
Example dur_ex_all : parse_duration (s_of "1d2h3m4s5ms") = Some 93784005.
Proof. vm_compute. reflexivity. Qed.
Example dur_ex_m_then_s : parse_duration (s_of "1m1s") = Some 61000.
Proof. vm_compute. reflexivity. Qed.
Example dur_ex_ms_then_s : parse_duration (s_of "1ms1s") = None.
Proof. vm_compute. reflexivity. Qed.
Example dur_ex_leading_zeros : parse_duration (s_of "007s") = Some 7000.
Proof. vm_compute. reflexivity. Qed.
Example dur_ex_bare_sign : parse_duration (s_of "-") = None.
Proof. vm_compute. reflexivity. Qed.
Example dur_ex_no_unit : parse_duration (s_of "12") = None.
Proof. vm_compute. reflexivity. Qed.

Print Assumptions duration_roundtrip.
Print Assumptions duration_parse_in_range.
Print Assumptions duration_parse_value.
Print Assumptions duration_parse_value_nat.
