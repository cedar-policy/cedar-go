(* C14, encoder clause: what an encoder writes does not depend on the order in which a map-backed container happens to be traversed.
   Policy sets (text and JSON list policies in id order), entity maps (EntityJsonProofs.enc_entity_map_perm). *)
From Coq Require Import List Bool Permutation.
Import ListNotations.
From Cedar Require Import Lang.Value Impl.PolicySet Proofs.PolicySetProofs Proofs.PolicySetHistory.

(* the id-sorted listing of a policy set (MarshalCedar, MarshalJSON, All) is the same for every traversal order of the underlying map *)
Theorem sort_by_id_perm_eq : forall s1 s2 : pset, uniq s1 -> Permutation s1 s2 -> sort_by_id s1 = sort_by_id s2.
Proof.
  intros s1 s2 U1 P. pose proof (perm_uniq _ _ P U1) as U2.
  apply (bindings_unique_ext (abs s1) (abs s2)); [|apply sort_bindings; exact U1|apply sort_bindings; exact U2].
  exact (perm_abs s1 s2 P U1).
Qed.

Print Assumptions sort_by_id_perm_eq.
