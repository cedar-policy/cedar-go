(* Round trip of the JSON codec of entities and entity maps (Impl/EntityJson.v) on JSON trees.
   Section hypotheses: ord_perm (the member order of an encoded set is some permutation), ip_roundtrip (net/netip's printer is not
   modelled), ukey_inj (EntityUID.String() is injective; only used for the order-independence of the encoder).
   - dec_enc_entity_map          : for store_wf stores, decode (encode m) = the entities of m in the encoded (= sorted by ukey) order, each
                                   with its parents sorted and its attrs / tags Cedar-equal (veq both ways) to the originals
   - dec_enc_entity_map_eq       : with the identity member order, decode (encode m) = map norm_entity (sort_entities m)
   - second_encoding_identical   : with the identity member order, encoding what was decoded gives the identical document
   - dec_enc_entity_map_canon    : the decoded store has distinct keys, duplicate-free parents and well-formed attrs / tags
   - enc_entity_map_guards       : the encoder output never hits the two document-wide DUnk guards (any_fold, any_dups)
   - dec_entity_map_total        : the decoder never answers DFuel
   - dec_uid_explicit / dec_uid_implicit / dec_entity_map_spelling : both accepted spellings of a uid decode to the same uid, and an
                                   entity map written with any mix of the two spellings decodes to the same store
   - enc_entity_map_perm         : the encoded document does not depend on the order in which the store lists its entities
   - ej_ex_*                     : computed witnesses that keys_plain is needed (limitation of the MODEL's decoder domain)
   entity_wf contains `keys_plain`: no attribute / tag key (at any nesting depth) that equals one of the struct field names only up to
   case, or contains one of the four special characters.  For such keys the MODEL's decoder answers DUnk (outside its domain); this is a
   limitation of the model, not of the Go code (decided on the Go side by the ejsondec correspondence and the direct oracle).
   The two guards are treated once, for any list of field names (guards_ok), since the request and diagnostic decoders
   (Impl/RequestJson.v, RequestJsonProofs.v) run the same guards with their own names. *)
From Coq Require Import ZArith List Bool Lia Arith String Permutation.
Import ListNotations.
From Cedar Require Import Base.Int64 Base.Json Lang.Value Lang.Expr Impl.IPAddr Impl.ValueJson Impl.PolicyJson Impl.EntityJson
  Impl.RequestJson.
From Cedar Require Import Proofs.ValueProofs Proofs.ValueJsonProofs Proofs.PolicyJsonProofs.
Local Open Scope Z_scope.

Lemma dall_dec_enc {A} (dec : json -> dres A) (enc : A -> json) l :
  (forall x, In x l -> dec (enc x) = DOk x) -> dall (map dec (map enc l)) = DOk l.
Proof.
  intros H. rewrite map_map, (dall_map_ok _ (fun x => x)), map_id; [reflexivity|]. apply Forall_forall. exact H.
Qed.

Lemma Forall2_map_r {A B} (R : A -> B -> Prop) (f : A -> B) l : (forall x, In x l -> R x (f x)) -> Forall2 R l (map f l).
Proof.
  induction l as [|x l IH]; intros H; constructor; [apply H; left; reflexivity|]. apply IH. intros y Hy. apply H. right. exact Hy.
Qed.

Section ISort.
  Variable A : Type.
  Variable lt : A -> A -> bool.
  Hypothesis lt_asym : forall a b, lt a b = true -> lt b a = false.

  Fixpoint ins (u : A) (l : list A) : list A :=
    match l with [] => [u] | x :: r => if lt x u then x :: ins u r else u :: l end.
  Definition isort (l : list A) : list A := fold_right ins [] l.

  (* locally sorted: no element is followed by a smaller one *)
  Fixpoint lsorted (l : list A) : Prop :=
    match l with
    | [] => True
    | x :: r => match r with [] => True | y :: _ => lt y x = false end /\ lsorted r
    end.

  Lemma ins_perm u l : Permutation (ins u l) (u :: l).
  Proof.
    induction l as [|x r IH]; cbn [ins]; [apply Permutation_refl|].
    destruct (lt x u); [|apply Permutation_refl].
    eapply Permutation_trans; [apply perm_skip; exact IH | apply perm_swap].
  Qed.

  Lemma isort_perm l : Permutation (isort l) l.
  Proof.
    induction l as [|x r IH]; cbn [isort fold_right]; [constructor|].
    eapply Permutation_trans; [apply ins_perm | apply perm_skip; exact IH].
  Qed.

  Lemma ins_sorted u l : lsorted l -> lsorted (ins u l).
  Proof.
    induction l as [|x r IH]; intros Hs; cbn [ins].
    - cbn [lsorted]. auto.
    - destruct (lt x u) eqn:E.
      + destruct Hs as [Hh Hr]. specialize (IH Hr). split; [|exact IH].
        destruct r as [|y r']; cbn [ins].
        * apply lt_asym. exact E.
        * destruct (lt y u); [exact Hh | apply lt_asym; exact E].
      + split; [exact E | exact Hs].
  Qed.

  Lemma isort_sorted l : lsorted (isort l).
  Proof.
    induction l as [|x r IH]; cbn [isort fold_right]; [exact I|]. apply ins_sorted. exact IH.
  Qed.

  Lemma isort_id l : lsorted l -> isort l = l.
  Proof.
    induction l as [|x r IH]; intros Hs; [reflexivity|].
    destruct Hs as [Hh Hr]. cbn [isort fold_right]. fold (isort r). rewrite (IH Hr).
    destruct r as [|y r']; [reflexivity|]. cbn [ins]. rewrite Hh. reflexivity.
  Qed.

  Lemma isort_idem l : isort (isort l) = isort l.
  Proof. apply isort_id. apply isort_sorted. Qed.

  (* mapping a function that does not change the order keeps a sorted list sorted *)
  Lemma lsorted_map (g : A -> A) l :
    (forall a b, lt (g a) (g b) = lt a b) -> lsorted l -> lsorted (map g l).
  Proof.
    intros Hg. induction l as [|x r IH]; intros Hs; [exact I|].
    destruct Hs as [Hh Hr]. cbn [map]. split; [|apply IH; exact Hr].
    destruct r as [|y r']; [exact I|]. cbn [map]. rewrite Hg. exact Hh.
  Qed.

  (* two locally sorted permutations of each other are equal when the order is transitive and total on the members *)
  Hypothesis lt_trans : forall a b c, lt a b = true -> lt b c = true -> lt a c = true.
  Definition total_on (l : list A) : Prop := forall a b, In a l -> In b l -> lt a b = false -> lt b a = false -> a = b.

  Lemma total_on_tail x r : total_on (x :: r) -> total_on r.
  Proof. intros H a b Ha Hb. apply H; right; assumption. Qed.

  Lemma lsorted_head_le x r : total_on (x :: r) -> lsorted (x :: r) -> forall y, In y r -> lt y x = false.
  Proof.
    revert x. induction r as [|z r IH]; intros x Ht Hs y Hy; [destruct Hy|].
    destruct Hs as [Hh Hr]. destruct Hy as [<-|Hy]; [exact Hh|].
    pose proof (IH z (total_on_tail _ _ Ht) Hr y Hy) as Hyz.
    destruct (lt y x) eqn:E; [|reflexivity].
    destruct (lt x z) eqn:Exz.
    - pose proof (lt_trans _ _ _ E Exz). congruence.
    - assert (x = z).
      { apply Ht; [left; reflexivity | right; left; reflexivity | exact Exz | exact Hh]. }
      subst z. congruence.
  Qed.

  Lemma lsorted_perm_eq l : forall l', total_on l -> lsorted l -> lsorted l' -> Permutation l l' -> l = l'.
  Proof.
    induction l as [|x r IH]; intros [|x' r'] Ht Hs Hs' Hp.
    - reflexivity.
    - apply Permutation_nil in Hp. discriminate.
    - apply Permutation_sym, Permutation_nil in Hp. discriminate.
    - assert (Ht' : total_on (x' :: r')).
      { intros a b Ha Hb. apply Ht; apply (Permutation_in _ (Permutation_sym Hp)); assumption. }
      assert (E : x = x').
      { destruct (Permutation_in _ Hp (or_introl eq_refl)) as [E|Hin]; [symmetry; exact E|].
        destruct (Permutation_in _ (Permutation_sym Hp) (or_introl eq_refl)) as [E|Hin']; [exact E|].
        apply Ht; [left; reflexivity | right; exact Hin' | exact (lsorted_head_le _ _ Ht' Hs' x Hin) |
                   exact (lsorted_head_le _ _ Ht Hs x' Hin')]. }
      subst x'. f_equal. apply IH; [exact (total_on_tail _ _ Ht) | apply Hs | apply Hs' | exact (Permutation_cons_inv Hp)].
  Qed.
End ISort.

Lemma uid_ltb_asym a b : uid_ltb a b = true -> uid_ltb b a = false.
Proof.
  unfold uid_ltb. intros H. apply orb_true_iff in H. destruct H as [H|H].
  - rewrite (str_ltb_asym _ _ H). cbn [orb].
    destruct (str_eqb (fst b) (fst a)) eqn:E; [|reflexivity].
    apply str_eqb_eq in E. rewrite E, str_ltb_irrefl in H. discriminate.
  - apply andb_true_iff in H. destruct H as [E H]. apply str_eqb_eq in E. rewrite E.
    rewrite str_ltb_irrefl, (str_ltb_asym _ _ H), andb_false_r. reflexivity.
Qed.

Lemma sort_uids_isort l : sort_uids l = isort uid uid_ltb l.
Proof. reflexivity. Qed.

Lemma sort_uids_perm l : Permutation (sort_uids l) l.
Proof. rewrite sort_uids_isort. apply isort_perm. Qed.

Lemma sort_uids_idem l : sort_uids (sort_uids l) = sort_uids l.
Proof. rewrite !sort_uids_isort. apply isort_idem. exact uid_ltb_asym. Qed.

Lemma sort_uids_nodup l : NoDup l -> NoDup (sort_uids l).
Proof. intros H. eapply Permutation_NoDup; [apply Permutation_sym, sort_uids_perm | exact H]. Qed.

Definition ent_lt (ukey : uid -> str) (x y : uid * entity) : bool := str_ltb (ukey (fst x)) (ukey (fst y)).

Lemma ent_lt_asym ukey a b : ent_lt ukey a b = true -> ent_lt ukey b a = false.
Proof. unfold ent_lt. apply str_ltb_asym. Qed.

Lemma sort_entities_isort ukey m : sort_entities ukey m = isort _ (ent_lt ukey) m.
Proof. reflexivity. Qed.

Lemma sort_entities_perm ukey m : Permutation (sort_entities ukey m) m.
Proof. rewrite sort_entities_isort. apply isort_perm. Qed.

(* the two document-wide guards of a struct decoder with field names `names`, without fuel *)

Section Guards.
  Variable names : list string.

  Fixpoint jfold_in (j : json) : bool :=
    match j with
    | JArr l => (fix go (l : list json) : bool := match l with [] => false | x :: r => jfold_in x || go r end) l
    | JObj l => fold_only names l ||
                (fix go (l : list (str * json)) : bool := match l with [] => false | (_, x) :: r => jfold_in x || go r end) l
    | _ => false
    end.

  Lemma jfold_in_arr l : jfold_in (JArr l) = existsb jfold_in l.
  Proof. cbn [jfold_in]. induction l as [|x l IH]; [reflexivity|]. cbn [existsb]. rewrite IH. reflexivity. Qed.

  Lemma jfold_in_obj l : jfold_in (JObj l) = fold_only names l || existsb (fun kv => jfold_in (snd kv)) l.
  Proof.
    cbn [jfold_in]. f_equal. induction l as [|[k' x] l IH]; [reflexivity|]. cbn [existsb snd]. rewrite IH. reflexivity.
  Qed.

  Lemma any_fold_in_jfold : forall f j, (jdepth j <= f)%nat -> any_fold_in names f j = jfold_in j.
  Proof.
    induction f as [|f IH]; intros j Hj; [pose proof (jdepth_pos j); lia|].
    destruct j as [| | | | |l|l]; try reflexivity.
    - rewrite jfold_in_arr. apply existsb_ext_in. intros x Hx. apply IH. pose proof (jdepth_arr_in x l Hx). lia.
    - rewrite jfold_in_obj. cbn [any_fold_in]. f_equal. apply existsb_ext_in. intros kv Hkv. apply IH.
      pose proof (jdepth_obj_in kv l Hkv). lia.
  Qed.

  (* j passes both guards *)
  Definition guards_ok (j : json) : Prop := jfold_in j = false /\ jdups j = false.

  Lemma guards_ok_run j : guards_ok j ->
    any_fold_in names (S (jdepth j)) j = false /\ any_dups (S (jdepth j)) j = false.
  Proof. intros H. rewrite any_fold_in_jfold, any_dups_jdups by lia. exact H. Qed.

  Lemma guards_ok_arr l : Forall guards_ok l -> guards_ok (JArr l).
  Proof.
    intros H. split; [rewrite jfold_in_arr | rewrite jdups_arr]; apply existsb_false_Forall;
      (eapply Forall_impl; [|exact H]); intros j Hj; apply Hj.
  Qed.

  Lemma guards_ok_obj l :
    fold_only names l = false -> has_dups l = false -> Forall (fun kv => guards_ok (snd kv)) l -> guards_ok (JObj l).
  Proof.
    intros H1 H2 H. split; [rewrite jfold_in_obj, H1 | rewrite jdups_obj, H2]; apply existsb_false_Forall;
      (eapply Forall_impl; [|exact H]); intros kv Hkv; apply Hkv.
  Qed.

  (* what fold_only tests of one key: it is one of the names up to case only, or might be by a special character *)
  Definition fold_hit (key : str) : bool :=
    negb (existsb (fun n => str_eqb (k n) key) names) && (existsb (fun n => fold_eq (k n) key) names || has_special key).
End Guards.

Arguments jfold_in : simpl never.

(* the entity decoder's guard is the instance for its own field names *)
Lemma any_fold_all_fields : forall f j, any_fold f j = any_fold_in all_fields f j.
Proof.
  induction f as [|f IH]; intros [| | | | |l|l]; try reflexivity; cbn [any_fold any_fold_in]; [|f_equal];
    apply existsb_ext_in; intros; apply IH.
Qed.

(* jfold_in all_fields, written out *)
Fixpoint jfold (j : json) : bool :=
  match j with
  | JArr l => (fix go (l : list json) : bool := match l with [] => false | x :: r => jfold x || go r end) l
  | JObj l => fold_only all_fields l ||
              (fix go (l : list (str * json)) : bool := match l with [] => false | (_, x) :: r => jfold x || go r end) l
  | _ => false
  end.

Arguments jfold : simpl never.

(* keys that the model's decoder can look at: exactly a field name, or not a field name even up to case *)

Definition plain_key (key : str) : bool :=
  negb (negb (existsb (fun n => str_eqb (k n) key) all_fields) &&
        (existsb (fun n => fold_eq (k n) key) all_fields || has_special key)).

Fixpoint keys_plain (v : value) : bool :=
  match v with
  | VSet l => (fix all (l : list value) : bool := match l with [] => true | x :: l' => keys_plain x && all l' end) l
  | VRecord l => (fix all (l : list (str * value)) : bool :=
                    match l with [] => true | (key, x) :: l' => plain_key key && keys_plain x && all l' end) l
  | _ => true
  end.

(* every record key of v, at any depth, satisfies pk; keys_plain is keys_all plain_key written out (they are convertible) *)
Section KeysAll.
  Variable pk : str -> bool.

  Fixpoint keys_all (v : value) : bool :=
    match v with
    | VSet l => (fix all (l : list value) : bool := match l with [] => true | x :: l' => keys_all x && all l' end) l
    | VRecord l => (fix all (l : list (str * value)) : bool :=
                      match l with [] => true | (key, x) :: l' => pk key && keys_all x && all l' end) l
    | _ => true
    end.

  Lemma keys_all_set l : keys_all (VSet l) = forallb keys_all l.
  Proof. cbn [keys_all]. induction l as [|x l IH]; [reflexivity|]. cbn [forallb]. rewrite <- IH. reflexivity. Qed.

  Lemma keys_all_record l : keys_all (VRecord l) = forallb (fun kv => pk (fst kv) && keys_all (snd kv)) l.
  Proof.
    cbn [keys_all]. induction l as [|[key x] l IH]; [reflexivity|]. cbn [forallb fst snd]. rewrite <- IH. reflexivity.
  Qed.
End KeysAll.

Lemma dedup_uids_nodup : forall l seen, NoDup l -> (forall x, In x l -> ~ In x seen) -> dedup_uids l seen = l.
Proof.
  induction l as [|u l IH]; intros seen Hnd Hseen; [reflexivity|].
  cbn [dedup_uids]. inversion Hnd as [|u' l' Hu Hl]; subst.
  destruct (existsb (EntityJson.uid_eqb u) seen) eqn:E.
  - apply existsb_exists in E. destruct E as (x & Hx & Hux). apply Value.uid_eqb_eq in Hux. subst x.
    exfalso. apply (Hseen u); [left; reflexivity | exact Hx].
  - f_equal. apply IH; [exact Hl|]. intros x Hx [<-|Hxs]; [exact (Hu Hx)|].
    apply (Hseen x); [right; exact Hx | exact Hxs].
Qed.

Lemma store_put_fresh u e m : ~ In u (map fst m) -> store_put u e m = m ++ [(u, e)].
Proof.
  induction m as [|[u' e'] m IH]; intros Hn; [reflexivity|].
  cbn [store_put app]. destruct (EntityJson.uid_eqb u' u) eqn:E.
  - apply Value.uid_eqb_eq in E. subst u'. exfalso. apply Hn. left. reflexivity.
  - f_equal. apply IH. intros Hin. apply Hn. right. exact Hin.
Qed.

Lemma fold_put_nodup : forall (es acc : store), NoDup (map fst (acc ++ es)) ->
  fold_left (fun m ue => store_put (fst ue) (snd ue) m) es acc = acc ++ es.
Proof.
  induction es as [|[u e] es IH]; intros acc Hnd; cbn [fold_left fst snd].
  - rewrite app_nil_r. reflexivity.
  - assert (Hnd' : NoDup (map fst ((acc ++ [(u, e)]) ++ es))).
    { rewrite <- app_assoc. exact Hnd. }
    rewrite store_put_fresh.
    + rewrite IH by exact Hnd'. rewrite <- app_assoc. reflexivity.
    + rewrite map_app in Hnd. cbn [map fst] in Hnd. apply NoDup_remove_2 in Hnd.
      intros Hin. apply Hnd. apply in_or_app. left. exact Hin.
Qed.

(* the decoders never run out of fuel (there is none) *)

(* None of the decoders mentions DFuel, so each of these facts is seen by walking down the decoder's text: split a dbind, go
   member-wise through a decoded list, look at the cases of whatever the outermost match (or if) inspects; decoders met on the way
   are supplied as hints (one lemma per decoder: with the inner decoders unfolded instead, every destruct rebuilds a goal that
   holds the rest of the text, which is several times dearer). *)
Create HintDb nofuel discriminated.
Ltac nofuel :=
  repeat first
    [ discriminate
    | apply dbind_nofuel; [|intros ?]
    | apply dall_map_nofuel; intros ? _
    | match goal with |- match ?x with _ => _ end <> DFuel => destruct x end
    | solve [auto with nofuel] ].

#[export] Hint Resolve sfield_nofuel : nofuel.

Lemma dec_uid_nofuel j : EntityJson.dec_uid j <> DFuel.
Proof. unfold EntityJson.dec_uid. nofuel. Qed.
#[export] Hint Resolve dec_uid_nofuel : nofuel.

Lemma dec_record_nofuel j : dec_record j <> DFuel.
Proof. unfold dec_record. nofuel. Qed.
#[export] Hint Resolve dec_record_nofuel : nofuel.

Lemma dec_entity_nofuel j : dec_entity j <> DFuel.
Proof. unfold dec_entity. nofuel. Qed.

Theorem dec_entity_map_total : forall j, dec_entity_map j <> DFuel.
Proof. intros j. unfold dec_entity_map. nofuel. apply dec_entity_nofuel. Qed.

(* the shape of an encoded entity, with the four members abstract *)

Definition ent_json (ju jp ja jt : json) : json := JObj [(k "uid", ju); (k "parents", jp); (k "attrs", ja); (k "tags", jt)].

Lemma dec_entity_obj ju lp ja jt :
  dec_entity (ent_json ju (JArr lp) ja jt) =
  dbind (EntityJson.dec_uid ju) (fun u =>
  dbind (dbind (dall (map EntityJson.dec_uid lp)) (fun us => DOk (dedup_uids us []))) (fun ps =>
  dbind (dec_record (Some ja)) (fun attrs =>
  dbind (dec_record (Some jt)) (fun tags =>
  DOk (u, {| e_parents := ps; e_attrs := attrs; e_tags := tags |}))))).
Proof. reflexivity. Qed.

(* Record.UnmarshalJSON agrees with the value decoder on objects that are not escapes *)
Lemma dec_record_fields m : forall kvs, all_some (vj_dec_fields m) = Some kvs ->
  dall (map (fun kv : str * json => match decode_value (snd kv) with Some v => DOk (fst kv, v) | None => DErr end) m) = DOk kvs.
Proof.
  induction m as [|kx m IH]; intros kvs H.
  - cbn in H. injection H as <-. reflexivity.
  - unfold vj_dec_fields in H. cbn [map all_some] in H. fold (vj_dec_fields m) in H.
    cbn [map dall]. destruct (decode_value (snd kx)) as [v|]; cbn [option_map] in H; [|discriminate].
    destruct (all_some (vj_dec_fields m)) as [kvs'|]; cbn [option_map] in H; [|discriminate].
    injection H as <-. rewrite (IH kvs' eq_refl). reflexivity.
Qed.

Lemma dec_record_decode m v' :
  extn_probe (JObj m) = None -> entity_probe m = None -> decode_value (JObj m) = Some v' ->
  exists kvs, v' = VRecord kvs /\ dec_record (Some (JObj m)) = DOk kvs.
Proof.
  intros H1 H2. rewrite vj_decode_obj, H1, H2.
  destruct (all_some (vj_dec_fields m)) as [kvs|] eqn:E; cbn [option_map]; [|discriminate].
  intros H. injection H as <-. exists (rec_of_list kvs). split; [reflexivity|].
  unfold dec_record. rewrite (dec_record_fields m kvs E). reflexivity.
Qed.

Section EntityJsonProofs.
  Variable print_ip : bool -> Z -> Z -> str.
  Variable ord : list json -> list json.
  Hypothesis ord_perm : forall l, Permutation (ord l) l.
  (* net/netip's printer is Go's standard library and is not modelled: its round trip is assumed for the ip values considered *)
  Variable ip_ok : bool -> Z -> Z -> bool.
  Hypothesis ip_roundtrip : forall v6 a p, ip_ok v6 a p = true -> parse_ip (print_ip v6 a p) = Some (v6, a, p).
  Variable ukey : uid -> str.
  Hypothesis ukey_inj : forall a b, ukey a = ukey b -> a = b.

  Notation enc := (encode_value print_ip ord).
  Notation safe := (json_safe ip_ok).
  Notation encf := (enc_field print_ip ord).

  (* json_safe implies wf_value (entity_wf_attrs_wf below): key-sorted records of well-formed values *)
  Definition entity_wf (e : entity) : Prop :=
    NoDup (e_parents e) /\
    safe (VRecord (e_attrs e)) = true /\ keys_plain (VRecord (e_attrs e)) = true /\
    safe (VRecord (e_tags e)) = true /\ keys_plain (VRecord (e_tags e)) = true.

  Definition store_wf (m : store) : Prop :=
    NoDup (map fst m) /\ Forall (fun ue => entity_wf (snd ue)) m.

  Lemma entity_wf_attrs_wf e : entity_wf e -> wf_value (VRecord (e_attrs e)) = true /\ wf_value (VRecord (e_tags e)) = true.
  Proof. intros (_ & Ha & _ & Ht & _). split; eapply json_safe_wf; eassumption. Qed.

  Definition entity_equiv (ue ue' : uid * entity) : Prop :=
    fst ue = fst ue' /\
    e_parents (snd ue') = sort_uids (e_parents (snd ue)) /\
    veq (VRecord (e_attrs (snd ue))) (VRecord (e_attrs (snd ue'))) = true /\
    veq (VRecord (e_attrs (snd ue'))) (VRecord (e_attrs (snd ue))) = true /\
    veq (VRecord (e_tags (snd ue))) (VRecord (e_tags (snd ue'))) = true /\
    veq (VRecord (e_tags (snd ue'))) (VRecord (e_tags (snd ue))) = true.

  (* the parents are equal as sets *)
  Lemma entity_equiv_parents ue ue' : entity_equiv ue ue' -> Permutation (e_parents (snd ue)) (e_parents (snd ue')).
  Proof. intros (_ & -> & _). apply Permutation_sym, sort_uids_perm. Qed.

  Definition norm_entity (ue : uid * entity) : uid * entity :=
    (fst ue, {| e_parents := sort_uids (e_parents (snd ue)); e_attrs := e_attrs (snd ue); e_tags := e_tags (snd ue) |}).

  (* Uids: both spellings decode to the same uid *)

  Definition enc_uid_explicit (u : uid) : json := enc (VEntity (fst u) (snd u)).

  Theorem dec_uid_implicit : forall u, EntityJson.dec_uid (enc_uid_implicit u) = DOk u.
  Proof. intros [t i]. reflexivity. Qed.

  Theorem dec_uid_explicit : forall t i, EntityJson.dec_uid (enc (VEntity t i)) = DOk (t, i).
  Proof. intros t i. reflexivity. Qed.

  (* a spelling function: for every uid one of the two accepted spellings *)
  Definition spelling (sp : uid -> json) : Prop := forall u, sp u = enc_uid_implicit u \/ sp u = enc_uid_explicit u.

  Lemma spelling_implicit : spelling enc_uid_implicit.
  Proof. intros u. left. reflexivity. Qed.

  Lemma spelling_explicit : spelling enc_uid_explicit.
  Proof. intros u. right. reflexivity. Qed.

  Lemma spelling_dec sp : spelling sp -> forall u, EntityJson.dec_uid (sp u) = DOk u.
  Proof. intros Hsp u. destruct (Hsp u) as [-> | ->]; [apply dec_uid_implicit | destruct u; apply dec_uid_explicit]. Qed.

  Lemma jfold_extn fn arg : jfold (extn fn arg) = false.
  Proof. reflexivity. Qed.

  Lemma jdups_extn fn arg : jdups (extn fn arg) = false.
  Proof. reflexivity. Qed.

  (* the uid objects and the extension escape pass the guards for `names`: all their keys are among the names (or far from them) *)
  Definition escapes_ok (names : list string) : Prop :=
    (forall u, guards_ok names (enc_uid_implicit u)) /\ (forall u, guards_ok names (enc_uid_explicit u)) /\
    (forall fn arg, guards_ok names (extn fn arg)).

  Lemma escapes_all_fields : escapes_ok all_fields.
  Proof. repeat split. Qed.

  Lemma spelling_guards names sp : escapes_ok names -> spelling sp -> forall u, guards_ok names (sp u).
  Proof. intros (Hi & He & _) Hsp u. destruct (Hsp u) as [-> | ->]; [apply Hi | apply He]. Qed.

  (* an encoded value passes when pk, which holds of all its record keys, excludes what the fold guard looks for; its sets do not
     matter (member order only) and json_safe makes its records key-sorted *)
  Lemma guards_ok_enc names pk : (forall key, pk key = negb (fold_hit names key)) -> escapes_ok names ->
    forall v, safe v = true -> keys_all pk v = true -> guards_ok names (enc v).
  Proof.
    intros Hpk (_ & He & Hx).
    apply (value_ind' (fun v => safe v = true -> keys_all pk v = true -> guards_ok names (enc v))).
    1-3: intros; split; reflexivity.
    4-7: intros; apply Hx.
    - intros t i _ _. apply (He (t, i)).
    - intros l IH Hs Hp. rewrite json_safe_set in Hs. apply andb_true_iff in Hs. destruct Hs as [_ Hs].
      rewrite keys_all_set in Hp. rewrite forallb_forall in Hs, Hp. rewrite Forall_forall in IH.
      cbn [encode_value]. apply guards_ok_arr, (Permutation_Forall (Permutation_sym (ord_perm _))), Forall_map, Forall_forall.
      intros x Hx'. apply IH; auto.
    - intros l IH Hs Hp. rewrite json_safe_record in Hs. apply andb_true_iff in Hs. destruct Hs as [Hks Hs].
      rewrite keys_all_record in Hp. rewrite forallb_forall in Hs, Hp. rewrite Forall_forall in IH.
      rewrite encode_record. apply guards_ok_obj.
      + apply existsb_false_Forall, Forall_map, Forall_forall. intros kv Hkv. cbn [enc_field fst].
        specialize (Hp kv Hkv). rewrite Hpk in Hp. apply andb_true_iff in Hp. apply negb_true_iff, Hp.
      + apply has_dups_sorted. rewrite <- Hks. apply keys_sorted_ext. rewrite map_map. reflexivity.
      + apply Forall_map, Forall_forall. intros kv Hkv. cbn [enc_field snd].
        specialize (Hs kv Hkv). specialize (Hp kv Hkv). apply andb_true_iff in Hs, Hp. apply IH; tauto.
  Qed.

  (* what Record.UnmarshalJSON returns for the encoding of kvs (it does return: dec_enc_record) *)
  Definition dec_rec (kvs : list (str * value)) : list (str * value) :=
    match dec_record (Some (EntityJson.enc_record print_ip ord kvs)) with DOk kvs' => kvs' | _ => [] end.

  Lemma dec_enc_record kvs : safe (VRecord kvs) = true ->
    dec_record (Some (EntityJson.enc_record print_ip ord kvs)) = DOk (dec_rec kvs) /\
    veq (VRecord kvs) (VRecord (dec_rec kvs)) = true /\ veq (VRecord (dec_rec kvs)) (VRecord kvs) = true /\
    wf_value (VRecord (dec_rec kvs)) = true /\ ((forall l, ord l = l) -> dec_rec kvs = kvs).
  Proof.
    intros Hs. destruct (roundtrip_main print_ip ord ord_perm ip_ok ip_roundtrip _ Hs) as (v' & Hd & R & W & E).
    pose proof Hs as Hs0. rewrite json_safe_record in Hs. apply andb_true_iff in Hs. destruct Hs as [Hks Hsl].
    assert (Hno : jget k_extn (map encf kvs) = None /\ jget k_entity (map encf kvs) = None).
    { rewrite forallb_forall in Hsl. split; apply enc_fields_no_key, forallb_forall; intros kv Hkv; specialize (Hsl kv Hkv);
        unfold key_ok in Hsl; rewrite !andb_true_iff in Hsl; tauto. }
    unfold dec_rec, EntityJson.enc_record. rewrite encode_record in *.
    destruct (dec_record_decode (map encf kvs) v') as (kvs' & -> & ->).
    - unfold extn_probe. rewrite (proj1 Hno). reflexivity.
    - unfold entity_probe. rewrite (proj2 Hno). reflexivity.
    - exact Hd.
    - split; [reflexivity|]. split; [exact R|]. split; [|split; [exact W|]].
      + rewrite veq_sym; [exact R | exact W | apply json_safe_wf with (ip_ok := ip_ok); exact Hs0].
      + intros Hid. specialize (E Hid). injection E as ->. reflexivity.
  Qed.

  Definition enc_entity_sp (sp : uid -> json) (ue : uid * entity) : json :=
    ent_json (sp (fst ue)) (JArr (map sp (sort_uids (e_parents (snd ue)))))
             (EntityJson.enc_record print_ip ord (e_attrs (snd ue))) (EntityJson.enc_record print_ip ord (e_tags (snd ue))).

  Lemma enc_entity_implicit ue : enc_entity print_ip ord ue = enc_entity_sp enc_uid_implicit ue.
  Proof. reflexivity. Qed.

  Definition id_order : Prop := forall l, ord l = l.

  (* what the decoder yields is in canonical form: duplicate-free parents, well-formed (key-sorted, canonical sets) attrs and tags *)
  Definition entity_canon (e : entity) : Prop :=
    NoDup (e_parents e) /\ wf_value (VRecord (e_attrs e)) = true /\ wf_value (VRecord (e_tags e)) = true.

  (* what an entity written in any spelling decodes to, in terms of the record decoder alone: the spelling has gone *)
  Lemma dec_entity_sp sp ue : spelling sp ->
    dec_entity (enc_entity_sp sp ue) =
    dbind (dec_record (Some (EntityJson.enc_record print_ip ord (e_attrs (snd ue))))) (fun attrs =>
    dbind (dec_record (Some (EntityJson.enc_record print_ip ord (e_tags (snd ue))))) (fun tags =>
    DOk (fst ue, {| e_parents := dedup_uids (sort_uids (e_parents (snd ue))) []; e_attrs := attrs; e_tags := tags |}))).
  Proof.
    intros Hsp. unfold enc_entity_sp. rewrite dec_entity_obj, (spelling_dec sp Hsp), dall_dec_enc; [reflexivity|].
    intros u _. apply spelling_dec, Hsp.
  Qed.

  (* what the decoder returns for an encoded entity *)
  Definition dec_ent (ue : uid * entity) : uid * entity :=
    (fst ue, {| e_parents := sort_uids (e_parents (snd ue));
                e_attrs := dec_rec (e_attrs (snd ue)); e_tags := dec_rec (e_tags (snd ue)) |}).

  Lemma dec_enc_entity_sp sp ue : spelling sp -> entity_wf (snd ue) ->
    dec_entity (enc_entity_sp sp ue) = DOk (dec_ent ue) /\ entity_equiv ue (dec_ent ue) /\
    (id_order -> dec_ent ue = norm_entity ue) /\ entity_canon (snd (dec_ent ue)).
  Proof.
    intros Hsp (Hnd & Hsa & _ & Hst & _).
    destruct (dec_enc_record _ Hsa) as (Hda & Ra1 & Ra2 & Wa & Ea).
    destruct (dec_enc_record _ Hst) as (Hdt & Rt1 & Rt2 & Wt & Et).
    rewrite (dec_entity_sp sp ue Hsp), Hda, Hdt. cbn [dbind].
    rewrite dedup_uids_nodup; [|apply sort_uids_nodup; exact Hnd | intros x _ []]. split; [reflexivity|]. split; [|split].
    - unfold entity_equiv. cbn [dec_ent fst snd e_parents e_attrs e_tags]. tauto.
    - intros Hid. unfold dec_ent, norm_entity. rewrite (Ea Hid), (Et Hid). reflexivity.
    - unfold entity_canon. cbn [dec_ent fst snd e_parents e_attrs e_tags].
      split; [apply sort_uids_nodup; exact Hnd | split; assumption].
  Qed.

  Lemma guards_enc_entity_sp sp ue : spelling sp -> entity_wf (snd ue) -> guards_ok all_fields (enc_entity_sp sp ue).
  Proof.
    intros Hsp (_ & Hsa & Hpa & Hst & Hpt).
    pose proof (spelling_guards _ sp escapes_all_fields Hsp) as Hu.
    pose proof (guards_ok_enc all_fields plain_key (fun _ => eq_refl) escapes_all_fields) as Hv.
    apply guards_ok_obj; [reflexivity | reflexivity |]. repeat apply Forall_cons; try apply Forall_nil; cbn [snd].
    - apply Hu.
    - apply guards_ok_arr, Forall_map, Forall_forall. intros u _. apply Hu.
    - apply Hv; assumption.
    - apply Hv; assumption.
  Qed.

  Definition enc_entity_map_sp (sp : uid -> json) (m : store) : json :=
    JArr (map (enc_entity_sp sp) (sort_entities ukey m)).

  Lemma enc_entity_map_implicit m : enc_entity_map print_ip ord ukey m = enc_entity_map_sp enc_uid_implicit m.
  Proof. reflexivity. Qed.

  Lemma store_wf_sorted m : store_wf m -> store_wf (sort_entities ukey m).
  Proof.
    intros [Hnd Hw]. pose proof (sort_entities_perm ukey m) as Hp. split.
    - eapply Permutation_NoDup; [apply Permutation_map, Permutation_sym; exact Hp | exact Hnd].
    - apply (Permutation_Forall (Permutation_sym Hp)). exact Hw.
  Qed.

  Lemma guards_enc_entity_map_sp sp m : spelling sp -> store_wf m -> guards_ok all_fields (enc_entity_map_sp sp m).
  Proof.
    intros Hsp Hw. apply store_wf_sorted in Hw. destruct Hw as [_ Hw]. apply guards_ok_arr, Forall_map.
    eapply Forall_impl; [|exact Hw]. intros ue. apply guards_enc_entity_sp. exact Hsp.
  Qed.

  (* the encoder output never hits the two document-wide DUnk guards of the decoder *)
  Theorem enc_entity_map_guards : forall m, store_wf m ->
    any_fold (S (jdepth (enc_entity_map print_ip ord ukey m))) (enc_entity_map print_ip ord ukey m) = false /\
    any_dups (S (jdepth (enc_entity_map print_ip ord ukey m))) (enc_entity_map print_ip ord ukey m) = false.
  Proof.
    intros m Hw. rewrite any_fold_all_fields. apply guards_ok_run, (guards_enc_entity_map_sp _ m spelling_implicit Hw).
  Qed.

  Lemma dec_entity_map_arr l : guards_ok all_fields (JArr l) ->
    dec_entity_map (JArr l) =
    dbind (dall (map dec_entity l)) (fun es => DOk (fold_left (fun m ue => store_put (fst ue) (snd ue) m) es [])).
  Proof.
    intros H. destruct (guards_ok_run _ _ H) as [G1 G2]. unfold dec_entity_map. rewrite any_fold_all_fields, G1, G2. reflexivity.
  Qed.

  (* the round trip under any spelling; the decoded store lists the entities in the encoded (= sorted by ukey) order *)
  Lemma dec_enc_entity_map_fn sp m : spelling sp -> store_wf m ->
    dec_entity_map (enc_entity_map_sp sp m) = DOk (map dec_ent (sort_entities ukey m)).
  Proof.
    intros Hsp Hw. pose proof (guards_enc_entity_map_sp sp m Hsp Hw) as G.
    unfold enc_entity_map_sp in *. rewrite (dec_entity_map_arr _ G).
    apply store_wf_sorted in Hw. destruct Hw as [Hnd Hw]. rewrite Forall_forall in Hw.
    rewrite map_map, (dall_map_ok _ dec_ent) by (apply Forall_forall; intros ue Hue; apply (dec_enc_entity_sp sp ue Hsp (Hw ue Hue))).
    cbn [dbind]. rewrite fold_put_nodup; [reflexivity|]. cbn [app]. rewrite map_map. exact Hnd.
  Qed.

  Theorem dec_enc_entity_map_sp : forall sp m, spelling sp -> store_wf m ->
    exists m', dec_entity_map (enc_entity_map_sp sp m) = DOk m' /\
               Forall2 entity_equiv (sort_entities ukey m) m' /\
               (id_order -> m' = map norm_entity (sort_entities ukey m)) /\
               NoDup (map fst m') /\ Forall (fun ue' => entity_canon (snd ue')) m'.
  Proof.
    intros sp m Hsp Hw. exists (map dec_ent (sort_entities ukey m)). split; [apply dec_enc_entity_map_fn; assumption|].
    apply store_wf_sorted in Hw. destruct Hw as [Hnd Hw]. rewrite Forall_forall in Hw.
    pose proof (fun ue Hue => dec_enc_entity_sp sp ue Hsp (Hw ue Hue)) as Hrt. split; [|split; [|split]].
    - apply Forall2_map_r. intros ue Hue. apply (Hrt ue Hue).
    - intros Hid. apply map_ext_in. intros ue Hue. apply (Hrt ue Hue), Hid.
    - rewrite map_map. exact Hnd.
    - apply Forall_map, Forall_forall. intros ue Hue. apply (Hrt ue Hue).
  Qed.

  Theorem dec_enc_entity_map : forall m, store_wf m ->
    exists m', dec_entity_map (enc_entity_map print_ip ord ukey m) = DOk m' /\
               Forall2 entity_equiv (sort_entities ukey m) m'.
  Proof.
    intros m Hw. rewrite enc_entity_map_implicit.
    destruct (dec_enc_entity_map_sp _ m spelling_implicit Hw) as (m' & Hd & Heq & _). exists m'. auto.
  Qed.

  (* the decoded store is in canonical form: distinct keys, duplicate-free parents, well-formed attrs and tags *)
  Theorem dec_enc_entity_map_canon : forall m m', store_wf m ->
    dec_entity_map (enc_entity_map print_ip ord ukey m) = DOk m' ->
    NoDup (map fst m') /\ Forall (fun ue' => entity_canon (snd ue')) m'.
  Proof.
    intros m m' Hw Hd. rewrite enc_entity_map_implicit in Hd.
    destruct (dec_enc_entity_map_sp _ m spelling_implicit Hw) as (m'' & Hd' & _ & _ & H1 & H2).
    rewrite Hd' in Hd. injection Hd as <-. auto.
  Qed.

  Theorem dec_enc_entity_map_eq : forall m, store_wf m -> (forall l, ord l = l) ->
    dec_entity_map (enc_entity_map print_ip ord ukey m) = DOk (map norm_entity (sort_entities ukey m)).
  Proof.
    intros m Hw Hid. rewrite enc_entity_map_implicit.
    destruct (dec_enc_entity_map_sp _ m spelling_implicit Hw) as (m' & Hd & _ & E & _). rewrite Hd, (E Hid). reflexivity.
  Qed.

  (* every accepted spelling of the uids and parents decodes to the same store *)
  (* no round trip of the attribute values is needed for this, hence no hypothesis on the ip printer *)
  Theorem dec_entity_map_spelling : forall sp m, spelling sp -> store_wf m ->
    dec_entity_map (enc_entity_map_sp sp m) = dec_entity_map (enc_entity_map print_ip ord ukey m).
  Proof.
    intros sp m Hsp Hw. rewrite enc_entity_map_implicit.
    pose proof (guards_enc_entity_map_sp sp m Hsp Hw) as G. pose proof (guards_enc_entity_map_sp _ m spelling_implicit Hw) as G'.
    unfold enc_entity_map_sp in *. rewrite (dec_entity_map_arr _ G), (dec_entity_map_arr _ G'), !map_map.
    f_equal. f_equal. apply map_ext. intros ue. rewrite !dec_entity_sp by (exact Hsp || exact spelling_implicit). reflexivity.
  Qed.

  Lemma enc_entity_norm ue : enc_entity print_ip ord (norm_entity ue) = enc_entity print_ip ord ue.
  Proof.
    unfold enc_entity, norm_entity. cbn [fst snd e_parents e_attrs e_tags]. rewrite sort_uids_idem. reflexivity.
  Qed.

  Lemma sort_entities_norm m :
    sort_entities ukey (map norm_entity (sort_entities ukey m)) = map norm_entity (sort_entities ukey m).
  Proof.
    rewrite !sort_entities_isort. apply isort_id. apply lsorted_map; [intros a b; reflexivity|].
    apply isort_sorted. apply ent_lt_asym.
  Qed.

  Lemma enc_entity_map_norm m :
    enc_entity_map print_ip ord ukey (map norm_entity (sort_entities ukey m)) = enc_entity_map print_ip ord ukey m.
  Proof.
    unfold enc_entity_map. rewrite sort_entities_norm, map_map. f_equal. apply map_ext. apply enc_entity_norm.
  Qed.

  Theorem second_encoding_identical : forall m m', store_wf m -> (forall l, ord l = l) ->
    dec_entity_map (enc_entity_map print_ip ord ukey m) = DOk m' ->
    enc_entity_map print_ip ord ukey m' = enc_entity_map print_ip ord ukey m.
  Proof.
    intros m m' Hw Hid Hd. rewrite (dec_enc_entity_map_eq m Hw Hid) in Hd. injection Hd as <-. apply enc_entity_map_norm.
  Qed.

  (* the decoded store is again well-formed (identity member order), so the round trip can be iterated *)
  Lemma store_wf_norm m : store_wf m -> store_wf (map norm_entity (sort_entities ukey m)).
  Proof.
    intros Hw. apply store_wf_sorted in Hw. destruct Hw as [Hnd Hw]. split.
    - rewrite map_map. cbn [norm_entity fst]. exact Hnd.
    - apply Forall_forall. intros ue Hue. apply in_map_iff in Hue. destruct Hue as (ue0 & <- & Hin).
      rewrite Forall_forall in Hw. destruct (Hw ue0 Hin) as (H1 & H2 & H3 & H4 & H5).
      unfold entity_wf, norm_entity. cbn [fst snd e_parents e_attrs e_tags].
      split; [apply sort_uids_nodup; exact H1 | tauto].
  Qed.

  (* The document does not depend on the order in which the store (a Go map) lists its entities *)

  Lemma nodup_fst_inj (m : store) : NoDup (map fst m) -> forall a b, In a m -> In b m -> fst a = fst b -> a = b.
  Proof.
    induction m as [|x m IH]; intros Hnd a b Ha Hb E; [destruct Ha|].
    cbn [map] in Hnd. inversion Hnd as [|y l Hx Hm]; subst.
    destruct Ha as [<-|Ha], Hb as [<-|Hb].
    - reflexivity.
    - exfalso. apply Hx. rewrite E. apply in_map. exact Hb.
    - exfalso. apply Hx. rewrite <- E. apply in_map. exact Ha.
    - apply IH; assumption.
  Qed.

  Theorem enc_entity_map_perm : forall m1 m2, NoDup (map fst m1) -> Permutation m1 m2 ->
    enc_entity_map print_ip ord ukey m1 = enc_entity_map print_ip ord ukey m2.
  Proof.
    intros m1 m2 Hnd Hp. unfold enc_entity_map. f_equal. f_equal. rewrite !sort_entities_isort.
    assert (Hp1 : Permutation (isort _ (ent_lt ukey) m1) m1) by apply isort_perm.
    apply lsorted_perm_eq with (lt := ent_lt ukey).
    - intros a b c. unfold ent_lt. apply str_ltb_trans.
    - intros a b Ha Hb H1 H2. apply (nodup_fst_inj m1 Hnd).
      + eapply Permutation_in; [exact Hp1 | exact Ha].
      + eapply Permutation_in; [exact Hp1 | exact Hb].
      + apply ukey_inj. apply str_ltb_total; assumption.
    - apply isort_sorted. apply ent_lt_asym.
    - apply isort_sorted. apply ent_lt_asym.
    - eapply Permutation_trans; [exact Hp1|]. eapply Permutation_trans; [exact Hp|]. apply Permutation_sym, isort_perm.
  Qed.
End EntityJsonProofs.

Definition ej_ukey (u : uid) : str := fst u ++ s_of "::""" ++ snd u ++ s_of """".

Definition ej_ex_store : store :=
  [ ((s_of "User", s_of "bob"),
     {| e_parents := [(s_of "Group", s_of "staff"); (s_of "Group", s_of "admins"); (s_of "Dept", s_of "x")];
        e_attrs := [(s_of "age", VLong 41); (s_of "type", VString (s_of "human"))];
        e_tags := [(s_of "t", VSet [VEntity (s_of "User") (s_of "alice"); VDecimal 12500])] |});
    ((s_of "User", s_of "alice"),
     {| e_parents := []; e_attrs := [(s_of "nested", VRecord [(s_of "id", VLong 1)])]; e_tags := [] |}) ].

(* identity member order: the decoded store is the sorted store with sorted parents, and re-encodes identically *)
Example ej_ex_roundtrip :
  dec_entity_map (enc_entity_map vj_no_ip (fun l => l) ej_ukey ej_ex_store)
  = DOk (map norm_entity (sort_entities ej_ukey ej_ex_store)).
Proof. vm_compute. reflexivity. Qed.

Example ej_ex_sorted_order :
  map fst (sort_entities ej_ukey ej_ex_store) = [(s_of "User", s_of "alice"); (s_of "User", s_of "bob")] /\
  map (fun ue => e_parents (snd ue)) (map norm_entity (sort_entities ej_ukey ej_ex_store))
  = [[]; [(s_of "Dept", s_of "x"); (s_of "Group", s_of "admins"); (s_of "Group", s_of "staff")]].
Proof. split; vm_compute; reflexivity. Qed.

(* the explicit spelling of every uid and parent decodes to the same store *)
Example ej_ex_explicit :
  dec_entity_map (enc_entity_map_sp vj_no_ip (fun l => l) ej_ukey (enc_uid_explicit vj_no_ip (fun l => l)) ej_ex_store)
  = dec_entity_map (enc_entity_map vj_no_ip (fun l => l) ej_ukey ej_ex_store).
Proof. vm_compute. reflexivity. Qed.

(* keys_plain is needed: an attribute key that is a field name up to case only ("Type"), or contains a special character (long s,
   C5 BF), is json_safe and wf but the MODEL's decoder answers DUnk (outside its domain) *)
Definition ej_ex_fold_store (key : str) : store :=
  [ ((s_of "User", s_of "a"), {| e_parents := []; e_attrs := [(key, VLong 1)]; e_tags := [] |}) ].

Example ej_ex_keys_plain_needed :
  json_safe (fun _ _ _ => false) (VRecord [(s_of "Type", VLong 1)]) = true /\
  keys_plain (VRecord [(s_of "Type", VLong 1)]) = false /\
  dec_entity_map (enc_entity_map vj_no_ip (fun l => l) ej_ukey (ej_ex_fold_store (s_of "Type"))) = DUnk /\
  json_safe (fun _ _ _ => false) (VRecord [([120; 197; 191], VLong 1)]) = true /\
  keys_plain (VRecord [([120; 197; 191], VLong 1)]) = false /\
  dec_entity_map (enc_entity_map vj_no_ip (fun l => l) ej_ukey (ej_ex_fold_store [120; 197; 191])) = DUnk.
Proof. repeat split; vm_compute; reflexivity. Qed.

(* exact field names are fine as attribute keys (here "type", "id", "uid") *)
Example ej_ex_exact_field_names_ok :
  keys_plain (VRecord [(s_of "id", VLong 1); (s_of "type", VLong 2); (s_of "uid", VRecord [(s_of "attrs", VLong 3)])]) = true.
Proof. vm_compute. reflexivity. Qed.

(* duplicated parents are merged by the decoder but kept by the encoder: NoDup on the parents is needed for the round trip *)
Example ej_ex_nodup_parents_needed :
  let m := [ ((s_of "U", s_of "a"), {| e_parents := [(s_of "G", s_of "g"); (s_of "G", s_of "g")]; e_attrs := []; e_tags := [] |}) ] in
  dec_entity_map (enc_entity_map vj_no_ip (fun l => l) ej_ukey m)
  = DOk [ ((s_of "U", s_of "a"), {| e_parents := [(s_of "G", s_of "g")]; e_attrs := []; e_tags := [] |}) ].
Proof. vm_compute. reflexivity. Qed.

Print Assumptions dec_enc_entity_map.
Print Assumptions dec_enc_entity_map_eq.
Print Assumptions second_encoding_identical.
Print Assumptions enc_entity_map_guards.
Print Assumptions dec_entity_map_total.
Print Assumptions dec_uid_implicit.
Print Assumptions dec_uid_explicit.
Print Assumptions dec_enc_entity_map_sp.
Print Assumptions dec_entity_map_spelling.
Print Assumptions enc_entity_map_perm.
Print Assumptions store_wf_norm.
Print Assumptions dec_enc_entity_map_canon.