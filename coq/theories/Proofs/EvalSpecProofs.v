(* The model of cedar-go's evaluator (Impl/Eval.v: eval) computes exactly what the declarative
   specification (Lang/Spec.v: seval) prescribes, on every input whose numbers fit in 64 bits.

   Headline theorems
     spec_in_one_reach       : the saturation of Spec.v is the reflexive-transitive closure of the parent relation
     eval_refines_spec       : env_ok en -> expr_ok e -> eval en e = seval en e
     eval_preserves_num_ok   : env_ok en -> expr_ok e -> eval en e = Ok v -> num_ok v
     eval_never_out_of_fuel  : no_fuel_node e -> eval en e <> Err EFuel
   (the last one needs the side condition: [EPartialError EFuel] evaluates to [Err EFuel] by definition,
    see [fuel_counterexample]). *)
From Coq Require Import ZArith List Bool String Lia Arith.
Import ListNotations.
From Cedar Require Import Base.Int64 Lang.Value Lang.Expr Impl.Like Impl.InSearch
  Impl.Decimal Impl.Duration Impl.Datetime Impl.IPAddr Generated.Tables Generated.Kernels
  Impl.Text Impl.Eval Lang.Spec.
From Cedar Require Proofs.LikeProofs Proofs.DatetimeProofs Proofs.ValueProofs.
From Cedar Require Import Proofs.ArithProofs Proofs.InSearchProofs Proofs.DecimalProofs Proofs.DurationProofs.
Local Open Scope Z_scope.
Local Notation length := List.length (only parsing).

Fixpoint num_ok (v : value) : bool :=
  match v with
  | VLong z => in64b z
  | VDecimal z => in64b z
  | VDatetime z => in64b z
  | VDuration z => in64b z
  | VSet l => forallb num_ok l
  | VRecord l => forallb (fun kv => num_ok (snd kv)) l
  | _ => true
  end.

Definition entity_ok (e : entity) : bool :=
  forallb (fun kv => num_ok (snd kv)) (e_attrs e) && forallb (fun kv => num_ok (snd kv)) (e_tags e).

Definition env_ok (en : env) : bool :=
  num_ok (e_principal en) && num_ok (e_action en) && num_ok (e_resource en) && num_ok (e_context en)
  && forallb (fun ue => entity_ok (snd ue)) (e_store en).

(* boolean version of LikeProofs.tailok / LikeProofs.wf: the shape produced by compile_pattern *)
Fixpoint tailokb (p : pattern) : bool :=
  match p with
  | [] => true
  | (w, l) :: p' => w && (is_nil p' || negb (is_nil l)) && tailokb p'
  end.

Definition wfb (p : pattern) : bool :=
  match p with
  | [] => true
  | (w, l) :: p' => (negb w || is_nil p' || negb (is_nil l)) && tailokb p'
  end.

Fixpoint expr_ok (e : expr) : bool :=
  match e with
  | ELit v => num_ok v
  | EVar _ => true
  | EAnd a b | EOr a b | EAdd a b | ESub a b | EMul a b | EEq a b | ENe a b
  | ELt a b | ELe a b | EGt a b | EGe a b | EIn a b
  | EContains a b | EContainsAll a b | EContainsAny a b
  | EGetTag a b | EHasTag a b => expr_ok a && expr_ok b
  | ENot a | ENeg a | EIsEmpty a | EAccess a _ | EHas a _ | EIs a _ => expr_ok a
  | ELike a p => expr_ok a && wfb p
  | EIsIn a _ b => expr_ok a && expr_ok b
  | EIf c t f => expr_ok c && expr_ok t && expr_ok f
  | ESet es => forallb expr_ok es
  | ERecord kvs => forallb (fun kv => expr_ok (snd kv)) kvs
  | ECall _ args => forallb expr_ok args
  | EPartialError _ => true
  end.

Lemma umem_In u l : umem u l = true <-> In u l.
Proof. exact (ValueProofs.existsb_eqb_In uid_eqb uid_eqb_eq u l). Qed.

(* a fold that only ever adds to its accumulator the elements [R b] of the items [b] it is given *)
Lemma fold_left_In (A B : Type) (f : list A -> B -> list A) (R : B -> A -> Prop) x :
  (forall acc b, In x (f acc b) <-> In x acc \/ R b x) ->
  forall l acc, In x (fold_left f l acc) <-> In x acc \/ exists b, In b l /\ R b x.
Proof.
  intros Hf. induction l as [|b l IH]; intros acc; cbn [fold_left].
  - split; [tauto|]. intros [H|[b [[] _]]]. exact H.
  - rewrite IH, Hf. split.
    + intros [[H|H]|[b' [Hb' H]]]; eauto using in_eq, in_cons.
    + intros [H|[b' [[<-|Hb'] H]]]; eauto.
Qed.

Section Reach.
  Variable st : store.
  Local Notation edge_st := (edge uid (parents_of st)).

  Lemma step_closure_In x seen :
    In x (step_closure st seen) <-> In x seen \/ exists u, In u seen /\ edge_st u x.
  Proof.
    apply fold_left_In. intros acc u. unfold edge, parents_of.
    destruct (lookup st u) as [e|]; cbn [option_map].
    - rewrite (fold_left_In _ _ _ (fun p y => p = y)).
      + split; (intros [H|H]; [left; exact H | right]).
        * destruct H as [p [Hp <-]]. exists (e_parents e). split; [reflexivity | exact Hp].
        * destruct H as [ps [Hps Hin]]. inversion Hps; subst ps. exists x. split; [exact Hin | reflexivity].
      + intros acc' p. destruct (umem p acc') eqn:E.
        * apply umem_In in E. split; [tauto|]. intros [H|<-]; assumption.
        * rewrite in_app_iff. cbn [In]. tauto.
    - split; [tauto|]. intros [H|[ps [Hps _]]]; [exact H | discriminate Hps].
  Qed.

  Lemma saturate_out n : forall seen, saturate (S n) st seen = step_closure st (saturate n st seen).
  Proof. induction n as [|n IH]; intros seen; [reflexivity|]. cbn [saturate] in *. apply IH. Qed.

  (* walks, built at the far end like [reach]; the list records the source of every edge (each of them a
     present entity), last edge first *)
  Inductive walk (a : uid) : list uid -> uid -> Prop :=
  | w_nil : walk a [] a
  | w_step : forall l y z, walk a l y -> edge_st y z -> walk a (y :: l) z.

  Lemma saturate_In : forall n seen x,
    In x (saturate n st seen) <-> exists a l, In a seen /\ walk a l x /\ (length l <= n)%nat.
  Proof.
    induction n as [|n IH]; intros seen x.
    - split.
      + intros H. exists x, []. split; [exact H|]. split; [constructor | apply le_n].
      + intros [a [l [Ha [Hw Hl]]]]. destruct Hw; [exact Ha | cbn in Hl; lia].
    - rewrite saturate_out, step_closure_In. split.
      + intros [H|[u [Hu He]]].
        * apply IH in H. destruct H as [a [l [Ha [Hw Hl]]]]. exists a, l. auto.
        * apply IH in Hu. destruct Hu as [a [l [Ha [Hw Hl]]]].
          exists a, (u :: l). split; [exact Ha|]. split; [econstructor; eassumption | cbn [length]; lia].
      + intros [a [l [Ha [Hw Hl]]]]. destruct Hw as [|l y z Hw He].
        * left. apply IH. exists a, []. split; [exact Ha|]. split; [constructor | cbn; lia].
        * right. exists y. split; [|exact He]. apply IH. exists a, l. cbn [length] in Hl.
          split; [exact Ha|]. split; [exact Hw | lia].
  Qed.

  Lemma reach_walk a b : reach_st st a b <-> exists l, walk a l b.
  Proof.
    split.
    - intros H. induction H as [|y z _ [l IH] He]; [exists [] | exists (y :: l)]; econstructor; eassumption.
    - intros [l H]. induction H as [|l y z _ IH He]; [apply r_refl | eapply r_step; eassumption].
  Qed.

  Lemma walk_prefix a l2 y : forall l1 b, walk a (l1 ++ y :: l2) b -> walk a l2 y.
  Proof.
    induction l1 as [|z l1 IH]; intros b H; inversion H; subst; [assumption | eapply IH; eassumption].
  Qed.

  Lemma NoDup_app_r (A : Type) (l1 l2 : list A) : NoDup (l1 ++ l2) -> NoDup l2.
  Proof.
    induction l1 as [|x l1 IH]; cbn [app]; intros H; [exact H|].
    inversion H; subst. apply IH. assumption.
  Qed.

  (* cutting the loops out of a walk *)
  Lemma walk_simple a l b : walk a l b -> exists l', walk a l' b /\ NoDup l'.
  Proof.
    intros H. induction H as [|l y z _ [l' [Hw Hnd]] He].
    - exists []. split; constructor.
    - destruct (umem y l') eqn:E.
      + apply umem_In, in_split in E. destruct E as [l1 [l2 ->]].
        exists (y :: l2). split; [econstructor; [eapply walk_prefix|]; eassumption | eapply NoDup_app_r; exact Hnd].
      + exists (y :: l'). split; [econstructor; eassumption | constructor; [|exact Hnd]].
        intros Hin. apply umem_In in Hin. congruence.
  Qed.

  Lemma walk_present a l b : walk a l b -> incl l (map fst st).
  Proof.
    intros H. induction H as [|l y z _ IH [ps [Hps _]]]; [intros x []|].
    intros x [<-|Hx]; [eapply parents_of_in_keys; exact Hps | apply IH; exact Hx].
  Qed.

  Theorem spec_in_one_reach a b : spec_in_one st a b = true <-> reach_st st a b.
  Proof.
    unfold spec_in_one, ancestors_or_self. rewrite umem_In, saturate_In, reach_walk. split.
    - intros [a' [l [[<-|[]] [Hw _]]]]. exists l. exact Hw.
    - intros [l Hw]. apply walk_simple in Hw. destruct Hw as [l' [Hw Hnd]].
      exists a, l'. split; [left; reflexivity|]. split; [exact Hw|].
      pose proof (NoDup_incl_length Hnd (walk_present _ _ _ Hw)) as Hlen.
      rewrite map_length in Hlen. lia.
  Qed.
End Reach.

Module LP := Cedar.Proofs.LikeProofs.

Definition pelem_conv (e : LP.pelem) : pelem :=
  match e with LP.PStar => PStar | LP.PChar c => PChar c end.

Lemma spec_wmatch_star_unfold q s :
  wmatch (PStar :: q) s = wmatch q s || match s with [] => false | _ :: s' => wmatch (PStar :: q) s' end.
Proof. destruct s; reflexivity. Qed.

Lemma wmatch_conv : forall p s, LP.wmatch p s = wmatch (map pelem_conv p) s.
Proof.
  induction p as [|[|c] p IH]; intros s; cbn [map pelem_conv].
  - reflexivity.
  - induction s as [|x s IHs]; rewrite LP.wmatch_star_unfold, spec_wmatch_star_unfold, IH, ?IHs; reflexivity.
  - destruct s as [|x s]; cbn [LP.wmatch wmatch]; [|rewrite IH]; reflexivity.
Qed.

Lemma expand_conv : forall p, map pelem_conv (LP.expand p) = pattern_elems p.
Proof.
  induction p as [|[w lit] p IH]; [reflexivity|].
  unfold LP.expand, pattern_elems in *. cbn [flat_map fst snd]. rewrite !map_app, IH, map_map.
  destruct w; reflexivity.
Qed.

Lemma is_nil_iff (A : Type) (l : list A) : is_nil l = true <-> l = [].
Proof. destruct l; cbn; split; intros H; congruence. Qed.

Lemma not_nil_iff (A : Type) (l : list A) : negb (is_nil l) = true <-> l <> [].
Proof. destruct l; cbn; split; intros H; congruence. Qed.

Lemma tailokb_iff : forall p, tailokb p = true <-> LP.tailok p.
Proof.
  induction p as [|[w l] p IH]; cbn [tailokb LP.tailok]; [tauto|].
  rewrite !andb_true_iff, orb_true_iff, is_nil_iff, not_nil_iff, IH. tauto.
Qed.

Lemma wfb_iff p : wfb p = true <-> LP.wf p.
Proof.
  destruct p as [|[w l] p]; cbn [wfb LP.wf]; [tauto|].
  rewrite andb_true_iff, !orb_true_iff, negb_true_iff, is_nil_iff, not_nil_iff, tailokb_iff.
  destruct w; intuition congruence.
Qed.

Lemma like_agree p s : wfb p = true -> go_match p s = wmatch (pattern_elems p) s.
Proof.
  intros H. apply wfb_iff in H. rewrite (LP.go_match_wf p H), wmatch_conv, expand_conv. reflexivity.
Qed.

(* every pattern built by NewPattern satisfies the side condition *)
Lemma compile_pattern_wfb cs : wfb (compile_pattern cs) = true.
Proof. apply wfb_iff, LP.compile_pattern_wf. Qed.

Definition res_ok (r : res) : Prop := match r with Ok v => num_ok v = true | Err _ => True end.
Definition agree (r s : res) : Prop := r = s /\ res_ok r.

(* the two sides are the same error, or the same value with no number of its own in it *)
Ltac triv := split; [reflexivity | first [exact I | reflexivity | assumption]].
(* a result that is bound and then projected: only the value of the expected form is left to look at *)
Ltac dres r :=
  let v := fresh "v" in let k := fresh "k" in
  destruct r as [v|k]; [destruct v; try triv | triv].

(* [p] is what a checked int64 operation returns when the exact result is [z] *)
Definition checked (p : Z * bool) (z : Z) : Prop := snd p = in64b z /\ (in64 z -> fst p = z).

Lemma checked_agree p z (mk : Z -> value) :
  checked p z -> (forall x, num_ok (mk x) = in64b x) ->
  agree (let '(r, ok) := p in if ok then Ok (mk r) else Err EOverflow) (fits z mk).
Proof.
  destruct p as [r ok]. unfold checked, fits. cbn [fst snd]. intros [-> Hr] Hmk.
  destruct (in64b z) eqn:E; [|triv].
  rewrite (Hr (proj1 (in64b_spec z) E)). split; [reflexivity|]. cbn [res_ok]. rewrite Hmk. exact E.
Qed.

Lemma add_checked a b : in64 a -> in64 b -> checked (checkedAddI64 a b) (a + b).
Proof. intros Ha Hb. rewrite (checked_add_spec a b Ha Hb). split; [reflexivity | apply wrap64_id]. Qed.

Lemma sub_checked a b : in64 a -> in64 b -> checked (checkedSubI64 a b) (a - b).
Proof. intros Ha Hb. rewrite (checked_sub_spec a b Ha Hb). split; [reflexivity | apply wrap64_id]. Qed.

Lemma mul_checked a b : in64 a -> in64 b -> checked (checkedMulI64 a b) (a * b).
Proof.
  intros Ha Hb. destruct (checked_mul_spec a b Ha Hb) as [Hs Hf].
  split; [exact Hs | intros H; apply Hf, in64b_spec, H].
Qed.

Lemma neg_checked a : in64 a -> checked (checkedNegI64 a) (- a).
Proof.
  intros Ha. rewrite (checked_neg_spec a Ha). split; [reflexivity|]. intros H. cbn [fst].
  rewrite (proj2 (in64b_spec _) H). apply wrap64_id, H.
Qed.

Lemma arith_agree op f r1 r2 :
  (forall a b, in64 a -> in64 b -> checked (op a b) (f a b)) -> res_ok r1 -> res_ok r2 ->
  agree (arith_eval r1 r2 op) (spec_arith r1 r2 f).
Proof.
  intros Hop O1 O2. unfold arith_eval, spec_arith. dres r1. dres r2.
  apply checked_agree; [apply Hop; apply in64b_spec; assumption | reflexivity].
Qed.

Lemma cmp_agree r1 r2 f g : (forall x y, f x y = g x y) -> agree (cmp_eval r1 r2 f) (spec_cmp r1 r2 g).
Proof.
  intros Hfg. unfold cmp_eval, spec_cmp.
  dres r1; dres r2; cbn; rewrite Hfg; triv.
Qed.

Lemma day_rem ms :
  (if gorem ms MillisPerDay <? 0 then wrap64 (gorem ms MillisPerDay + MillisPerDay) else gorem ms MillisPerDay)
  = ms mod MillisPerDay.
Proof.
  change MillisPerDay with 86400000. unfold gorem.
  pose proof (Z.rem_bound_abs ms 86400000 ltac:(discriminate)) as Hb.
  pose proof (Z.quot_rem' ms 86400000) as Hq.
  destruct (Z.rem ms 86400000 <? 0) eqn:E.
  - apply Z.ltb_lt in E. rewrite wrap64_id by (unf; lia).
    apply Z.mod_unique with (q := Z.quot ms 86400000 - 1); lia.
  - apply Z.ltb_ge in E. apply Z.mod_unique with (q := Z.quot ms 86400000); lia.
Qed.

Lemma day_mod_range ms : 0 <= ms mod MillisPerDay < 86400000.
Proof. change MillisPerDay with 86400000. apply Z.mod_pos_bound. reflexivity. Qed.

Lemma to_date_agree ms : in64 ms -> agree (to_date ms) (spec_to_date ms).
Proof.
  intros Hms. unfold to_date, spec_to_date. cbv zeta. rewrite day_rem.
  pose proof (day_mod_range ms) as Hr.
  replace (ms / MillisPerDay * MillisPerDay) with (ms - ms mod MillisPerDay)
    by (pose proof (Z.div_mod ms MillisPerDay ltac:(discriminate)); lia).
  apply checked_agree; [apply sub_checked; [exact Hms | unf; lia] | reflexivity].
Qed.

Lemma to_time_agree ms : agree (to_time ms) (spec_to_time ms).
Proof.
  unfold to_time, spec_to_time. cbv zeta. rewrite day_rem. split; [reflexivity|].
  pose proof (day_mod_range ms) as Hr. cbn [res_ok num_ok]. apply in64b_spec. unf. lia.
Qed.

(* truncating division by a positive constant stays between 0 and the dividend *)
Lemma goquot_id d c : in64 d -> 0 < c -> goquot d c = Z.quot d c /\ in64 (Z.quot d c).
Proof.
  intros Hd Hc. assert (H : Z.min d 0 <= Z.quot d c <= Z.max d 0).
  { split; [apply Z.quot_le_lower_bound | apply Z.quot_le_upper_bound]; nia. }
  assert (H' : in64 (Z.quot d c)) by (unf; lia).
  split; [apply wrap64_id|]; exact H'.
Qed.

(* c is the translated constant of Generated/Tables, c' the literal Spec.v writes: [reflexivity] compares them at the call *)
Lemma quot_agree r1 c c' : c = c' -> 0 < c -> res_ok r1 ->
  agree (bindr r1 (fun v => as_duration v (fun d => Ok (VLong (goquot d c)))))
        (sbind r1 (fun v => want_duration v (fun d => Ok (VLong (Z.quot d c'))))).
Proof.
  intros <- Hc O1. dres r1. cbn [bindr sbind as_duration want_duration].
  destruct (goquot_id z c (proj1 (in64b_spec z) O1) Hc) as [-> Hin].
  split; [reflexivity|]. cbn [res_ok num_ok]. apply in64b_spec. exact Hin.
Qed.

Lemma parse_datetime_in64 s z : parse_datetime s = Some z -> in64 z.
Proof.
  intros H. apply DatetimeProofs.datetime_parse_in_range in H.
  unfold in_dt_range, min_datetime_bound in H. apply andb_prop in H. destruct H as [H1 H2].
  apply Z.leb_le in H1, H2. unf. lia.
Qed.

Lemma in_one_spec st a b : in_one st a b = Some (spec_in_one st a b).
Proof.
  destruct (eval_in_one_correct st a b) as [r [Hr Hiff]]. rewrite Hr. f_equal.
  apply eq_true_iff_eq. rewrite Hiff. symmetry. apply spec_in_one_reach.
Qed.

Lemma in_set_spec st a bs : in_set st a bs = Some (spec_in_set st a bs).
Proof.
  destruct (eval_in_set_correct st a bs) as [r [Hr Hiff]]. rewrite Hr. f_equal.
  apply eq_true_iff_eq. rewrite Hiff. unfold spec_in_set. rewrite existsb_exists.
  split; intros [b [Hb H]]; exists b; (split; [exact Hb|]); apply spec_in_one_reach; exact H.
Qed.

Lemma do_in_spec st u w : do_in st u w = spec_in st u w.
Proof.
  destruct w; try reflexivity; cbn [do_in spec_in].
  - rewrite in_one_spec. reflexivity.
  - change (all_entities l) with (entities_of l). destruct (entities_of l) as [us|]; [|reflexivity].
    rewrite in_set_spec. reflexivity.
Qed.

Lemma do_in_agree st u w : agree (do_in st u w) (spec_in st u w).
Proof.
  split; [apply do_in_spec|]. rewrite do_in_spec. destruct w; try exact I; cbn [spec_in].
  - reflexivity.
  - destruct (entities_of l); [reflexivity | exact I].
Qed.

Definition fields_ok (l : list (str * value)) : bool := forallb (fun kv => num_ok (snd kv)) l.

Lemma mk_set_ok vs : Forall (fun v => res_ok (Ok v)) vs -> num_ok (mk_set vs) = true.
Proof.
  intros H. unfold mk_set. cbn [num_ok]. apply forallb_forall. intros x Hx.
  apply ValueProofs.dedup_incl in Hx. destruct Hx as [Hx|[]]. rewrite Forall_forall in H. apply H, Hx.
Qed.

(* Spec.v writes these two fixpoints out again, word for word *)
Lemma seq_res_eq : forall rs, seq_res rs = sseq rs.
Proof. reflexivity. Qed.

Lemma seq_rec_eq : forall rs, seq_rec rs = sseq_rec rs.
Proof. reflexivity. Qed.

(* what holds of every result of a list holds of the first error, or else of every value *)
Lemma seq_res_Forall (P : res -> Prop) : forall rs, Forall P rs ->
  match seq_res rs with inl e => P e | inr vs => Forall (fun v => P (Ok v)) vs end.
Proof.
  induction 1 as [|r rs Hr _ IH]; cbn [seq_res]; [constructor|].
  destruct r; [|exact Hr]. destruct (seq_res rs); [exact IH | constructor; assumption].
Qed.

Lemma seq_rec_Forall (P : res -> Prop) : forall rs : list (str * res), Forall (fun kr => P (snd kr)) rs ->
  match seq_rec rs with inl e => P e | inr fs => Forall (fun kv => P (Ok (snd kv))) fs end.
Proof.
  induction 1 as [|[k r] rs Hr _ IH]; cbn [seq_rec]; [constructor|].
  destruct r; [|exact Hr]. destruct (seq_rec rs); [exact IH | constructor; assumption].
Qed.

Lemma rec_get_ok k : forall l x, fields_ok l = true -> rec_get k l = Some x -> num_ok x = true.
Proof.
  induction l as [|[k' v] l IH]; intros x Hl Hg; cbn [rec_get] in Hg; [discriminate|].
  unfold fields_ok in Hl. cbn [forallb snd] in Hl. apply andb_prop in Hl. destruct Hl as [Hv Hl].
  destruct (str_eqb k k'); [inversion Hg; subst; exact Hv | apply IH; assumption].
Qed.

Definition store_ok (st : store) : Prop := forallb (fun ue : uid * entity => entity_ok (snd ue)) st = true.

Lemma lookup_ok : forall st u e, store_ok st -> lookup st u = Some e ->
  fields_ok (e_attrs e) = true /\ fields_ok (e_tags e) = true.
Proof.
  induction st as [|[k e'] st IH]; intros u e Hst Hl; cbn [lookup] in Hl; [discriminate|].
  unfold store_ok in Hst. cbn [forallb snd] in Hst. apply andb_prop in Hst. destruct Hst as [He Hst].
  destruct (uid_eqb k u); [inversion Hl; subst; apply andb_prop, He | eapply IH; eassumption].
Qed.

Lemma zero_uid_eq u : is_zero_uid u = unspecified u.
Proof. destruct u as [[|x t] [|y i]]; reflexivity. Qed.

Lemma get_attr_agree st v k : store_ok st -> num_ok v = true ->
  agree (get_attr st v k) (spec_get_attr st v k).
Proof.
  intros Hst Hv. destruct v; try triv; unfold get_attr, spec_get_attr.
  - rewrite <- zero_uid_eq. destruct (is_zero_uid (ty, id)); [triv|].
    destruct (lookup st (ty, id)) as [e|] eqn:El; [|triv].
    destruct (rec_get k (e_attrs e)) as [x|] eqn:Eg; [|triv].
    split; [reflexivity|]. eapply rec_get_ok; [|exact Eg]. apply (lookup_ok _ _ _ Hst El).
  - destruct (rec_get k l) as [x|] eqn:Eg; [|triv].
    split; [reflexivity|]. eapply rec_get_ok; [exact Hv | exact Eg].
Qed.

Lemma has_attr_agree st v k : agree (has_attr st v k) (spec_has_attr st v k).
Proof.
  destruct v; try triv; unfold has_attr, spec_has_attr.
  destruct (lookup st (ty, id)); triv.
Qed.

Lemma parse_agree (A : Type) (f : str -> option A) (mk : A -> value) r1 :
  (forall s x, f s = Some x -> num_ok (mk x) = true) ->
  agree (bindr r1 (fun v => as_string v (fun s => opt_res (f s) mk)))
        (sbind r1 (fun v => want_string v (fun s => sopt (f s) mk))).
Proof.
  intros Hf. dres r1. cbn [bindr sbind as_string want_string]. unfold opt_res, sopt.
  destruct (f s) as [x|] eqn:E; [|triv]. split; [reflexivity|]. eapply Hf. exact E.
Qed.

Lemma nth_res_Forall (P : res -> Prop) rs n : P (Err EArity) -> Forall P rs -> P (nth_res rs n).
Proof.
  intros Hd H. unfold nth_res. revert n. induction H as [|r rs Hr _ IH]; intros [|n]; cbn [nth]; auto.
Qed.

Lemma agree_if (b : bool) r r' s s' : agree r r' -> agree s s' -> agree (if b then r else s) (if b then r' else s').
Proof. destruct b; auto. Qed.

Lemma call_agree name rs : Forall res_ok rs -> agree (call_ext name rs) (spec_call name rs).
Proof.
  intros Hrs. unfold call_ext, spec_call.
  change sext_lookup with ext_lookup. change snth with nth_res. change sname with name_is.
  destruct (ext_lookup name) as [[ar fl]|]; [|triv].
  destruct (negb (Z.of_nat (length rs) =? ar)); [triv|].
  pose proof (nth_res_Forall res_ok rs 0 I Hrs) as O0. pose proof (nth_res_Forall res_ok rs 1 I Hrs) as O1.
  (* the two sides test the same names in the same order *)
  cbv zeta. generalize dependent (nth_res rs 1). generalize dependent (nth_res rs 0). intros a0 O0 a1 O1.
  apply agree_if. (* datetime *)
  { apply (parse_agree Z parse_datetime VDatetime). intros s x H. apply in64b_spec. eapply parse_datetime_in64. exact H. }
  apply agree_if. (* decimal *)
  { apply (parse_agree Z parse_decimal VDecimal). intros s x H. apply in64b_spec. eapply decimal_parse_in_range. exact H. }
  apply agree_if. (* duration *)
  { apply (parse_agree Z parse_duration VDuration). intros s x H. apply in64b_spec. eapply duration_parse_in_range. exact H. }
  apply agree_if. (* ip *)
  { apply (parse_agree _ parse_ip). intros s x H. reflexivity. }
  apply agree_if. (* lessThan *) { dres a0. dres a1. }
  apply agree_if. (* lessThanOrEqual *) { dres a0. dres a1. }
  apply agree_if. (* greaterThan *)
  { dres a0. dres a1. cbn [bindr sbind as_decimal want_decimal]. rewrite Z.gtb_ltb. triv. }
  apply agree_if. (* greaterThanOrEqual *)
  { dres a0. dres a1. cbn [bindr sbind as_decimal want_decimal]. rewrite Z.geb_leb. triv. }
  apply agree_if. (* isIpv4 *) { dres a0. }
  apply agree_if. (* isIpv6 *) { dres a0. }
  apply agree_if. (* isLoopback *) { dres a0. }
  apply agree_if. (* isMulticast *) { dres a0. }
  apply agree_if. (* isInRange *) { dres a0. dres a1. }
  apply agree_if. (* toDate *) { dres a0. apply to_date_agree, in64b_spec, O0. }
  apply agree_if. (* toTime *) { dres a0. apply to_time_agree. }
  apply agree_if. (* toMilliseconds *) { dres a0. }
  apply agree_if. (* toSeconds *) { apply quot_agree; [reflexivity | reflexivity | exact O0]. }
  apply agree_if. (* toMinutes *) { apply quot_agree; [reflexivity | reflexivity | exact O0]. }
  apply agree_if. (* toHours *) { apply quot_agree; [reflexivity | reflexivity | exact O0]. }
  apply agree_if. (* toDays *) { apply quot_agree; [reflexivity | reflexivity | exact O0]. }
  apply agree_if. (* offset *)
  { dres a0. dres a1. apply checked_agree; [apply add_checked; apply in64b_spec; assumption | reflexivity]. }
  apply agree_if. (* durationSince *)
  { dres a0. dres a1. apply checked_agree; [apply sub_checked; apply in64b_spec; assumption | reflexivity]. }
  triv.
Qed.

(* children that agree one by one; [h] rebuilds the (keyed) item from the child's result *)
Lemma map_agree (A B : Type) (h : A -> res -> B) (f g : A -> res) l :
  Forall (fun x => agree (f x) (g x)) l ->
  map (fun x => h x (f x)) l = map (fun x => h x (g x)) l /\ Forall (fun x => res_ok (f x)) l.
Proof.
  induction 1 as [|x l [E O] _ [IHe IHo]]; cbn [map]; [split; constructor|].
  split; [rewrite E, IHe; reflexivity | constructor; assumption].
Qed.

Section Main.
  Variable en : env.
  Hypothesis Hen : env_ok en = true.

  Lemma env_parts :
    num_ok (e_principal en) = true /\ num_ok (e_action en) = true /\ num_ok (e_resource en) = true /\
    num_ok (e_context en) = true /\ store_ok (e_store en).
  Proof.
    pose proof Hen as H. unfold env_ok in H. rewrite !andb_true_iff in H. unfold store_ok. tauto.
  Qed.

  Definition refines_at (e : expr) : Prop := expr_ok e = true -> agree (eval en e) (seval en e).

  Lemma kids_agree es : Forall refines_at es -> forallb expr_ok es = true ->
    map (eval en) es = map (seval en) es /\ Forall res_ok (map (eval en) es).
  Proof.
    intros H Hok. destruct (map_agree _ _ (fun _ r => r) _ _ _ (ValueProofs.Forall_forallb_mp _ _ _ H Hok)) as [Em Om].
    split; [exact Em | apply Forall_map, Om].
  Qed.

  (* [two]/[one]: the node has two/one children evaluated first; use their induction hypotheses and go on with
     their results as variables r1, r2 known to be res_ok *)
  Ltac two IHa IHb Hok :=
    cbn [expr_ok] in Hok; apply andb_prop in Hok;
    let Ha := fresh "Ha" in let Hb := fresh "Hb" in destruct Hok as [Ha Hb];
    let Ea := fresh "Ea" in let Oa := fresh "Oa" in let Eb := fresh "Eb" in let Ob := fresh "Ob" in
    destruct (IHa Ha) as [Ea Oa]; destruct (IHb Hb) as [Eb Ob];
    cbn [eval seval]; rewrite <- Ea, <- Eb; clear Ea Eb IHa IHb;
    revert Oa Ob;
    match goal with |- res_ok ?x -> res_ok ?y -> _ =>
      generalize x; let r1 := fresh "r1" in intros r1; generalize y; let r2 := fresh "r2" in intros r2 end.

  Ltac one IHa Hok :=
    cbn [expr_ok] in Hok;
    let Ea := fresh "Ea" in let Oa := fresh "Oa" in
    destruct (IHa Hok) as [Ea Oa];
    cbn [eval seval]; rewrite <- Ea; clear Ea IHa;
    revert Oa;
    match goal with |- res_ok ?x -> _ => generalize x; let r1 := fresh "r1" in intros r1 end.

  Theorem eval_good : forall e, refines_at e.
  Proof.
    induction e using expr_ind'; unfold refines_at in *; intros Hok.
    - (* ELit *) split; [reflexivity | exact Hok].
    - (* EVar *) split; [reflexivity|]. destruct x; cbn [eval var_value res_ok]; apply env_parts.
    - (* EAnd *) two IHe1 IHe2 Hok. intros O1 O2. dres r1. destruct b; [|triv]. dres r2.
    - (* EOr *) two IHe1 IHe2 Hok. intros O1 O2. dres r1. destruct b; [triv|]. dres r2.
    - (* ENot *) one IHe Hok. intros O1. dres r1.
    - (* ENeg *) one IHe Hok. intros O1. dres r1.
      apply checked_agree; [apply neg_checked, in64b_spec, O1 | reflexivity].
    - (* EAdd *) two IHe1 IHe2 Hok. apply arith_agree, add_checked.
    - (* ESub *) two IHe1 IHe2 Hok. apply arith_agree, sub_checked.
    - (* EMul *) two IHe1 IHe2 Hok. apply arith_agree, mul_checked.
    - (* EEq *) two IHe1 IHe2 Hok. intros O1 O2. destruct r1; [|triv]. destruct r2; triv.
    - (* ENe *) two IHe1 IHe2 Hok. intros O1 O2. destruct r1; [|triv]. destruct r2; triv.
    - (* ELt *) two IHe1 IHe2 Hok. intros _ _. apply cmp_agree. reflexivity.
    - (* ELe *) two IHe1 IHe2 Hok. intros _ _. apply cmp_agree. reflexivity.
    - (* EGt *) two IHe1 IHe2 Hok. intros _ _. apply cmp_agree. intros x y. symmetry. apply Z.ltb_antisym.
    - (* EGe *) two IHe1 IHe2 Hok. intros _ _. apply cmp_agree. intros x y. symmetry. apply Z.leb_antisym.
    - (* EIn *) two IHe1 IHe2 Hok. intros O1 O2. dres r1. destruct r2; [|triv]. apply do_in_agree.
    - (* EContains *) two IHe1 IHe2 Hok. intros O1 O2. dres r1. destruct r2; triv.
    - (* EContainsAll *) two IHe1 IHe2 Hok. intros O1 O2. dres r1. dres r2.
    - (* EContainsAny *) two IHe1 IHe2 Hok. intros O1 O2. dres r1. dres r2.
    - (* EIsEmpty *) one IHe Hok. intros O1. dres r1.
    - (* EAccess *) one IHe Hok. intros O1. destruct r1 as [v|]; [|triv].
      apply get_attr_agree; [apply env_parts | exact O1].
    - (* EHas *) one IHe Hok. intros O1. destruct r1 as [v|]; [|triv]. apply has_attr_agree.
    - (* EGetTag *) two IHe1 IHe2 Hok. intros O1 O2. dres r1.
      cbn [bindr sbind as_entity want_entity]. rewrite <- zero_uid_eq.
      destruct (is_zero_uid (ty, id)); [triv|]. dres r2. cbn [bindr sbind as_string want_string].
      destruct (lookup (e_store en) (ty, id)) as [ent|] eqn:El; [|triv].
      destruct (rec_get s (e_tags ent)) as [x|] eqn:Eg; [|triv].
      split; [reflexivity|]. eapply rec_get_ok; [|exact Eg]. eapply lookup_ok; [apply env_parts | exact El].
    - (* EHasTag *) two IHe1 IHe2 Hok. intros O1 O2. dres r1. dres r2.
      cbn [bindr sbind as_entity want_entity as_string want_string].
      destruct (lookup (e_store en) (ty, id)); triv.
    - (* ELike *) cbn [expr_ok] in Hok. apply andb_prop in Hok. destruct Hok as [Hok Hp].
      one IHe Hok. intros O1. dres r1. cbn [bindr sbind as_string want_string].
      rewrite (like_agree p s Hp). triv.
    - (* EIs *) one IHe Hok. intros O1. dres r1.
    - (* EIsIn *) two IHe1 IHe2 Hok. intros O1 O2. dres r1.
      cbn [bindr sbind as_entity want_entity fst]. destruct (str_eqb ty0 ty); cbn [negb]; [|triv].
      destruct r2; [|triv]. apply do_in_agree.
    - (* EIf *) cbn [expr_ok] in Hok. apply andb_prop in Hok. destruct Hok as [Hok H3].
      apply andb_prop in Hok. destruct Hok as [H1 H2].
      destruct (IHe1 H1) as [E1 O1]. destruct (IHe2 H2) as [E2 O2]. destruct (IHe3 H3) as [E3 O3].
      cbn [eval seval]. rewrite <- E1, <- E2, <- E3. clear E1 E2 E3.
      destruct (eval en e1) as [v|]; [|triv]. destruct v; try triv.
      destruct b; (split; [reflexivity | assumption]).
    - (* ESet *) destruct (kids_agree es H Hok) as [Em Om].
      cbn [eval seval]. rewrite <- Em. change sseq with seq_res.
      apply (seq_res_Forall res_ok) in Om. destruct (seq_res _) as [e|vs].
      + split; [reflexivity | exact Om].
      + split; [reflexivity | apply mk_set_ok; exact Om].
    - (* ERecord *)
      destruct (map_agree _ _ (fun kv r => (fst kv, r)) _ _ _ (ValueProofs.Forall_forallb_mp _ _ _ H Hok)) as [Em Om].
      cbn [eval seval]. rewrite <- Em. change sseq_rec with seq_rec.
      apply (Forall_map (fun kv => (fst kv, eval en (snd kv))) (fun kr => res_ok (snd kr))) in Om.
      apply (ValueProofs.rec_of_list_Forall res_ok), (seq_rec_Forall res_ok) in Om. destruct (seq_rec _) as [e|fs].
      + split; [reflexivity | exact Om].
      + split; [reflexivity | apply forallb_forall, Forall_forall, Om].
    - (* ECall *) destruct (kids_agree args H Hok) as [Em Om].
      cbn [eval seval]. rewrite <- Em. apply call_agree, Om.
    - (* EPartialError *) triv.
  Qed.
End Main.

Theorem eval_refines_spec : forall en e, env_ok en = true -> expr_ok e = true -> eval en e = seval en e.
Proof. intros en e Hen He. apply (eval_good en Hen e He). Qed.

Theorem eval_preserves_num_ok : forall en e v,
  env_ok en = true -> expr_ok e = true -> eval en e = Ok v -> num_ok v = true.
Proof.
  intros en e v Hen He Hv. destruct (eval_good en Hen e He) as [_ H]. rewrite Hv in H. exact H.
Qed.

(* [EPartialError EFuel] evaluates to [Err EFuel] by definition of eval, so the statement needs the side
   condition that the expression does not contain that node (the translator never produces it: EFuel is the
   model's own error class, no Go error maps to it). *)
Definition not_fuel (k : errk) : bool := match k with EFuel => false | _ => true end.

Fixpoint no_fuel_node (e : expr) : bool :=
  match e with
  | ELit _ | EVar _ => true
  | EAnd a b | EOr a b | EAdd a b | ESub a b | EMul a b | EEq a b | ENe a b
  | ELt a b | ELe a b | EGt a b | EGe a b | EIn a b
  | EContains a b | EContainsAll a b | EContainsAny a b
  | EGetTag a b | EHasTag a b => no_fuel_node a && no_fuel_node b
  | ENot a | ENeg a | EIsEmpty a | EAccess a _ | EHas a _ | EIs a _ | ELike a _ => no_fuel_node a
  | EIsIn a _ b => no_fuel_node a && no_fuel_node b
  | EIf c t f => no_fuel_node c && no_fuel_node t && no_fuel_node f
  | ESet es => forallb no_fuel_node es
  | ERecord kvs => forallb (fun kv => no_fuel_node (snd kv)) kvs
  | ECall _ args => forallb no_fuel_node args
  | EPartialError k => not_fuel k
  end.

Example fuel_counterexample : forall en, eval en (EPartialError EFuel) = Err EFuel.
Proof. reflexivity. Qed.

Definition nf (r : res) : Prop := match r with Err EFuel => False | _ => True end.

Lemma nf_bindr r f : nf r -> (forall v, nf (f v)) -> nf (bindr r f).
Proof. intros H Hf. destruct r; [apply Hf | exact H]. Qed.

Lemma nf_if (b : bool) r s : nf r -> nf s -> nf (if b then r else s).
Proof. destruct b; auto. Qed.

(* the one place where the evaluator can make EFuel: the searches, which have fuel enough *)
Lemma do_in_nf st u w : nf (do_in st u w).
Proof.
  rewrite do_in_spec. destruct w; try exact I; cbn [spec_in].
  destruct (entities_of l); exact I.
Qed.

Section NoFuel.
  (* Everywhere else an operator neither makes EFuel nor looks at the error it is handed: it binds the results of
     its children and branches on values.  So [nf] is shown by going down the term: below [bindr] it is wanted of
     the bound result and of the continuation, below a match of every branch. *)
  Ltac nf_tac :=
    cbv beta zeta delta [as_bool as_long as_string as_set as_entity as_decimal as_datetime as_duration as_ip
                         arith_eval cmp_eval get_attr has_attr to_date to_time opt_res];
    repeat lazymatch goal with
           | |- nf (bindr _ _) => apply nf_bindr; [|intros ?]
           | |- nf (do_in _ _ _) => apply do_in_nf
           | |- nf (if _ then _ else _) => apply nf_if
           | |- nf (match ?x with _ => _ end) => destruct x
           | |- _ => first [exact I | solve [auto]]
           end.

  Lemma call_nf name rs : Forall nf rs -> nf (call_ext name rs).
  Proof.
    intros Hrs. pose proof (nth_res_Forall nf rs 0 I Hrs). pose proof (nth_res_Forall nf rs 1 I Hrs).
    unfold call_ext. nf_tac.
  Qed.

  Variable en : env.

  Theorem eval_nf : forall e, no_fuel_node e = true -> nf (eval en e).
  Proof.
    induction e using expr_ind'; cbn [no_fuel_node eval]; intros Hok;
      repeat (apply andb_prop in Hok as [Hok ?]); try solve [nf_tac].
    - (* ESet *) apply ValueProofs.Forall_forallb_mp with (1 := H), Forall_map, (seq_res_Forall nf) in Hok.
      destruct (seq_res _); [exact Hok | exact I].
    - (* ERecord *) apply ValueProofs.Forall_forallb_mp with (1 := H) in Hok.
      apply (Forall_map (fun kv => (fst kv, eval en (snd kv))) (fun kr => nf (snd kr))) in Hok.
      apply (ValueProofs.rec_of_list_Forall nf), (seq_rec_Forall nf) in Hok. destruct (seq_rec _); [exact Hok | exact I].
    - (* ECall *) apply call_nf, Forall_map, ValueProofs.Forall_forallb_mp with (1 := H), Hok.
    - (* EPartialError *) destruct k; (exact I || discriminate Hok).
  Qed.
End NoFuel.

Theorem eval_never_out_of_fuel : forall en e, no_fuel_node e = true -> eval en e <> Err EFuel.
Proof. intros en e H E. pose proof (eval_nf en e H) as N. rewrite E in N. exact N. Qed.

Definition es_ent (ps : list uid) : entity := {| e_parents := ps; e_attrs := []; e_tags := [] |}.
Definition es_u (t i : string) : uid := (s_of t, s_of i).
Definition es_v (t i : string) : value := VEntity (s_of t) (s_of i).

(* alice -> devs -> eng -> all, plus an unrelated group; devs also points back to alice (a cycle) *)
Definition es_store : store :=
  [ (es_u "User" "alice", es_ent [es_u "Group" "devs"]);
    (es_u "Group" "devs", es_ent [es_u "Group" "eng"; es_u "User" "alice"]);
    (es_u "Group" "eng", es_ent [es_u "Group" "all"]);
    (es_u "Group" "all", es_ent []);
    (es_u "Group" "ops", es_ent [es_u "Group" "all"]) ].

Definition es_env : env :=
  {| e_store := es_store; e_principal := es_v "User" "alice"; e_action := es_v "Action" "view";
     e_resource := es_v "Doc" "d1"; e_context := VRecord [] |}.

(* if 3 * 4 < 13 then 9223372036854775807 + 1 else false : the addition overflows on both sides *)
Definition ex_overflow : expr :=
  EIf (ELt (EMul (ELit (VLong 3)) (ELit (VLong 4))) (ELit (VLong 13)))
      (EAdd (ELit (VLong 9223372036854775807)) (ELit (VLong 1)))
      (ELit (VBool false)).

Example ex_overflow_agree :
  eval es_env ex_overflow = Err EOverflow /\ seval es_env ex_overflow = Err EOverflow /\
  env_ok es_env = true /\ expr_ok ex_overflow = true.
Proof. vm_compute. auto. Qed.

(* the same with 9223372036854775807 + (-1): both give the exact sum *)
Example ex_no_overflow_agree :
  let e := EAdd (ELit (VLong 9223372036854775807)) (ENeg (ELit (VLong 1))) in
  eval es_env e = Ok (VLong 9223372036854775806) /\ seval es_env e = Ok (VLong 9223372036854775806).
Proof. vm_compute. auto. Qed.

(* principal in Group::"all" (three levels up), principal in Group::"ops" (unrelated),
   principal in [Group::"ops", Group::"eng"] *)
Example ex_in_agree :
  let e1 := EIn (EVar VPrincipal) (ELit (es_v "Group" "all")) in
  let e2 := EIn (EVar VPrincipal) (ELit (es_v "Group" "ops")) in
  let e3 := EIn (EVar VPrincipal) (ESet [ELit (es_v "Group" "ops"); ELit (es_v "Group" "eng")]) in
  eval es_env e1 = Ok (VBool true) /\ seval es_env e1 = Ok (VBool true) /\
  eval es_env e2 = Ok (VBool false) /\ seval es_env e2 = Ok (VBool false) /\
  eval es_env e3 = Ok (VBool true) /\ seval es_env e3 = Ok (VBool true).
Proof. vm_compute. repeat split. Qed.

Print Assumptions spec_in_one_reach.
Print Assumptions eval_refines_spec.
Print Assumptions eval_preserves_num_ok.
Print Assumptions eval_never_out_of_fuel.
Print Assumptions compile_pattern_wfb.
