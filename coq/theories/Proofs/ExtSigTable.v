(* The typechecker's extension signatures are the ones the code declares.

   Generated/Tables.v carries `tc_ext_table`, which the translator reads off the map literal extFuncTypes of
   x/exp/schema/validate/ext_funcs.go on every run (name, constructor flag, argument types, return type) and `ext_table`, read off
   internal/extensions/extensions.go (the evaluator's table: name, arity, method flag).  Impl/TypeCheck.ext_sig is the hand-written
   if-chain the soundness proof (C15_strict_sound) is about.  Here:

   - `ext_sig_is_generated_table`: ext_sig answers, for EVERY name (not only the listed ones), exactly what a lookup in the generated
     table answers - so a change of a signature in the code (an argument or return type, the constructor flag, a function added or
     dropped) breaks this theorem, and with it the C15 obligation, before any test input is drawn;
   - `typechecker_and_evaluator_agree_on_functions`: the two tables declare the same functions with the same number of arguments, and
     "is a constructor" in the typechecker is "is not a method" in the evaluator. *)
From Coq Require Import ZArith List Bool String Lia.
From Cedar Require Import Lang.Value Impl.Like Lang.Expr Generated.Tables Impl.TypeCheck Proofs.ValueProofs.
Import ListNotations.
Local Open Scope string_scope.

Definition cty_of_tag (t : string) : option cty :=
  if String.eqb t "String" then Some CString
  else if String.eqb t "Bool" then Some CBool
  else if String.eqb t "Long" then Some CLong
  else if String.prefix "ext:" t then Some (CExt (s_of (String.substring 4 (String.length t - 4) t)))
  else None.

Fixpoint ctys_of_tags (ts : list string) : option (list cty) :=
  match ts with
  | [] => Some []
  | t :: r => match cty_of_tag t, ctys_of_tags r with Some c, Some cs => Some (c :: cs) | _, _ => None end
  end.

(* the lookup the Go code does: extFuncTypes[name] *)
Fixpoint table_sig (tb : list (string * (bool * list string * string))) (name : str) : option (bool * list cty * cty) :=
  match tb with
  | [] => None
  | (n, (ctor, args, ret)) :: r =>
    if nm name n then
      match ctys_of_tags args, cty_of_tag ret with
      | Some a, Some t => Some (ctor, a, t)
      | _, _ => None
      end
    else table_sig r name
  end.

(* every entry of the generated table is inside the fragment the model speaks of *)
Definition entry_translates (e : string * (bool * list string * string)) : bool :=
  match e with (_, (_, args, ret)) =>
    match ctys_of_tags args, cty_of_tag ret with Some _, Some _ => true | _, _ => false end
  end.

Lemma tc_ext_table_translates : forallb entry_translates tc_ext_table = true.
Proof. vm_compute. reflexivity. Qed.

Lemma nm_true_eq name n : nm name n = true -> name = s_of n.
Proof.
  unfold nm. intros H. apply str_eqb_eq in H. symmetry. exact H.
Qed.

Lemma named_or_not (names : list string) name :
  (exists n, In n names /\ name = s_of n) \/ (forall n, In n names -> nm name n = false).
Proof.
  induction names as [|n names [(m & Hm & E)|IH]].
  - right. intros n [].
  - left. exists m. split; [right; exact Hm | exact E].
  - destruct (nm name n) eqn:E.
    + left. exists n. split; [left; reflexivity | apply nm_true_eq, E].
    + right. intros m [<-|Hm]; [exact E | apply IH, Hm].
Qed.

Lemma table_sig_none tb name : (forall n, In n (map fst tb) -> nm name n = false) -> table_sig tb name = None.
Proof.
  induction tb as [|[n [[ctor args] ret]] tb IH]; intros H; cbn [table_sig]; [reflexivity|].
  rewrite (H n (or_introl eq_refl)). apply IH. intros m Hm. apply H. right. exact Hm.
Qed.

(* A name is the name of a row or matches none.  On the names of the rows the two sides are closed terms, compared by evaluation;
   on every other name all the tests `nm name _` of ext_sig fail, as all tests of the lookup do. *)
Theorem ext_sig_is_generated_table : forall name, ext_sig name = table_sig tc_ext_table name.
Proof.
  intros name. destruct (named_or_not (map fst tc_ext_table) name) as [(n & Hn & ->)|H].
  - revert n Hn. apply map_ext_in_iff. vm_compute. reflexivity.
  - rewrite (table_sig_none _ _ H). unfold ext_sig. rewrite !H by (apply (existsb_eqb_In String.eqb String.eqb_eq); reflexivity). reflexivity.
Qed.

(* row by row and in the same order: name, number of arguments, "is a method" = not "is a constructor" *)
Theorem typechecker_and_evaluator_agree_on_functions :
  map (fun e => (fst e, (Z.of_nat (List.length (snd (fst (snd e)))), negb (fst (fst (snd e)))))) tc_ext_table = ext_table.
Proof. vm_compute. reflexivity. Qed.

Theorem tc_ext_table_names_distinct : NoDup (map fst tc_ext_table).
Proof.
  replace (map fst tc_ext_table) with (nodup string_dec (map fst tc_ext_table)) by (vm_compute; reflexivity).
  apply NoDup_nodup.
Qed.

(* non-vacuity: the table is not empty, and a lookup succeeds *)
Example tc_ext_table_lookup : table_sig tc_ext_table (s_of "offset") = Some (false, [xt "datetime"; xt "duration"], xt "datetime").
Proof. vm_compute. reflexivity. Qed.
