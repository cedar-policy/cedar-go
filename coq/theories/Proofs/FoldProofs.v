(* Constant folding (Impl/Fold.v, model of internal/eval/fold.go) never changes the meaning of an
   expression: for every fold table satisfying the boolean side condition [fold_table_sound], folding
   preserves evaluation exactly (same value or same error) in every environment.  The side conditions
   are checked by computation for the tables generated from the Go source. *)
From Coq Require Import ZArith List Bool String.
Import ListNotations.
From Cedar Require Import Lang.Value Lang.Expr Impl.Like Impl.Eval Generated.Tables Impl.Fold.
Local Open Scope string_scope.

Theorem toeval_table_generated_ok : toeval_table_ok toeval_table = true.
Proof. vm_compute. reflexivity. Qed.

Theorem fold_table_generated_sound : fold_table_sound toeval_table fold_table = true.
Proof. vm_compute. reflexivity. Qed.

Lemma is_lit_inv : forall a, is_lit a = true -> exists v, a = ELit v.
Proof.
  intros a H. destruct a; cbn [is_lit] in H; try discriminate H. eexists. reflexivity.
Qed.

Lemma lit_closed : forall e en, is_lit e = true -> eval en e = eval empty_env e.
Proof. intros e en H. destruct (is_lit_inv e H) as [v ->]. reflexivity. Qed.

Lemma lits_inv : forall es, forallb is_lit es = true -> exists vs, es = List.map ELit vs.
Proof.
  induction es as [|e es IH]; cbn [forallb]; intros H; [exists []; reflexivity|].
  apply andb_prop in H. destruct (is_lit_inv e (proj1 H)) as [v ->], (IH (proj2 H)) as [vs ->].
  exists (v :: vs). reflexivity.
Qed.

Lemma map_eval_lits : forall es en, forallb is_lit es = true ->
  List.map (eval en) es = List.map (eval empty_env) es.
Proof. intros es en H. destruct (lits_inv es H) as [vs ->]. rewrite !map_map. reflexivity. Qed.

Lemma map_eval_lits_rec : forall (kvs : list (str * expr)) en,
  forallb is_lit (List.map snd kvs) = true ->
  List.map (fun kv => (fst kv, eval en (snd kv))) kvs =
  List.map (fun kv => (fst kv, eval empty_env (snd kv))) kvs.
Proof.
  intros kvs en H. apply map_ext_in. intros kv Hkv.
  rewrite (lit_closed (snd kv) en); [reflexivity|]. apply (proj1 (forallb_forall _ _) H), in_map, Hkv.
Qed.

Section FoldSound.
  Variable ftab : list (string * (list string * bool)).
  Hypothesis Hsound : fold_table_sound toeval_table ftab = true.

  Lemma fold_entry_is_sound : forall n cs g,
    fold_entry ftab n = Some (cs, g) -> fold_entry_sound toeval_table (n, (cs, g)) = true.
  Proof.
    intros n cs g. unfold fold_entry.
    destruct (find (fun e => String.eqb (fst e) n) ftab) as [[n' [cs' g']]|] eqn:Hf;
      cbn [option_map snd]; intros H; inversion H; subst cs' g'.
    apply find_some in Hf. destruct Hf as [Hin Heq]. apply String.eqb_eq in Heq. cbn [fst] in Heq. subst n'.
    unfold fold_table_sound in Hsound. rewrite forallb_forall in Hsound. exact (Hsound _ Hin).
  Qed.

  (* a node type that is folded is not environment dependent, and is guarded if it is Access/Has *)
  Lemma folds_facts : forall n, folds ftab n = true ->
    mem_str n env_dependent = false /\
    (mem_str n entity_dependent = true -> guards ftab n = true).
  Proof.
    intros n. unfold folds, guards.
    destruct (fold_entry ftab n) as [[cs g]|] eqn:He; [|intros Hf; discriminate Hf].
    intros Hf. apply negb_true_iff in Hf.
    pose proof (fold_entry_is_sound _ _ _ He) as Hs.
    unfold fold_entry_sound in Hs. cbv beta iota zeta in Hs. rewrite Hf in Hs.
    apply andb_prop in Hs. destruct Hs as [Hs H3]. apply andb_prop in Hs. destruct Hs as [_ H2].
    split; [apply negb_true_iff, H2|].
    intros Hm. rewrite Hm in H3. apply andb_prop in H3. apply H3.
  Qed.

  (* try_fold is meaning preserving as soon as the node, when it is folded, is environment irrelevant *)
  Lemma try_fold_ok : forall n kids e,
    (folds ftab n = true -> forallb is_lit kids = true ->
     (guards ftab n = true -> existsb is_entity_lit kids = false) ->
     forall en, eval en e = eval empty_env e) ->
    forall en, eval en (try_fold ftab n kids e) = eval en e.
  Proof.
    intros n kids e H en. unfold try_fold.
    destruct (folds ftab n) eqn:Hf; [|reflexivity].
    destruct (forallb is_lit kids) eqn:Hl; [|reflexivity].
    cbn [andb].
    destruct (negb (guards ftab n && existsb is_entity_lit kids)) eqn:Hg; [|reflexivity].
    destruct (eval empty_env e) as [v|k] eqn:Hev; [|reflexivity].
    cbn [eval]. rewrite (H eq_refl eq_refl); [reflexivity|].
    intros Hgd. rewrite Hgd in Hg. apply negb_true_iff in Hg. exact Hg.
  Qed.

  (* environment dependent node types are never folded *)
  Lemma tf_env : forall n kids e, mem_str n env_dependent = true -> try_fold ftab n kids e = e.
  Proof.
    intros n kids e Hm. unfold try_fold.
    destruct (folds ftab n) eqn:Hf; [|reflexivity].
    apply folds_facts in Hf. destruct Hf as [H1 _]. rewrite H1 in Hm. discriminate Hm.
  Qed.

  (* nodes with one, two, three children: enough that over literal children the node is environment irrelevant *)
  Lemma tf_un : forall n (C : expr -> expr) a,
    (forall v en, eval en (C (ELit v)) = eval empty_env (C (ELit v))) ->
    forall en, eval en (try_fold ftab n [a] (C a)) = eval en (C a).
  Proof.
    intros n C a HC. apply try_fold_ok. intros _ Hl _ en.
    destruct (lits_inv _ Hl) as [[|v [|]] E]; inversion E. apply HC.
  Qed.

  Lemma tf_bin : forall n (C : expr -> expr -> expr) a b,
    (forall va vb en, eval en (C (ELit va) (ELit vb)) = eval empty_env (C (ELit va) (ELit vb))) ->
    forall en, eval en (try_fold ftab n [a; b] (C a b)) = eval en (C a b).
  Proof.
    intros n C a b HC. apply try_fold_ok. intros _ Hl _ en.
    destruct (lits_inv _ Hl) as [[|va [|vb [|]]] E]; inversion E. apply HC.
  Qed.

  Lemma tf_tern : forall n (C : expr -> expr -> expr -> expr) a b c,
    (forall va vb vc en, eval en (C (ELit va) (ELit vb) (ELit vc)) =
                         eval empty_env (C (ELit va) (ELit vb) (ELit vc))) ->
    forall en, eval en (try_fold ftab n [a; b; c] (C a b c)) = eval en (C a b c).
  Proof.
    intros n C a b c HC. apply try_fold_ok. intros _ Hl _ en.
    destruct (lits_inv _ Hl) as [[|va [|vb [|vc [|]]]] E]; inversion E. apply HC.
  Qed.

  Definition non_entity (v : value) : Prop := match v with VEntity _ _ => False | _ => True end.

  (* Access / Has: folded only under the EntityUID guard *)
  Lemma tf_ent : forall n (C : expr -> expr) a,
    mem_str n entity_dependent = true ->
    (forall v en, non_entity v -> eval en (C (ELit v)) = eval empty_env (C (ELit v))) ->
    forall en, eval en (try_fold ftab n [a] (C a)) = eval en (C a).
  Proof.
    intros n C a Hm HC. apply try_fold_ok. intros Hf Hl Hg en.
    destruct (folds_facts _ Hf) as [_ Hgd]. specialize (Hg (Hgd Hm)).
    destruct (lits_inv _ Hl) as [[|v [|]] E]; inversion E; subst a.
    apply HC. destruct v; try exact I. discriminate Hg.
  Qed.

  (* evaluate one step and use the induction hypotheses on the children *)
  Ltac by_IH :=
    cbn [eval]; repeat match goal with H : eval _ (fold _ _) = _ |- _ => rewrite H; clear H end; reflexivity.

  Lemma fold_preserves_eval_sec : forall e en, eval en (fold ftab e) = eval en e.
  Proof.
    intros e en. induction e using expr_ind'; cbn [fold].
    - (* Lit *) reflexivity.
    - (* Var *) reflexivity.
    - (* And *) rewrite tf_bin by reflexivity. by_IH.
    - (* Or *) rewrite tf_bin by reflexivity. by_IH.
    - (* Not *) rewrite tf_un by reflexivity. by_IH.
    - (* Negate *) rewrite tf_un by reflexivity. by_IH.
    - (* Add *) rewrite tf_bin by reflexivity. by_IH.
    - (* Sub *) rewrite tf_bin by reflexivity. by_IH.
    - (* Mult *) rewrite tf_bin by reflexivity. by_IH.
    - (* Equals *) rewrite tf_bin by reflexivity. by_IH.
    - (* NotEquals *) rewrite tf_bin by reflexivity. by_IH.
    - (* LessThan *) rewrite tf_bin by reflexivity. by_IH.
    - (* LessThanOrEqual *) rewrite tf_bin by reflexivity. by_IH.
    - (* GreaterThan *) rewrite tf_bin by reflexivity. by_IH.
    - (* GreaterThanOrEqual *) rewrite tf_bin by reflexivity. by_IH.
    - (* In *) rewrite tf_env by reflexivity. by_IH.
    - (* Contains *) rewrite tf_bin by reflexivity. by_IH.
    - (* ContainsAll *) rewrite tf_bin by reflexivity. by_IH.
    - (* ContainsAny *) rewrite tf_bin by reflexivity. by_IH.
    - (* IsEmpty *) rewrite tf_un by reflexivity. by_IH.
    - (* Access: a non-entity literal operand is a record or a type error, the store is not read *)
      rewrite (tf_ent _ (fun x => EAccess x k)) by (reflexivity || (intros [] ? []; reflexivity)). by_IH.
    - (* Has *) rewrite (tf_ent _ (fun x => EHas x k)) by (reflexivity || (intros [] ? []; reflexivity)). by_IH.
    - (* GetTag *) rewrite tf_env by reflexivity. by_IH.
    - (* HasTag *) rewrite tf_env by reflexivity. by_IH.
    - (* Like *) rewrite (tf_un _ (fun x => ELike x p)) by reflexivity. by_IH.
    - (* Is *) rewrite (tf_un _ (fun x => EIs x ty)) by reflexivity. by_IH.
    - (* IsIn *) rewrite tf_env by reflexivity. by_IH.
    - (* IfThenElse *) rewrite tf_tern by reflexivity. by_IH.
    - (* Set *) rewrite try_fold_ok.
      + cbn [eval]. rewrite map_map, (map_ext_Forall _ _ H). reflexivity.
      + intros _ Hl _ en'. cbn [eval]. rewrite (map_eval_lits _ en' Hl). reflexivity.
    - (* Record *) rewrite try_fold_ok.
      + cbn [eval]. rewrite map_map. cbn [fst snd].
        rewrite (map_ext_Forall _ (fun kv : str * expr => (fst kv, eval en (snd kv))) (l := kvs)); [reflexivity|].
        eapply Forall_impl; [|exact H]. intros kv Hkv. cbv beta in Hkv. rewrite Hkv. reflexivity.
      + intros _ Hl _ en'. cbn [eval]. rewrite (map_eval_lits_rec _ en' Hl). reflexivity.
    - (* ExtensionCall *) rewrite try_fold_ok.
      + cbn [eval]. rewrite map_map, (map_ext_Forall _ _ H). reflexivity.
      + intros _ Hl _ en'. cbn [eval]. rewrite (map_eval_lits _ en' Hl). reflexivity.
    - (* PartialError *) reflexivity.
  Qed.

  Lemma and_all_eval en : forall es es' e e',
    eval en e = eval en e' -> List.map (eval en) es = List.map (eval en) es' ->
    eval en (and_all e es) = eval en (and_all e' es').
  Proof.
    induction es as [|x es IH]; intros [|y es'] e e' He H; try discriminate H; cbn [and_all]; [exact He|].
    injection H as Hx H. cbn [eval]. rewrite He, (IH _ _ _ Hx H). reflexivity.
  Qed.

  Lemma fold_policy_preserves_eval_sec : forall en p,
    eval en (policy_to_expr (fold_policy ftab p)) = eval en (policy_to_expr p).
  Proof.
    intros en p.
    assert (H : List.map (eval en) (policy_nodes (fold_policy ftab p)) = List.map (eval en) (policy_nodes p)).
    { unfold policy_nodes. cbn [fold_policy p_principal p_action p_resource p_conds].
      rewrite !map_app, !map_map. f_equal. apply map_ext.
      intros [[] c]; cbn [fst snd eval]; rewrite fold_preserves_eval_sec; reflexivity. }
    unfold policy_to_expr.
    destruct (policy_nodes (fold_policy ftab p)), (policy_nodes p); try discriminate H; [reflexivity|].
    injection H. intros Hes He. apply and_all_eval; assumption.
  Qed.
End FoldSound.

Theorem fold_preserves_eval : forall ftab,
  toeval_table_ok toeval_table = true -> fold_table_sound toeval_table ftab = true ->
  forall en e, eval en (fold ftab e) = eval en e.
Proof.
  intros ftab _ Hs en e. apply fold_preserves_eval_sec. exact Hs.
Qed.

Theorem fold_policy_preserves_outcome : forall ftab,
  toeval_table_ok toeval_table = true -> fold_table_sound toeval_table ftab = true ->
  forall en p, bool_eval en (policy_to_expr (fold_policy ftab p)) = bool_eval en (policy_to_expr p).
Proof.
  intros ftab _ Hs en p. unfold bool_eval.
  rewrite (fold_policy_preserves_eval_sec ftab Hs en p). reflexivity.
Qed.

Corollary fold_generated_preserves_eval : forall en e, eval en (fold fold_table e) = eval en e.
Proof.
  intros en e.
  exact (fold_preserves_eval fold_table toeval_table_generated_ok fold_table_generated_sound en e).
Qed.

Corollary fold_policy_generated_preserves_outcome : forall en p,
  bool_eval en (policy_to_expr (fold_policy fold_table p)) = bool_eval en (policy_to_expr p).
Proof.
  intros en p.
  exact (fold_policy_preserves_outcome fold_table toeval_table_generated_ok fold_table_generated_sound en p).
Qed.

(* The side condition is not vacuous: a table that folds an environment dependent node type is
   rejected, and folding with it really would change meaning. *)
Definition bad_fold_table : list (string * (list string * bool)) :=
  [("NodeTypeIn", (["newInEval"], false))].

Example bad_table_rejected : fold_table_sound toeval_table bad_fold_table = false.
Proof. vm_compute. reflexivity. Qed.

Definition ex_ua : uid := (s_of "User", s_of "a").
Definition ex_ub : uid := (s_of "User", s_of "b").
Definition ex_in : expr := EIn (ELit (VEntity (fst ex_ua) (snd ex_ua))) (ELit (VEntity (fst ex_ub) (snd ex_ub))).
Definition ex_env : env :=
  {| e_store := [(ex_ua, {| e_parents := [ex_ub]; e_attrs := []; e_tags := [] |})];
     e_principal := VBool false; e_action := VBool false; e_resource := VBool false; e_context := VBool false |}.

Example bad_table_changes_meaning :
  fold bad_fold_table ex_in = ELit (VBool false) /\
  eval ex_env ex_in = Ok (VBool true) /\
  eval ex_env (fold bad_fold_table ex_in) = Ok (VBool false).
Proof. vm_compute. repeat split; reflexivity. Qed.

Example fold_add_1_2 :
  fold fold_table (EAdd (ELit (VLong 1)) (ELit (VLong 2))) = ELit (VLong 3).
Proof. vm_compute. reflexivity. Qed.

Example fold_add_overflow_kept :
  fold fold_table (EAdd (ELit (VLong 9223372036854775807)) (ELit (VLong 1))) =
  EAdd (ELit (VLong 9223372036854775807)) (ELit (VLong 1)).
Proof. vm_compute. reflexivity. Qed.

Example fold_nested :
  fold fold_table (EMul (EAdd (ELit (VLong 1)) (ELit (VLong 2))) (EVar VContext)) =
  EMul (ELit (VLong 3)) (EVar VContext).
Proof. vm_compute. reflexivity. Qed.

Example fold_in_kept :
  fold fold_table (EIn (ELit (VEntity (s_of "User") (s_of "a"))) (ELit (VEntity (s_of "User") (s_of "b")))) =
  EIn (ELit (VEntity (s_of "User") (s_of "a"))) (ELit (VEntity (s_of "User") (s_of "b"))).
Proof. vm_compute. reflexivity. Qed.

Example fold_access_entity_kept :
  fold fold_table (EAccess (ELit (VEntity (s_of "User") (s_of "a"))) (s_of "k")) =
  EAccess (ELit (VEntity (s_of "User") (s_of "a"))) (s_of "k").
Proof. vm_compute. reflexivity. Qed.

Example fold_access_record :
  fold fold_table (EAccess (ELit (VRecord [(s_of "k", VLong 7)])) (s_of "k")) = ELit (VLong 7).
Proof. vm_compute. reflexivity. Qed.

Example fold_has_entity_kept :
  fold fold_table (EHas (ELit (VEntity (s_of "User") (s_of "a"))) (s_of "k")) =
  EHas (ELit (VEntity (s_of "User") (s_of "a"))) (s_of "k").
Proof. vm_compute. reflexivity. Qed.

Example fold_has_record :
  fold fold_table (EHas (ELit (VRecord [(s_of "k", VLong 7)])) (s_of "k")) = ELit (VBool true).
Proof. vm_compute. reflexivity. Qed.

Print Assumptions toeval_table_generated_ok.
Print Assumptions fold_table_generated_sound.
Print Assumptions fold_preserves_eval.
Print Assumptions fold_policy_preserves_outcome.
Print Assumptions fold_generated_preserves_eval.
Print Assumptions fold_policy_generated_preserves_outcome.
