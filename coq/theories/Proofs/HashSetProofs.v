(* The open-addressing table of Impl/HashSet.v (cedar-go types.Set: map[uint64]Value with linear probing
   `hash++` wrapping at 2^64, plus the sum of the member hashes) implements a mathematical finite set of
   veq-classes, for EVERY hash function (i.e. for all collision patterns).

   The only side condition is `Z.of_nat (length l) < two64` on the list the table is built from: with 2^64
   pairwise distinct members the table is full and the probe loops of the Go code do not terminate (the model
   runs out of fuel).  A Go slice cannot have 2^64 elements, so the condition always holds in practice. *)
From Coq Require Import ZArith List Bool Lia SetoidList SetoidPermutation Arith.
Import ListNotations.
From Cedar Require Import Base.Int64 Impl.HashSet.
From Cedar Require Proofs.ValueProofs.
Local Open Scope Z_scope.

Lemma two64_pos : 0 < two64.
Proof. reflexivity. Qed.

(* i-th slot visited when probing from h *)
Definition pr (h : Z) (i : nat) : Z := (h + Z.of_nat i) mod two64.

Lemma pr_0 h : 0 <= h < two64 -> pr h 0 = h.
Proof.
  intros H. unfold pr. change (Z.of_nat 0) with 0. rewrite Z.add_0_r. apply Z.mod_small; exact H.
Qed.

Lemma pr_succ h i : wrapu64 (pr h i + 1) = pr h (S i).
Proof.
  unfold wrapu64, pr. pose proof two64_pos as HM.
  rewrite Z.add_mod_idemp_l by lia. f_equal. lia.
Qed.

Lemma pr_inj h i j :
  Z.of_nat i < two64 -> Z.of_nat j < two64 -> pr h i = pr h j -> i = j.
Proof.
  intros Hi Hj E. unfold pr in E. pose proof two64_pos as HM.
  pose proof (Z.div_mod (h + Z.of_nat i) two64 ltac:(lia)) as D1.
  pose proof (Z.div_mod (h + Z.of_nat j) two64 ltac:(lia)) as D2.
  rewrite E in D1.
  set (q1 := (h + Z.of_nat i) / two64) in *.
  set (q2 := (h + Z.of_nat j) / two64) in *.
  set (r := (h + Z.of_nat j) mod two64) in *.
  assert (HD : Z.of_nat i - Z.of_nat j = two64 * (q1 - q2)) by lia.
  assert (HQ : q1 - q2 = 0) by nia.
  lia.
Qed.

Lemma pr_seq_NoDup h : forall n s,
  Z.of_nat (s + n) <= two64 -> NoDup (map (pr h) (seq s n)).
Proof.
  induction n as [|n IH]; intros s Hs.
  - constructor.
  - cbn [seq map]. constructor.
    + intros Hin. apply in_map_iff in Hin. destruct Hin as [x [Hx Hin]].
      apply in_seq in Hin. apply pr_inj in Hx; lia.
    + apply IH. lia.
Qed.

(* pigeonhole: a probe run of n <= 2^64 occupied slots needs n distinct keys *)
Lemma run_length h n (keys : list Z) :
  NoDup keys -> Z.of_nat n <= two64 ->
  (forall j, (j < n)%nat -> In (pr h j) keys) -> (n <= length keys)%nat.
Proof.
  intros ND Hn Hocc.
  assert (HL : (length (map (pr h) (seq 0 n)) <= length keys)%nat).
  { apply NoDup_incl_length.
    - apply pr_seq_NoDup. exact Hn.
    - intros k Hk. apply in_map_iff in Hk. destruct Hk as [x [<- Hx]].
      apply in_seq in Hx. apply Hocc. lia. }
  rewrite map_length, seq_length in HL. exact HL.
Qed.

Section HashSetProofs.
  Variable V : Type.
  Variable veq : V -> V -> bool.
  Variable hash : V -> Z.
  Hypothesis veq_refl : forall a, veq a a = true.
  Hypothesis veq_sym : forall a b, veq a b = veq b a.
  Hypothesis veq_trans : forall a b c, veq a b = true -> veq b c = true -> veq a c = true.
  Hypothesis hash_range : forall v, 0 <= hash v < two64.
  Hypothesis hash_veq : forall a b, veq a b = true -> hash a = hash b.

  Local Notation sget := (slot_get V).
  Local Notation pinsert := (probe_insert V veq).
  Local Notation pcontains := (probe_contains V veq).
  Local Notation ins := (insert V veq hash).
  Local Notation newt := (new_table V veq hash).
  Local Notation cont := (contains V veq hash).
  Local Notation mem := (members V).
  Local Notation hval := (hash_val V hash).
  Local Notation teq := (table_equal V veq hash).

  Definition eqV (a b : V) : Prop := veq a b = true.
  (* membership up to veq *)
  Definition InV (v : V) (l : list V) : Prop := exists w, In w l /\ veq v w = true.

  (* keep the first occurrence of each veq-class *)
  Fixpoint dedup_veq (l : list V) : list V :=
    match l with
    | [] => []
    | x :: xs => x :: filter (fun y => negb (veq x y)) (dedup_veq xs)
    end.

  Lemma veq_sym_true a b : veq a b = true -> veq b a = true.
  Proof. intros H. rewrite veq_sym. exact H. Qed.

  Lemma InA_InV x l : InA eqV x l <-> InV x l.
  Proof.
    rewrite InA_alt. unfold InV, eqV. split; intros [w [H1 H2]]; exists w; auto.
  Qed.

  Lemma In_InV x l : In x l -> InV x l.
  Proof. intros H. exists x. auto. Qed.

  Lemma InV_veq a b l : veq a b = true -> InV b l -> InV a l.
  Proof. intros E [w [Hw Ew]]. exists w. split; [exact Hw|]. eapply veq_trans; eauto. Qed.

  Lemma InV_nil v : ~ InV v [].
  Proof. intros [w [[] _]]. Qed.

  Lemma InV_cons v x l : InV v (x :: l) <-> veq v x = true \/ InV v l.
  Proof.
    split.
    - intros [w [[->|Hw] E]]; [left; exact E | right; exists w; auto].
    - intros [E|[w [Hw E]]]; [exists x | exists w]; split; simpl; auto.
  Qed.

  Lemma InV_incl v l l' : (forall x, In x l -> In x l') -> InV v l -> InV v l'.
  Proof. intros H [w [Hw E]]. exists w. auto. Qed.

  Lemma NoDupV_cons_inv x l : NoDupA eqV (x :: l) -> ~ InV x l /\ NoDupA eqV l.
  Proof. intros H. inversion H as [|y l' Hn Hl]; subst. rewrite InA_InV in Hn. auto. Qed.

  Lemma NoDupV_cons x l : ~ InV x l -> NoDupA eqV l -> NoDupA eqV (x :: l).
  Proof. intros Hn Hl. constructor; [rewrite InA_InV; exact Hn | exact Hl]. Qed.

  Lemma NoDupV_filter f l : NoDupA eqV l -> NoDupA eqV (filter f l).
  Proof.
    induction l as [|x l IH]; cbn [filter]; intros H; [constructor|].
    apply NoDupV_cons_inv in H. destruct H as [Hx Hl]. destruct (f x).
    - apply NoDupV_cons; [|auto]. intros Hin. apply Hx.
      eapply InV_incl; [|exact Hin]. intros y Hy. apply filter_In in Hy. tauto.
    - auto.
  Qed.

  (* pigeonhole on veq-classes: two members of a duplicate-free list have no common partner *)
  Lemma NoDupV_sep l1 l2 : NoDupA eqV l1 -> ValueProofs.sep eqV l1 l2.
  Proof.
    induction l1 as [|x l1 IH]; cbn [ValueProofs.sep]; intros ND; [exact I|].
    apply NoDupV_cons_inv in ND. destruct ND as [Hx ND]. split; [|auto].
    intros x' w Hx' _ R R'. apply Hx. exists x'. split; [exact Hx'|].
    eapply veq_trans; [exact R | apply veq_sym_true; exact R'].
  Qed.

  Lemma NoDupV_incl_length l1 l2 :
    NoDupA eqV l1 -> (forall x, In x l1 -> InV x l2) -> (length l1 <= length l2)%nat.
  Proof. intros ND Hincl. apply (ValueProofs.pigeon eqV l1 l2 Hincl (NoDupV_sep l1 l2 ND)). Qed.

  Lemma NoDupV_incl_rev l1 l2 :
    NoDupA eqV l1 -> (forall x, In x l1 -> InV x l2) -> (length l2 <= length l1)%nat ->
    forall w, In w l2 -> InV w l1.
  Proof.
    intros ND Hincl Hlen w Hw.
    destruct (proj2 (ValueProofs.pigeon eqV l1 l2 Hincl (NoDupV_sep l1 l2 ND)) Hlen w Hw) as (x & Hx & R).
    exists x. split; [exact Hx | apply veq_sym_true; exact R].
  Qed.

  Fixpoint sumh (l : list V) : Z :=
    match l with [] => 0 | x :: xs => hash x + sumh xs end.

  Lemma eqV_equiv : Equivalence eqV.
  Proof. split; [intros a; apply veq_refl | intros a b; apply veq_sym_true | intros a b c; apply veq_trans]. Qed.

  (* duplicate-free lists with the same classes are permutations of each other up to veq *)
  Lemma same_classes l1 l2 :
    NoDupA eqV l1 -> NoDupA eqV l2 -> (forall v, InV v l1 <-> InV v l2) -> length l1 = length l2 /\ sumh l1 = sumh l2.
  Proof.
    intros N1 N2 H. assert (P : PermutationA eqV l1 l2).
    { apply (NoDupA_equivlistA_PermutationA eqV_equiv); auto. intros v. rewrite !InA_InV. apply H. }
    clear - P hash_veq.
    induction P as [|x y l l' E _ [IH1 IH2]|x y l|l l' l'' _ [IH1 IH2] _ [IH3 IH4]]; cbn [length sumh];
      try rewrite (hash_veq _ _ E); split; lia.
  Qed.

  Lemma dedup_veq_incl : forall l y, In y (dedup_veq l) -> In y l.
  Proof.
    induction l as [|x l IH]; cbn [dedup_veq]; intros y Hy; [exact Hy|].
    destruct Hy as [->|Hy]; [simpl; auto|]. apply filter_In in Hy. right. apply IH. tauto.
  Qed.

  Lemma dedup_veq_InV : forall l v, InV v (dedup_veq l) <-> InV v l.
  Proof.
    intros l v. split.
    - apply InV_incl. intros x. apply dedup_veq_incl.
    - revert v. induction l as [|x l IH]; intros v Hv; [exact Hv|].
      cbn [dedup_veq]. apply InV_cons in Hv. destruct Hv as [E|Hv].
      + apply InV_cons. auto.
      + destruct (IH v Hv) as [w [Hw Evw]]. destruct (veq x w) eqn:Exw.
        * apply InV_cons. left. eapply veq_trans; [exact Evw | apply veq_sym_true; exact Exw].
        * apply InV_cons. right. exists w. split; [|exact Evw].
          apply filter_In. split; [exact Hw|]. rewrite Exw. reflexivity.
  Qed.

  Lemma dedup_veq_NoDupV : forall l, NoDupA eqV (dedup_veq l).
  Proof.
    induction l as [|x l IH]; cbn [dedup_veq]; [constructor|].
    apply NoDupV_cons; [|apply NoDupV_filter; exact IH].
    intros [w [Hw E]]. apply filter_In in Hw. destruct Hw as [_ Hw]. rewrite E in Hw. discriminate.
  Qed.

  Lemma dedup_veq_length l : (length (dedup_veq l) <= length l)%nat.
  Proof.
    apply NoDupV_incl_length; [apply dedup_veq_NoDupV|].
    intros x Hx. apply In_InV. apply dedup_veq_incl. exact Hx.
  Qed.

  Lemma sget_In : forall (t : table V) k v, sget t k = Some v -> In (k, v) t.
  Proof.
    induction t as [|[k0 v0] t IH]; cbn [slot_get]; intros k v H; [discriminate|].
    destruct (k0 =? k) eqn:E.
    - apply Z.eqb_eq in E. inversion H; subst. simpl; auto.
    - right. apply IH. exact H.
  Qed.

  Lemma sget_None : forall (t : table V) k, sget t k = None <-> ~ In k (map fst t).
  Proof.
    induction t as [|[k0 v0] t IH]; cbn [slot_get map fst]; intros k.
    - split; auto.
    - destruct (k0 =? k) eqn:E.
      + apply Z.eqb_eq in E. split; [discriminate|]. intros H. exfalso. apply H. simpl; auto.
      + apply Z.eqb_neq in E. rewrite IH. simpl. tauto.
  Qed.

  Lemma In_sget : forall (t : table V) k v, NoDup (map fst t) -> In (k, v) t -> sget t k = Some v.
  Proof.
    induction t as [|[k0 v0] t IH]; cbn [slot_get map fst]; intros k v ND H; [destruct H|].
    inversion ND as [|k1 l1 Hn ND']; subst.
    destruct H as [H|H].
    - inversion H; subst. rewrite Z.eqb_refl. reflexivity.
    - destruct (k0 =? k) eqn:E.
      + apply Z.eqb_eq in E. subst k0. exfalso. apply Hn.
        apply in_map_iff. exists (k, v). auto.
      + apply IH; auto.
  Qed.

  Lemma sget_Some_occ (t : table V) k e : sget t k = Some e -> In k (map fst t).
  Proof. intros H. apply sget_In in H. apply in_map_iff. exists (k, e). auto. Qed.

  Lemma In_mem (t : table V) k w : In (k, w) t -> In w (mem t).
  Proof. intros H. unfold members. apply in_map_iff. exists (k, w). auto. Qed.

  Lemma mem_In (t : table V) w : In w (mem t) -> exists k, In (k, w) t.
  Proof.
    unfold members. intros H. apply in_map_iff in H. destruct H as [[k w'] [E H]].
    simpl in E. subst w'. eauto.
  Qed.

  Record Inv (t : table V) : Prop := {
    inv_nodup : NoDup (map fst t);
    inv_classes : NoDupA eqV (mem t);
    (* every member sits on the probe run of its hash, and the run up to it has no hole *)
    inv_run : forall k w, In (k, w) t ->
        exists d, (d < length t)%nat /\ k = pr (hash w) d /\
                  forall j, (j < d)%nat -> In (pr (hash w) j) (map fst t)
  }.

  Lemma Inv_nil : Inv [].
  Proof.
    constructor; cbn [map]; try (intros; contradiction); constructor.
  Qed.

  (* Both probe loops walk the same run of occupied slots.  Started behind i slots that hold non-members, with the fuel
     that is left for them, they stop together at the first slot d that is empty or holds a value veq to v; the fuel
     suffices because a longer run would need more distinct slots than the table has (run_length). *)
  Lemma probe_walk (t : table V) v :
    NoDup (map fst t) -> Z.of_nat (length t) < two64 ->
    forall fuel i, (i + fuel = S (length t))%nat ->
      (forall j, (j < i)%nat -> exists e, sget t (pr (hash v) j) = Some e /\ veq v e = false) ->
      exists d, (d <= length t)%nat /\
        (forall j, (j < d)%nat -> exists e, sget t (pr (hash v) j) = Some e /\ veq v e = false) /\
        match sget t (pr (hash v) d) with
        | None => pinsert fuel t (pr (hash v) i) v = Some ((pr (hash v) d, v) :: t) /\
                  pcontains fuel t (pr (hash v) i) v = Some false
        | Some e => veq v e = true /\ pinsert fuel t (pr (hash v) i) v = Some t /\
                    pcontains fuel t (pr (hash v) i) v = Some true
        end.
  Proof.
    intros ND HL. induction fuel as [|f IH]; intros i Hi Hrun.
    - exfalso.
      assert (H : (S (length t) <= length (map fst t))%nat).
      { apply (run_length (hash v)); [exact ND | lia |].
        intros j Hj. destruct (Hrun j) as [e [He _]]; [lia|].
        eapply sget_Some_occ; exact He. }
      rewrite map_length in H. lia.
    - cbn [probe_insert probe_contains]. destruct (sget t (pr (hash v) i)) as [e|] eqn:E.
      + destruct (veq v e) eqn:Ev.
        * exists i. rewrite E. split; [lia|]. auto.
        * rewrite pr_succ. apply IH; [lia|].
          intros j Hj. destruct (Nat.eq_dec j i) as [->|Hne]; [eauto|]. apply Hrun. lia.
      + exists i. rewrite E. split; [lia|]. auto.
  Qed.

  Lemma walk_not_member (t : table V) v d :
    Inv t -> sget t (pr (hash v) d) = None ->
    (forall j, (j < d)%nat -> exists e, sget t (pr (hash v) j) = Some e /\ veq v e = false) ->
    ~ InV v (mem t).
  Proof.
    intros I HN Hrun [w [Hw Ev]]. apply mem_In in Hw. destruct Hw as [k Hin].
    destruct (inv_run t I k w Hin) as [dw [Hdl [Hk Hocc]]].
    rewrite <- (hash_veq _ _ Ev) in Hk, Hocc.
    pose proof (In_sget t k w (inv_nodup t I) Hin) as Hg.
    destruct (lt_eq_lt_dec dw d) as [[Hlt|Heq]|Hgt].
    - destruct (Hrun dw Hlt) as [e [He Hf]]. rewrite <- Hk in He. congruence.
    - subst dw. rewrite <- Hk in HN. congruence.
    - apply sget_None in HN. apply HN. apply Hocc. exact Hgt.
  Qed.

  Lemma insert_spec (t : table V) v :
    Inv t -> Z.of_nat (length t) < two64 ->
    exists t', ins t v = Some t' /\ Inv t' /\ (length t' <= S (length t))%nat /\
      (forall u, InV u (mem t') <-> InV u (mem t) \/ veq u v = true) /\
      (forall w, In w (mem t') -> In w (mem t) \/ w = v).
  Proof.
    intros I HL. unfold insert.
    destruct (probe_walk t v (inv_nodup t I) HL (S (length t)) 0%nat) as (d & Hd & Hrun & Hstop);
      [lia | intros j Hj; lia |].
    rewrite pr_0 in Hstop by apply hash_range. destruct (sget t (pr (hash v) d)) as [e|] eqn:HN.
    - destruct Hstop as (Ev & Hp & _). apply sget_In, In_mem in HN.
      exists t. split; [exact Hp|]. split; [exact I|]. split; [lia|]. split.
      + intros u. split; [auto|]. intros [H|H]; [exact H|].
        exists e. split; [exact HN|]. eapply veq_trans; eauto.
      + auto.
    - destruct Hstop as (Hp & _).
      pose proof (walk_not_member t v d I HN Hrun) as Hnm.
      exists ((pr (hash v) d, v) :: t). split; [exact Hp|].
      split; [|split; [cbn [length]; lia|split]].
      + constructor; cbn [map fst length].
        * constructor; [|exact (inv_nodup t I)]. apply sget_None. exact HN.
        * apply NoDupV_cons; [exact Hnm | exact (inv_classes t I)].
        * intros k w [H1|H1].
          -- inversion H1; subst. exists d. split; [lia|]. split; [reflexivity|].
             intros j Hj. right. destruct (Hrun j Hj) as [e [He _]].
             eapply sget_Some_occ; exact He.
          -- destruct (inv_run t I k w H1) as [dw [Hdl [Hk Hocc]]].
             exists dw. split; [lia|]. split; [exact Hk|]. intros j Hj. right. apply Hocc. exact Hj.
      + intros u. unfold members. cbn [map snd]. rewrite InV_cons. tauto.
      + intros w. unfold members. cbn [map snd]. intros [<-|H]; auto.
  Qed.

  Definition insert_step (acc : option (table V)) (v : V) : option (table V) :=
    match acc with Some t => ins t v | None => None end.

  Lemma new_table_gen : forall l (t : table V),
    Inv t -> Z.of_nat (length t + length l) < two64 ->
    exists t', fold_left insert_step l (Some t) = Some t' /\ Inv t' /\
      (length t' <= length t + length l)%nat /\
      (forall v, InV v (mem t') <-> InV v (mem t) \/ InV v l) /\
      (forall w, In w (mem t') -> In w (mem t) \/ In w l).
  Proof.
    induction l as [|x l IH]; intros t I HL; cbn [fold_left length] in *.
    - exists t. split; [reflexivity|]. split; [exact I|]. split; [lia|]. split.
      + intros v. split; [auto|]. intros [H|H]; [exact H|]. destruct (InV_nil _ H).
      + auto.
    - destruct (insert_spec t x I ltac:(lia)) as [t1 [E1 [I1 [L1 [M1 Sub1]]]]].
      cbn [insert_step]. rewrite E1.
      destruct (IH t1 I1 ltac:(lia)) as [t' [E' [I' [L' [M' Sub']]]]].
      exists t'. split; [exact E'|]. split; [exact I'|]. split; [lia|]. split.
      + intros v. rewrite M', M1, InV_cons. tauto.
      + intros w Hw. destruct (Sub' w Hw) as [H|H]; [|simpl; auto].
        destruct (Sub1 w H) as [H1| ->]; simpl; auto.
  Qed.

  Lemma new_table_spec l :
    Z.of_nat (length l) < two64 ->
    exists t, newt l = Some t /\ Inv t /\ (length t <= length l)%nat /\
      (forall v, InV v (mem t) <-> InV v l) /\ (forall w, In w (mem t) -> In w l).
  Proof.
    intros HL. destruct (new_table_gen l [] Inv_nil) as [t [E [I [L [M Sub]]]]].
    - cbn [length]. lia.
    - exists t. split; [exact E|]. split; [exact I|]. split; [exact L|]. split.
      + intros v. rewrite M. split; [|auto]. intros [H|H]; [destruct (InV_nil _ H) | exact H].
      + intros w Hw. destruct (Sub w Hw) as [[]|H]. exact H.
  Qed.

  Lemma new_table_inv l t :
    Z.of_nat (length l) < two64 -> newt l = Some t ->
    Inv t /\ Z.of_nat (length t) < two64 /\
    (forall v, InV v (mem t) <-> InV v l) /\ (forall w, In w (mem t) -> In w l).
  Proof.
    intros HL E. destruct (new_table_spec l HL) as [t' [E' [I [L [M Sub]]]]].
    rewrite E in E'. inversion E'; subst t'.
    split; [exact I|]. split; [lia|]. split; [exact M | exact Sub].
  Qed.

  Lemma contains_spec (t : table V) v :
    Inv t -> Z.of_nat (length t) < two64 ->
    exists b, cont t v = Some b /\ (b = true <-> InV v (mem t)).
  Proof.
    intros I HL. unfold contains.
    destruct (probe_walk t v (inv_nodup t I) HL (S (length t)) 0%nat) as (d & Hd & Hrun & Hstop);
      [lia | intros j Hj; lia |].
    rewrite pr_0 in Hstop by apply hash_range. destruct (sget t (pr (hash v) d)) as [e|] eqn:HN.
    - destruct Hstop as (Ev & _ & Hc). apply sget_In, In_mem in HN.
      exists true. split; [exact Hc|]. split; [intros _; exists e; auto | reflexivity].
    - destruct Hstop as (_ & Hc). exists false. split; [exact Hc|]. split; [discriminate|].
      intros H. destruct (walk_not_member t v d I HN Hrun H).
  Qed.

  Lemma hash_val_fold : forall l a,
    fold_left (fun a v => wrapu64 (a + hash v)) l (a mod two64) = (a + sumh l) mod two64.
  Proof.
    induction l as [|x l IH]; intros a; cbn [fold_left sumh].
    - rewrite Z.add_0_r. reflexivity.
    - unfold wrapu64 at 2. pose proof two64_pos as HM.
      rewrite Z.add_mod_idemp_l by lia. rewrite IH. f_equal. lia.
  Qed.

  Lemma hash_val_sumh (t : table V) : hval t = sumh (mem t) mod two64.
  Proof.
    unfold hash_val. change 0 with (0 mod two64) at 1. rewrite hash_val_fold. reflexivity.
  Qed.

  Definition contains_step (b : table V) (acc : option bool) (v : V) : option bool :=
    match acc with
    | Some true => cont b v
    | other => other
    end.

  Lemma contains_fold_false b : forall ms, fold_left (contains_step b) ms (Some false) = Some false.
  Proof. induction ms as [|x ms IH]; cbn [fold_left contains_step]; auto. Qed.

  Lemma contains_fold_spec (b : table V) :
    Inv b -> Z.of_nat (length b) < two64 ->
    forall ms, exists r, fold_left (contains_step b) ms (Some true) = Some r /\
                         (r = true <-> forall x, In x ms -> InV x (mem b)).
  Proof.
    intros I HL. induction ms as [|x ms IH]; cbn [fold_left contains_step].
    - exists true. split; [reflexivity|]. split; [intros _ y []|reflexivity].
    - destruct (contains_spec b x I HL) as [bx [Ex Hx]]. rewrite Ex. destruct bx.
      + destruct IH as [r [Er Hr]]. exists r. split; [exact Er|]. rewrite Hr. split.
        * intros H y [<-|Hy]; [apply Hx; reflexivity | apply H; exact Hy].
        * intros H y Hy. apply H. simpl; auto.
      + exists false. split; [apply contains_fold_false|]. split; [discriminate|].
        intros H. apply Hx. apply H. simpl; auto.
  Qed.

  Lemma same_classes_tables t1 t2 :
    Inv t1 -> Inv t2 -> (forall v, InV v (mem t1) <-> InV v (mem t2)) ->
    length t1 = length t2 /\ hval t1 = hval t2.
  Proof.
    intros I1 I2 H. destruct (same_classes _ _ (inv_classes t1 I1) (inv_classes t2 I2) H) as [HL HS].
    unfold members in HL. rewrite !map_length in HL. rewrite !hash_val_sumh, HS. auto.
  Qed.

  Lemma table_equal_spec t1 t2 :
    Inv t1 -> Inv t2 -> Z.of_nat (length t2) < two64 ->
    exists b, teq t1 t2 = Some b /\ (b = true <-> (forall v, InV v (mem t1) <-> InV v (mem t2))).
  Proof.
    intros I1 I2 HL2. unfold table_equal.
    destruct (negb (Nat.eqb (length t1) (length t2)) || negb (hval t1 =? hval t2)) eqn:C.
    - exists false. split; [reflexivity|]. split; [discriminate|]. intros H. exfalso.
      destruct (same_classes_tables t1 t2 I1 I2 H) as [EL EH].
      rewrite EL, EH, Nat.eqb_refl, Z.eqb_refl in C. discriminate.
    - apply orb_false_iff in C. destruct C as [CL _].
      apply negb_false_iff in CL. apply Nat.eqb_eq in CL.
      destruct (contains_fold_spec t2 I2 HL2 (mem t1)) as [r [Er Hr]].
      exists r. split; [exact Er|]. rewrite Hr. split.
      + intros H v. split.
        * intros [w [Hw E]]. apply InV_veq with w; [exact E | apply H; exact Hw].
        * intros [w [Hw E]]. apply InV_veq with w; [exact E|].
          apply (NoDupV_incl_rev (mem t1) (mem t2)); [exact (inv_classes t1 I1) | exact H | | exact Hw].
          unfold members. rewrite !map_length. lia.
      + intros H x Hx. apply H. apply In_InV. exact Hx.
  Qed.

  (* the probe loops never run out of fuel
     (building a table and looking a value up do not use the symmetry of veq; the three theorems about them are
     nevertheless stated, like the others, for an equivalence) *)
  Theorem new_table_total : forall l,
    Z.of_nat (length l) < two64 -> exists t, newt l = Some t.
  Proof using veq_sym veq_trans hash_range hash_veq. intros l HL. destruct (new_table_spec l HL) as [t [E _]]. eauto. Qed.

  Theorem contains_total : forall l t v,
    Z.of_nat (length l) < two64 -> newt l = Some t -> exists b, cont t v = Some b.
  Proof using veq_sym veq_trans hash_range hash_veq.
    intros l t v HL E. destruct (new_table_inv l t HL E) as [I [HT _]].
    destruct (contains_spec t v I HT) as [b [Hb _]]. eauto.
  Qed.

  Theorem set_members : forall l t v,
    Z.of_nat (length l) < two64 -> newt l = Some t ->
    (cont t v = Some true <-> InV v l).
  Proof using veq_sym veq_trans hash_range hash_veq.
    intros l t v HL E. destruct (new_table_inv l t HL E) as [I [HT [M _]]].
    destruct (contains_spec t v I HT) as [b [Hb Hiff]]. rewrite <- M, <- Hiff, Hb.
    split; [intros H; inversion H; reflexivity | intros ->; reflexivity].
  Qed.

  (* the table holds exactly one representative per veq-class of l *)
  Theorem set_len : forall l t,
    Z.of_nat (length l) < two64 -> newt l = Some t ->
    length t = length (dedup_veq l)
    /\ NoDupA eqV (mem t)                              (* members pairwise non-veq *)
    /\ (forall w, In w (mem t) -> In w l)              (* members are elements of l *)
    /\ (forall v, InV v (mem t) <-> InV v l)           (* every class of l is represented *)
    /\ NoDup (map fst t).                              (* one slot per member *)
  Proof.
    intros l t HL E. destruct (new_table_inv l t HL E) as [I [HT [M Sub]]].
    pose proof (inv_classes t I) as N. split; [|split; [exact N|split; [exact Sub|split; [exact M|]]]].
    - rewrite <- (map_length snd t). apply same_classes; [exact N | apply dedup_veq_NoDupV |].
      intros v. rewrite M, dedup_veq_InV. reflexivity.
    - exact (inv_nodup t I).
  Qed.

  Theorem set_equal_iff : forall l1 l2 t1 t2,
    Z.of_nat (length l1) < two64 -> Z.of_nat (length l2) < two64 ->
    newt l1 = Some t1 -> newt l2 = Some t2 ->
    exists b, teq t1 t2 = Some b /\ (b = true <-> (forall v, InV v l1 <-> InV v l2)).
  Proof.
    intros l1 l2 t1 t2 HL1 HL2 E1 E2.
    destruct (new_table_inv l1 t1 HL1 E1) as [I1 [HT1 [M1 _]]].
    destruct (new_table_inv l2 t2 HL2 E2) as [I2 [HT2 [M2 _]]].
    destruct (table_equal_spec t1 t2 I1 I2 HT2) as [b [Hb Hiff]].
    exists b. split; [exact Hb|]. rewrite Hiff. split; intros H v.
    - rewrite <- M1, <- M2. apply H.
    - rewrite M1, M2. apply H.
  Qed.

  (* hash_val depends only on the veq-classes present, not on insertion order or duplicates *)
  Theorem hash_val_perm_invariant : forall l1 l2 t1 t2,
    Z.of_nat (length l1) < two64 -> Z.of_nat (length l2) < two64 ->
    newt l1 = Some t1 -> newt l2 = Some t2 ->
    (forall v, InV v l1 <-> InV v l2) -> hval t1 = hval t2.
  Proof.
    intros l1 l2 t1 t2 HL1 HL2 E1 E2 H.
    destruct (new_table_inv l1 t1 HL1 E1) as [I1 [_ [M1 _]]].
    destruct (new_table_inv l2 t2 HL2 E2) as [I2 [_ [M2 _]]].
    apply same_classes_tables; [exact I1 | exact I2 |].
    intros v. rewrite M1, M2. apply H.
  Qed.

  (* hash_val is the sum of the hashes of the first occurrences, modulo 2^64 *)
  Theorem hash_val_dedup : forall l t,
    Z.of_nat (length l) < two64 -> newt l = Some t ->
    hval t = sumh (dedup_veq l) mod two64.
  Proof.
    intros l t HL E. destruct (new_table_inv l t HL E) as [I [_ [M _]]].
    rewrite hash_val_sumh. f_equal. apply same_classes; [exact (inv_classes t I) | apply dedup_veq_NoDupV |].
    intros v. rewrite M, dedup_veq_InV. reflexivity.
  Qed.

End HashSetProofs.

(* Wrap-around probing with a fully colliding hash: every value hashes to 2^64 - 1, so the members land in slots
   2^64-1, 0, 1. *)
Example wrap_around_probe :
  let h := fun _ : Z => two64 - 1 in
  match new_table Z Z.eqb h [10; 20; 30; 20; 10] with
  | Some t =>
      (map fst t, map (contains Z Z.eqb h t) [10; 20; 30; 40], hash_val Z h t)
      = ([1; 0; two64 - 1], [Some true; Some true; Some true; Some false], two64 - 3)
  | None => False
  end.
Proof. vm_compute. reflexivity. Qed.

Print Assumptions new_table_total.
Print Assumptions contains_total.
Print Assumptions set_members.
Print Assumptions set_len.
Print Assumptions set_equal_iff.
Print Assumptions hash_val_perm_invariant.
Print Assumptions hash_val_dedup.
Print Assumptions wrap_around_probe.
