(* Total correctness of the iterative ancestor search of internal/eval/evalers.go
   (entityInOne / entityInSet) as modelled in Impl/InSearch.v: with fuel at least
   1 + (number of present entities) the search never runs out of fuel, and it decides
   reflexive-transitive reachability along the parents relation.

   No NoDup assumption on [keys] / on the store is needed: [known] is duplicate-free and included
   in [keys], so [NoDup_incl_length] bounds its length whatever the multiplicities in [keys]. *)
From Coq Require Import ZArith List Arith Lia Bool.
Import ListNotations.
From Cedar Require Import Lang.Value Lang.Expr Impl.InSearch Impl.Eval Proofs.ValueProofs.

Section InSearchProofs.
  Variable id : Type.
  Variable eqb : id -> id -> bool.
  Hypothesis eqb_eq : forall a b, eqb a b = true <-> a = b.
  Variable parents : id -> option (list id).
  Variable keys : list id.                                   (* the finite set of present entities *)
  Hypothesis keys_complete : forall k ps, parents k = Some ps -> In k keys.

  Definition edge (x y : id) : Prop := exists ps, parents x = Some ps /\ In y ps.
  Inductive reach (a : id) : id -> Prop :=
  | r_refl : reach a a
  | r_step : forall y z, reach a y -> edge y z -> reach a z.

  Local Notation mem := (Cedar.Impl.InSearch.mem id eqb).
  Local Notation expandable := (Cedar.Impl.InSearch.expandable id parents).
  Local Notation scan := (Cedar.Impl.InSearch.scan id eqb parents).
  Local Notation loop := (Cedar.Impl.InSearch.loop id eqb parents).

  Definition succs (x : id) : list id := match parents x with Some ps => ps | None => [] end.

  Lemma edge_succs x y : edge x y <-> In y (succs x).
  Proof.
    unfold edge, succs. destruct (parents x) as [ps|]; split.
    - intros [ps' [E Hin]]. injection E as <-. exact Hin.
    - intros Hin. exists ps. split; [reflexivity | exact Hin].
    - intros [ps' [E _]]. discriminate.
    - intros [].
  Qed.

  Lemma mem_In x l : mem x l = true <-> In x l.
  Proof. exact (existsb_eqb_In eqb eqb_eq x l). Qed.

  Lemma mem_false x l : mem x l = false <-> ~ In x l.
  Proof. rewrite <- mem_In. destruct (mem x l); split; congruence. Qed.

  Lemma edge_expandable x y : edge x y -> expandable x = true.
  Proof.
    intros [ps [Hl Hin]]. unfold Cedar.Impl.InSearch.expandable. rewrite Hl.
    destruct ps; [destruct Hin | reflexivity].
  Qed.

  (* the inner for-loop pushes the same list [new] on the seen set and on the work list *)
  Lemma scan_spec entity : forall ps known todo known' todo',
    scan entity ps known todo = (known', todo') ->
    exists new, known' = new ++ known /\ todo' = new ++ todo /\
      (NoDup known -> NoDup known') /\
      (forall k, In k new -> In k ps /\ expandable k = true) /\
      (forall k, In k ps -> expandable k = false \/ k = entity \/ In k known').
  Proof.
    induction ps as [|k r IH]; intros known todo known' todo' H; cbn [Cedar.Impl.InSearch.scan] in H.
    - injection H as <- <-. exists [].
      split; [reflexivity|]. split; [reflexivity|]. split; [auto|]. split; intros k [].
    - destruct (negb (expandable k) || eqb k entity || mem k known) eqn:E;
        destruct (IH _ _ _ _ H) as [new [-> [-> [Hnd [Hnew Hall]]]]].
      + assert (Hk : expandable k = false \/ k = entity \/ In k known).
        { destruct (expandable k); [|left; reflexivity].
          destruct (eqb k entity) eqn:E2; [right; left; apply eqb_eq, E2|].
          right; right. apply mem_In, E. }
        exists new. split; [reflexivity|]. split; [reflexivity|]. split; [exact Hnd|]. split.
        * intros x Hx. destruct (Hnew x Hx) as [A B]. split; [right; exact A | exact B].
        * intros x [<-|Hx]; [|apply Hall; exact Hx].
          destruct Hk as [Hk|[Hk|Hk]]; [left; exact Hk | right; left; exact Hk |].
          right; right. apply in_or_app. right. exact Hk.
      + assert (Hk : expandable k = true /\ ~ In k known).
        { destruct (expandable k); [|discriminate E]. destruct (eqb k entity); [discriminate E|].
          split; [reflexivity | apply mem_false, E]. }
        exists (new ++ [k]). rewrite <- !app_assoc.
        split; [reflexivity|]. split; [reflexivity|]. split; [|split].
        * intros ND. apply Hnd. constructor; [apply Hk | exact ND].
        * intros x Hx. apply in_app_or in Hx. destruct Hx as [Hx|[<-|[]]].
          -- destruct (Hnew x Hx) as [A B]. split; [right; exact A | exact B].
          -- split; [left; reflexivity | apply Hk].
        * intros x [<-|Hx]; [|apply Hall; exact Hx]. right; right. apply in_elt.
  Qed.

  (* the outer loop, for any hit test that decides "some parent is a target" *)
  Section Loop.
    Variable hit : list id -> bool.
    Variable T : id -> Prop.                 (* the set of targets *)
    Hypothesis hit_spec : forall ps, hit ps = true <-> exists p, In p ps /\ T p.
    Variable entity : id.

    (* [V]: the candidates expanded so far, none of them with a target among its parents;
       [known]: the seen set of the Go code, which never holds [entity] itself;
       [W]: the work list with the current candidate as its head.
       Every seen node is waiting or expanded, and an edge out of an expanded node leads to a seen node
       or to one that the loop prunes. *)
    Record Inv (V known W : list id) : Prop := {
      i_nd    : NoDup known;
      i_known : forall k, In k known -> expandable k = true;
      i_W     : forall w, In w W -> reach entity w;
      i_seen  : forall k, k = entity \/ In k known -> In k W \/ In k V;
      i_edge  : forall v k, In v V -> edge v k -> ~ T k /\ (expandable k = false \/ k = entity \/ In k known)
    }.

    Lemma inv_init : Inv [] [] [entity].
    Proof.
      constructor.
      - constructor.
      - intros k [].
      - intros w [<-|[]]. apply r_refl.
      - intros k [->|[]]. left; left; reflexivity.
      - intros v k [].
    Qed.

    (* one iteration, for a present and for an absent candidate: on the [] of an absent one [scan] does nothing *)
    Lemma inv_step V known cand todo known' todo' :
      Inv V known (cand :: todo) ->
      (forall k, In k (succs cand) -> ~ T k) ->
      scan entity (succs cand) known todo = (known', todo') ->
      Inv (cand :: V) known' todo' /\ length known' + length todo = length known + length todo'.
    Proof.
      intros HI HT Hs.
      destruct (scan_spec entity _ _ _ _ _ Hs) as [new [-> [-> [Hnd [Hnew Hall]]]]].
      split; [|rewrite !app_length; lia]. constructor.
      - apply Hnd, (i_nd _ _ _ HI).
      - intros k Hk. apply in_app_or in Hk.
        destruct Hk as [Hk|Hk]; [apply (Hnew k Hk) | apply (i_known _ _ _ HI k Hk)].
      - intros w Hw. apply in_app_or in Hw. destruct Hw as [Hw|Hw].
        + apply r_step with cand; [apply (i_W _ _ _ HI); left; reflexivity | apply edge_succs, Hnew, Hw].
        + apply (i_W _ _ _ HI). right. exact Hw.
      - intros k Hk.
        assert (Hold : k = entity \/ In k known -> In k (new ++ todo) \/ In k (cand :: V)).
        { intros H. destruct (i_seen _ _ _ HI k H) as [[H'|H']|H'].
          - right; left. exact H'.
          - left. apply in_or_app. right. exact H'.
          - right; right. exact H'. }
        destruct Hk as [Hk|Hk]; [apply Hold; left; exact Hk|]. apply in_app_or in Hk.
        destruct Hk as [Hk|Hk]; [left; apply in_or_app; left; exact Hk | apply Hold; right; exact Hk].
      - intros v k [<-|Hv] He.
        + apply edge_succs in He. split; [apply HT, He | apply Hall, He].
        + destruct (i_edge _ _ _ HI v k Hv He) as [A B]. split; [exact A|].
          destruct B as [B|[B|B]]; [left; exact B | right; left; exact B |].
          right; right. apply in_or_app. right. exact B.
    Qed.

    Lemma inv_bound V known W : Inv V known W -> length known <= length keys.
    Proof.
      intros HI. apply NoDup_incl_length; [apply (i_nd _ _ _ HI)|].
      intros k Hk. apply (i_known _ _ _ HI) in Hk. unfold Cedar.Impl.InSearch.expandable in Hk.
      destruct (parents k) as [ps|] eqn:E; [apply (keys_complete k ps E) | discriminate].
    Qed.

    (* with an empty work list [V] is closed under the edges the loop follows, and no edge leaves it for a target *)
    Lemma inv_final V known : ~ T entity -> Inv V known [] -> forall p, T p -> ~ reach entity p.
    Proof.
      intros HnT HI.
      assert (Hseen : forall k, k = entity \/ In k known -> In k V).
      { intros k Hk. destruct (i_seen _ _ _ HI k Hk) as [[]|H]. exact H. }
      assert (Hclo : forall y, reach entity y -> forall z, edge y z -> In y V).
      { intros y Hy. induction Hy as [|x y Hx IH Hxy]; intros z Hyz; [apply Hseen; left; reflexivity|].
        destruct (i_edge _ _ _ HI x y (IH y Hxy) Hxy) as [_ [H|[H|H]]].
        - apply edge_expandable in Hyz. congruence.
        - apply Hseen. left. exact H.
        - apply Hseen. right. exact H. }
      intros p Hp Hr. destruct Hr as [|y z Hy Hyz]; [exact (HnT Hp)|].
      exact (proj1 (i_edge _ _ _ HI y z (Hclo y Hy z Hyz) Hyz) Hp).
    Qed.

    (* total correctness of the loop: the measure |W| + (|keys| - |known|) drops by one per iteration *)
    Lemma loop_total_correct : forall fuel V known todo cand,
      ~ T entity -> Inv V known (cand :: todo) ->
      length (cand :: todo) + (length keys - length known) <= fuel ->
      exists b, loop fuel hit entity known todo cand = Some b /\
                (b = true <-> exists p, T p /\ reach entity p).
    Proof.
      induction fuel as [|f IH]; intros V known todo cand HnT HI Hfuel; cbn [length] in Hfuel; [lia|].
      (* present or not, a candidate without a hit continues in the same way on the outcome of [scan] *)
      assert (Hnext : (forall k, In k (succs cand) -> ~ T k) ->
                exists b, (let '(known', todo') := scan entity (succs cand) known todo in
                           match todo' with [] => Some false | c :: t => loop f hit entity known' t c end) = Some b /\
                          (b = true <-> exists p, T p /\ reach entity p)).
      { intros HT. destruct (scan entity (succs cand) known todo) as [known' todo'] eqn:Hs.
        destruct (inv_step _ _ _ _ _ _ HI HT Hs) as [HI' Hlen].
        pose proof (inv_bound _ _ _ HI') as Hb. destruct todo' as [|c t].
        - exists false. split; [reflexivity|]. split; [discriminate|].
          intros [p [Hp Hr]]. destruct (inv_final _ _ HnT HI' p Hp Hr).
        - apply (IH (cand :: V)); [exact HnT | exact HI' |]. cbn [length] in *. lia. }
      cbn [Cedar.Impl.InSearch.loop]. unfold succs in Hnext.
      destruct (parents cand) as [ps|] eqn:Hl.
      - destruct (hit ps) eqn:Hm.
        + exists true. split; [reflexivity|]. split; [intros _ | reflexivity].
          apply hit_spec in Hm. destruct Hm as [p [Hin Hp]]. exists p. split; [exact Hp|].
          apply r_step with cand; [apply (i_W _ _ _ HI); left; reflexivity | exists ps; split; assumption].
        + apply Hnext. intros k Hk Hp.
          rewrite (proj2 (hit_spec ps)) in Hm; [discriminate | exists k; split; assumption].
      - apply Hnext. intros k [].
    Qed.

    (* the whole search: [t] is the test for [entity] itself being a target *)
    Lemma search_correct fuel (t : bool) : S (length keys) <= fuel -> (t = true <-> T entity) ->
      exists b, (if t then Some true else loop fuel hit entity [] [] entity) = Some b /\
                (b = true <-> exists p, T p /\ reach entity p).
    Proof.
      intros Hfuel Ht. destruct t.
      - exists true. split; [reflexivity|]. split; [intros _ | reflexivity].
        exists entity. split; [apply Ht; reflexivity | apply r_refl].
      - apply (loop_total_correct fuel []); [intros H; apply Ht in H; discriminate | apply inv_init |].
        cbn [length]. lia.
    Qed.
  End Loop.

  Theorem in_one_correct : forall fuel a b, (S (length keys) <= fuel)%nat ->
    exists r, entity_in_one id eqb parents fuel a b = Some r /\ (r = true <-> reach a b).
  Proof.
    intros fuel a b Hfuel.
    destruct (search_correct (fun ps => mem b ps) (fun p => p = b)) with (entity := a) (fuel := fuel) (t := eqb a b)
      as [r [Hr Hiff]]; [| exact Hfuel | apply eqb_eq |].
    - intros ps. rewrite mem_In. split; [intros H; exists b; auto | intros [p [H ->]]; exact H].
    - exists r. split; [exact Hr|]. rewrite Hiff.
      split; [intros [p [-> H]]; exact H | intros H; exists b; auto].
  Qed.

  Theorem in_set_correct : forall fuel a bs, (S (length keys) <= fuel)%nat ->
    exists r, entity_in_set id eqb parents fuel a bs = Some r /\
              (r = true <-> exists b, In b bs /\ reach a b).
  Proof.
    intros fuel a bs Hfuel.
    apply (search_correct (fun ps => existsb (fun p => mem p bs) ps) (fun p => In p bs));
      [| exact Hfuel | apply mem_In].
    intros ps. rewrite existsb_exists. setoid_rewrite mem_In. reflexivity.
  Qed.
End InSearchProofs.

Lemma reach_mono {id} (p1 p2 : id -> option (list id)) a b :
  (forall x y, edge id p1 x y -> edge id p2 x y) -> reach id p1 a b -> reach id p2 a b.
Proof.
  intros H Hr. induction Hr as [|y z Hy IH Hyz]; [apply r_refl | apply r_step with y; [exact IH | apply H, Hyz]].
Qed.

(* Impl/Eval.v: the store as the graph, its keys as the bound *)
Definition reach_st (st : store) : uid -> uid -> Prop := reach uid (parents_of st).

Lemma parents_of_in_keys (st : store) k ps : parents_of st k = Some ps -> In k (map fst st).
Proof.
  unfold parents_of. induction st as [|[k' e] st IH]; cbn [lookup map fst option_map]; [discriminate|].
  destruct (uid_eqb k' k) eqn:E; [intros _; left; apply uid_eqb_eq, E | intros H; right; apply IH, H].
Qed.

Theorem eval_in_one_correct : forall (st : store) a b,
  exists r, in_one st a b = Some r /\ (r = true <-> reach_st st a b).
Proof.
  intros st a b. unfold in_one, reach_st.
  apply (in_one_correct uid uid_eqb uid_eqb_eq (parents_of st) (map fst st) (parents_of_in_keys st)).
  rewrite map_length. apply le_n.
Qed.

Theorem eval_in_set_correct : forall (st : store) a bs,
  exists r, in_set st a bs = Some r /\ (r = true <-> exists b, In b bs /\ reach_st st a b).
Proof.
  intros st a bs. unfold in_set, reach_st.
  apply (in_set_correct uid uid_eqb uid_eqb_eq (parents_of st) (map fst st) (parents_of_in_keys st)).
  rewrite map_length. apply le_n.
Qed.

(* two searches that decide equivalent propositions return the same result *)
Lemma same_decision (o1 o2 : option bool) (Q1 Q2 : Prop) :
  (exists r, o1 = Some r /\ (r = true <-> Q1)) -> (exists r, o2 = Some r /\ (r = true <-> Q2)) ->
  (Q1 <-> Q2) -> o1 = o2.
Proof.
  intros [r1 [-> H1]] [r2 [-> H2]] HQ. f_equal. apply eq_true_iff_eq. rewrite H1, H2. exact HQ.
Qed.

Definition ex_uid (n : Z) : uid := ([69%Z], [n]).            (* E::"<n>" *)
Definition ex_ent (ps : list Z) : entity :=
  {| e_parents := map ex_uid ps; e_attrs := []; e_tags := [] |}.

(* a cyclic graph 0 -> 1 -> 2 -> 0, 2 -> 3, 3 -> 3 (self loop), 4 -> 0 *)
Definition ex_cyclic : store :=
  [ (ex_uid 0, ex_ent [1]); (ex_uid 1, ex_ent [2]); (ex_uid 2, ex_ent [0; 3]);
    (ex_uid 3, ex_ent [3]); (ex_uid 4, ex_ent [0]) ]%Z.

Example ex_cyclic_ok :
  ( in_one ex_cyclic (ex_uid 0) (ex_uid 3),
    in_one ex_cyclic (ex_uid 0) (ex_uid 4),
    in_one ex_cyclic (ex_uid 3) (ex_uid 0),
    in_one ex_cyclic (ex_uid 2) (ex_uid 2),
    in_set ex_cyclic (ex_uid 4) [ex_uid 7; ex_uid 3],
    in_set ex_cyclic (ex_uid 1) [ex_uid 4; ex_uid 9] )%Z
  = (Some true, Some false, Some false, Some true, Some true, Some false).
Proof. vm_compute. reflexivity. Qed.

(* a graph with absent parents: 0 -> {9 (absent), 1}, 1 -> {8 (absent)}, 2 -> {} ;
   absent nodes are reachable as targets but are never expanded *)
Definition ex_absent : store :=
  [ (ex_uid 0, ex_ent [9; 1]); (ex_uid 1, ex_ent [8]); (ex_uid 2, ex_ent []) ]%Z.

Example ex_absent_ok :
  ( in_one ex_absent (ex_uid 0) (ex_uid 9),
    in_one ex_absent (ex_uid 0) (ex_uid 8),
    in_one ex_absent (ex_uid 9) (ex_uid 9),
    in_one ex_absent (ex_uid 9) (ex_uid 0),
    in_one ex_absent (ex_uid 0) (ex_uid 2),
    in_set ex_absent (ex_uid 0) [ex_uid 2; ex_uid 8],
    in_set ex_absent (ex_uid 7) [ex_uid 0; ex_uid 1],
    in_set ex_absent (ex_uid 2) [] )%Z
  = (Some true, Some true, Some true, Some false, Some false, Some true, Some false, Some false).
Proof. vm_compute. reflexivity. Qed.

Print Assumptions in_one_correct.
Print Assumptions in_set_correct.
Print Assumptions eval_in_one_correct.
Print Assumptions eval_in_set_correct.
