(* The tokenizer reads back the printer's tokens, at BYTE level:
     spec_tokenize f (render items) = Some (Some ts)  with  map strip ts = toks items ++ [(TEOF, [])].

   1. cursor states described by the consumed prefix / unread rest of the source ([at_]); one character step ([cstep]);
   2. lexemes ([lexeme]: identifiers, reserved words, integers, string literals as sequences of [sunit]s, operators),
      the separation condition [sepb], the type the tokenizer reports ([retype]);
   3. [next_token] over the cursor reads one lexeme after any white space ([ntok_lex]; the scanners of the token classes:
      [sw_run], [sop_lex], [sstr_body]), or the end of the input ([ntok_eof]);
   4. the generic, printer-independent theorems [lex_render_generic] / [lex_render_strict] for every item list satisfying
      [lexk] (every token is a lexeme, every blank is white space, no token merges with the byte that follows it);
   5. string literals: [quote_string], [quote_pattern] and quoted plain texts are string lexemes - full UTF-8, for ALL
      tables is_printable / is_gext (no table hypothesis is needed: scan_string accepts every raw rune that
      escape_rune can emit);
   6. the printer's item lists satisfy [lexk]: values, expressions (every constructor), policies, documents:
        lex_render_expr, lex_render_policy (+ _gen), lex_render_document (+ _gen, _ws).
      The unconditional policy statement is false ([lex_render_policy_counterexample]): annots_ok allows reserved words as
      annotation keys; the item list of the printer model types such a key as an identifier, the tokenizer reports a
      reserved word.  Proved: the exact statement when no annotation key is reserved, and the general statement up to [retype];
   7. positions do not matter to the parser ([p_policies_map] and the [*_map] lemmas: parsing position-erased tokens gives the
      position-erased result), hence the end-to-end theorem [text_roundtrip_document_gen]: print to bytes, tokenize, parse =
      the policies, normalised - reserved annotation keys included ([text_roundtrip_document] is its special case under the
      side condition of 6);
   8. a sound boolean checker [lexkb] for [lexk] ([lex_render_checked]); its token part [lexemeb] stands between 5 and 6. *)
From Coq Require Import ZArith List Bool String Lia Arith.
Import ListNotations.
From Cedar Require Import Base.Int64 Base.Utf8 Base.Utf8Enc Lang.Value Impl.Like Lang.Expr Impl.Eval Impl.Text Impl.Decimal Impl.Duration
  Impl.Datetime Impl.Scanner Impl.Tokenizer Lang.Cursor Impl.Quote Impl.Parser Impl.Printer Lang.RoundTrip.
From Cedar Require Import Proofs.QuoteProofs Proofs.CursorProofs.
From Cedar Require Proofs.ParserRoundTrip Proofs.TextProofs Proofs.ValueProofs.
Local Open Scope Z_scope.
Local Open Scope list_scope.
Local Notation length := List.length.

Definition strip (t : token) : toktype * str := (t_type t, t_text t).

(* 1. Cursor states *)

(* the lookahead character (and its width) when [rest] is what remains of the source, lookahead included *)
Definition look (rest : str) : Z * nat := match rest with [] => (rune_eof, 0%nat) | b :: r => dec1 b r end.

(* reading the first character of [rest] does not raise the error flag *)
Definition ghead (rest : str) : Prop :=
  match rest with
  | [] => True
  | b :: r => fst (dec1 b r) <> 0 /\ (128 <=? b) && (fst (dec1 b r) =? rune_error) && Nat.eqb (snd (dec1 b r)) 1 = false
  end.

(* [at_ pre rest s ch]: the cursor [s] over [pre ++ rest] has consumed [pre] and the lookahead character [ch], which is
   the first character of [rest] (or EOF); no error so far *)
Definition at_ (pre rest : str) (s : cursor) (ch : Z) : Prop :=
  c_src s = pre ++ rest /\ c_err s = false /\ ch = fst (look rest) /\
  c_idx s = (length pre + snd (look rest))%nat /\ c_lastCharLen s = snd (look rest).

(* first byte of [l], or [c] when [l] is empty *)
Definition nextb (l : str) (c : Z) : Z := match l with [] => c | b :: _ => b end.

(* the rest starts with a non-NUL ASCII byte or is empty *)
Definition ahead (rest : str) : Prop := match rest with [] => True | b :: _ => 0 < b < 128 end.

Lemma look_ascii : forall b r, b < 128 -> look (b :: r) = (b, 1%nat).
Proof. intros b r H. cbn [look]. unfold dec1. destruct (Z.ltb_spec b 128); [reflexivity | lia]. Qed.

Lemma ghead_ascii : forall b r, 0 < b < 128 -> ghead (b :: r).
Proof.
  intros b r H. cbn [ghead]. unfold dec1. destruct (Z.ltb_spec b 128); [|lia]. cbn [fst snd].
  split; [lia|]. destruct (Z.leb_spec 128 b); [lia | reflexivity].
Qed.

Lemma ahead_ghead : forall rest, ahead rest -> ghead rest.
Proof. intros [|b r] H; [exact I | apply ghead_ascii; exact H]. Qed.

Lemma ahead_look : forall rest, ahead rest -> fst (look rest) = nextb rest rune_eof.
Proof. intros [|b r] H; [reflexivity|]. cbn [ahead] in H. rewrite look_ascii by lia. reflexivity. Qed.

Lemma look_rune : forall r tail, valid_rune r = true -> 128 <= r ->
  look (encode_rune r ++ tail) = (r, length (encode_rune r)) /\ ghead (encode_rune r ++ tail).
Proof.
  intros r tail Hv Hr.
  destruct (encode_rune_bytes r Hv) as [[H _] | [_ Hb]]; [lia|].
  destruct (encode_rune_length r Hv) as [Hl1 Hl2].
  pose proof (decode_encode_rune r tail Hv) as Hd.
  destruct (encode_rune r) as [|b0 bs] eqn:E; [cbn [length] in Hl1; lia|].
  assert (Hb0 : 128 <= b0) by (inversion Hb; assumption).
  assert (Hdec : dec1 b0 (bs ++ tail) = (r, length (b0 :: bs))).
  { unfold dec1. destruct (Z.ltb_spec b0 128); [lia|]. exact Hd. }
  cbn [app look ghead]. rewrite Hdec. cbn [fst snd]. split; [reflexivity|]. split; [lia|].
  destruct (Nat.eqb_spec (length (b0 :: bs)) 1) as [E1|E1]; [|rewrite andb_false_r; reflexivity].
  specialize (Hl2 ltac:(lia)). lia.
Qed.

(* c_next when [rest] is what is left of the source after the lookahead character *)
Lemma c_next_rest : forall s rest, skipn (c_idx s) (c_src s) = rest -> c_err s = false -> ghead rest ->
  exists s', c_next s = (s', fst (look rest)) /\ c_src s' = c_src s /\ c_err s' = false /\
             c_idx s' = (c_idx s + snd (look rest))%nat /\ c_lastCharLen s' = snd (look rest) /\ c_tok s' = c_tok s.
Proof.
  intros s rest Hs He Hg. unfold c_next. rewrite Hs. destruct rest as [|b r].
  - eexists. split; [reflexivity|]. cbn [c_src c_err c_idx c_lastCharLen c_tok look fst snd]. repeat split; [exact He | lia].
  - cbn [ghead] in Hg. cbn [look].
    change (if b <? 128 then (b, 1%nat) else decode_rune (b :: r)) with (dec1 b r).
    destruct (dec1 b r) as [ch' w]. cbn [fst snd] in Hg |- *. destruct Hg as [Hnz Hinv].
    rewrite Hinv. replace (ch' =? 0) with false by (symmetry; apply Z.eqb_neq; exact Hnz). cbn [orb].
    eexists. split; [reflexivity|]. cbn [c_src c_err c_idx c_lastCharLen c_tok]. repeat split; exact He.
Qed.

(* one character *)
Lemma cstep : forall pre u rest s ch, at_ pre (u ++ rest) s ch -> snd (look (u ++ rest)) = length u -> ghead rest ->
  exists s', c_next s = (s', fst (look rest)) /\ at_ (pre ++ u) rest s' (fst (look rest)) /\ c_tok s' = c_tok s.
Proof.
  intros pre u rest s ch (Hsrc & Herr & Hch & Hidx & Hlen) Hw Hg.
  destruct (c_next_rest s rest ltac:(rewrite Hsrc, Hidx, Hw, app_assoc, <- app_length; apply skipn_app_length) Herr Hg) as (s' & E & Es & Ee & Ei & El & Et).
  exists s'. split; [exact E|]. split; [|exact Et].
  unfold at_. rewrite Es, Ee, Ei, El, Hsrc, Hidx, Hw, app_length, <- app_assoc. repeat split.
Qed.

(* one ASCII character *)
Lemma cstep1 : forall pre b rest s ch, at_ pre (b :: rest) s ch -> b < 128 -> ghead rest ->
  exists s', c_next s = (s', fst (look rest)) /\ at_ (pre ++ [b]) rest s' (fst (look rest)) /\ c_tok s' = c_tok s.
Proof.
  intros pre b rest s ch H Hb Hg. apply (cstep pre [b] rest s ch); [exact H | | exact Hg].
  cbn [app]. rewrite look_ascii by exact Hb. reflexivity.
Qed.

(* the start: the cursor after reading the first character *)
Lemma at_init : forall src, ghead src -> at_ [] src (fst (c_next (c_init src))) (snd (c_next (c_init src))).
Proof.
  intros src Hg. destruct (c_next_rest (c_init src) src eq_refl eq_refl Hg) as (s' & E & Es & Ee & Ei & El & _).
  rewrite E. cbn [fst snd]. unfold at_. rewrite Es, Ee, Ei, El. repeat split.
Qed.

Lemma at_ch : forall pre rest s ch, at_ pre rest s ch -> ch = fst (look rest).
Proof. intros pre rest s ch (_ & _ & H & _). exact H. Qed.

Lemma at_ch_ascii : forall pre b rest s ch, at_ pre (b :: rest) s ch -> b < 128 -> ch = b.
Proof. intros pre b rest s ch H Hb. rewrite (at_ch _ _ _ _ H), look_ascii by exact Hb. reflexivity. Qed.

Lemma at_token_start : forall pre rest s ch, at_ pre rest s ch ->
  at_ pre rest (c_token_start s) ch /\ c_tok (c_token_start s) = Some (length pre).
Proof.
  intros pre rest s ch (Hsrc & Herr & Hch & Hidx & Hlen). split.
  - unfold at_. cbn [c_token_start c_src c_err c_idx c_lastCharLen]. repeat split; assumption.
  - cbn [c_token_start c_tok]. rewrite Hidx, Hlen. f_equal. lia.
Qed.

Lemma at_token_text : forall pre text rest s ch, at_ (pre ++ text) rest s ch -> c_tok s = Some (length pre) ->
  c_token_text s = text.
Proof.
  intros pre text rest s ch (Hsrc & Herr & Hch & Hidx & Hlen) Htok.
  unfold c_token_text. rewrite Htok, Hsrc, Hidx, Hlen, app_length.
  replace (length pre + length text + snd (look rest) - snd (look rest) - length pre)%nat with (length text) by lia.
  rewrite <- app_assoc, skipn_app_length. rewrite firstn_app, Nat.sub_diag, firstn_all. cbn [firstn]. apply app_nil_r.
Qed.

Lemma at_err : forall pre rest s ch, at_ pre rest s ch -> c_err s = false.
Proof. intros pre rest s ch (_ & H & _). exact H. Qed.

Lemma ghead_run : forall (P : Z -> Prop) run rest, Forall (fun b => 0 < b < 128 /\ P b) run -> ghead rest -> ghead (run ++ rest).
Proof. intros P run rest H Hg. destruct H as [|b run' [Hb _] _]; [exact Hg | apply ghead_ascii; exact Hb]. Qed.

(* a run of ASCII characters satisfying [p], stopped by a character that does not *)
Lemma sw_run : forall (p : Z -> bool) run rest,
  Forall (fun b => 0 < b < 128 /\ p b = true) run -> p (fst (look rest)) = false -> ghead rest ->
  forall fuel pre s ch, at_ pre (run ++ rest) s ch -> (length run < fuel)%nat ->
  exists s', scan_while cursor nxt fuel p s ch = Some (s', fst (look rest)) /\
             at_ (pre ++ run) rest s' (fst (look rest)) /\ c_tok s' = c_tok s.
Proof.
  intros p run rest Hrun Hstop Hg. induction Hrun as [|b run [Hb Hp] Hrun IH]; intros fuel pre s ch Hat Hf.
  - destruct fuel as [|f]; [cbn [length] in Hf; lia|]. cbn [app] in Hat. pose proof (at_ch _ _ _ _ Hat) as ->.
    cbn [scan_while]. rewrite Hstop. exists s. rewrite app_nil_r. split; [reflexivity|]. split; [exact Hat | reflexivity].
  - destruct fuel as [|f]; [cbn [length] in Hf; lia|]. cbn [app] in Hat.
    pose proof (at_ch_ascii _ _ _ _ _ Hat ltac:(lia)) as ->.
    cbn [scan_while]. rewrite Hp. unfold nxt at 1.
    destruct (cstep1 _ _ _ _ _ Hat ltac:(lia) (ghead_run _ _ _ Hrun Hg)) as (s1 & E1 & A1 & T1). rewrite E1.
    destruct (IH f _ _ _ A1 ltac:(cbn [length] in Hf; lia)) as (s' & E' & A' & T').
    exists s'. split; [exact E'|]. split; [rewrite <- app_assoc in A'; exact A' | congruence].
Qed.

(* 2. Lexemes *)

Definition esc_chars : list Z := [110; 114; 116; 92; 48; 39; 34; 42].

(* the body of a string literal, as a sequence of units [scan_string] steps over *)
Inductive sunit : str -> Prop :=
| su_ascii : forall b, 0 < b < 128 -> b <> 34 -> b <> 10 -> b <> 92 -> sunit [b]
| su_rune : forall r, valid_rune r = true -> 128 <= r -> sunit (encode_rune r)
| su_esc : forall c, In c esc_chars -> sunit [92; c]
| su_u : forall hs, (1 <= length hs <= 6)%nat -> Forall (fun h => is_hex h = true) hs -> sunit ([92; 117; 123] ++ hs ++ [125])
| su_x : forall h1 h2, is_hex h1 = true -> is_hex h2 = true -> sunit [92; 120; h1; h2].

Inductive sbody : str -> Prop :=
| sb_nil : sbody []
| sb_cons : forall u r, sunit u -> sbody r -> sbody (u ++ r).

Definition ident_shape (t : str) : Prop :=
  match t with [] => False | c :: r => is_ident_rune c true = true /\ forallb (fun x => is_ident_rune x false) r = true end.

Definition op_texts : list str :=
  map s_of ["@"; "."; ","; ";"; "("; ")"; "{"; "}"; "["; "]"; "+"; "-"; "*"; ":"; "::"; "!"; "<"; ">"; "!="; "<="; ">="; "=="; "&&"; "||"]%string.

(* [text] is exactly one token of type [ty].  [strict]: an identifier token is not a reserved word (the tokenizer
   re-types those) *)
Definition lexeme (strict : bool) (ty : toktype) (text : str) : Prop :=
  match ty with
  | TIdent => ident_shape text /\ (strict = true -> is_reserved text = false)
  | TReserved => ident_shape text /\ is_reserved text = true
  | TInt => text <> [] /\ forallb is_num text = true
  | TString => exists body, text = 34 :: body ++ [34] /\ sbody body
  | TOperator => In text op_texts
  | TEOF | TUnknown => False
  end.

(* the character [c] after the token (EOF = -1) does not extend it *)
Definition sepb (ty : toktype) (text : str) (c : Z) : bool :=
  match ty with
  | TIdent | TReserved => negb (is_ident_rune c false)
  | TInt => negb (is_num c)
  | TString => true
  | TOperator => if str_eqb text [58] then negb (c =? 58)
                 else if str_eqb text [33] || str_eqb text [60] || str_eqb text [62] then negb (c =? 61) else true
  | TEOF | TUnknown => false
  end.

(* the type the tokenizer reports *)
Definition retype (tt : toktype * str) : toktype * str :=
  match fst tt with TIdent => if is_reserved (snd tt) then (TReserved, snd tt) else tt | _ => tt end.

Lemma ident_rune_range : forall c b, is_ident_rune c b = true ->
  c = 95 \/ 65 <= c <= 90 \/ 97 <= c <= 122 \/ (48 <= c <= 57 /\ b = false).
Proof.
  intros c b H. unfold is_ident_rune, is_letter, is_num in H.
  rewrite !orb_true_iff, !andb_true_iff, !Z.leb_le, Z.eqb_eq, negb_true_iff in H.
  destruct H as [[H|[H|H]]|[H Hb]]; [left; exact H | right; left; lia | right; right; left; lia | right; right; right; split; [lia | exact Hb]].
Qed.

Lemma is_num_range : forall c, is_num c = true -> 48 <= c <= 57.
Proof. intros c H. unfold is_num in H. rewrite andb_true_iff, !Z.leb_le in H. exact H. Qed.

Lemma not_ws : forall c, c <> 9 -> c <> 10 -> c <> 13 -> c <> 32 -> is_ws c = false.
Proof.
  intros c H1 H2 H3 H4. unfold is_ws.
  rewrite (proj2 (Z.eqb_neq c 9) H1), (proj2 (Z.eqb_neq c 10) H2), (proj2 (Z.eqb_neq c 13) H3), (proj2 (Z.eqb_neq c 32) H4).
  reflexivity.
Qed.

Lemma not_num : forall c, c < 48 \/ 57 < c -> is_num c = false.
Proof.
  intros c H. unfold is_num. destruct (Z.leb_spec 48 c); [|reflexivity]. destruct (Z.leb_spec c 57); [lia | reflexivity].
Qed.

Lemma not_ident : forall c b, c < 48 \/ 57 < c < 65 \/ 90 < c < 95 \/ c = 96 \/ 122 < c -> is_ident_rune c b = false.
Proof.
  intros c b H. unfold is_ident_rune, is_letter. rewrite not_num by lia.
  destruct (Z.eqb_spec c 95); [lia|].
  destruct (Z.leb_spec 65 c); destruct (Z.leb_spec c 90); destruct (Z.leb_spec 97 c); destruct (Z.leb_spec c 122);
    try lia; reflexivity.
Qed.

Lemma ident_rune_facts : forall c b, is_ident_rune c b = true ->
  0 < c < 128 /\ is_ws c = false /\ (c =? rune_eof) = false /\ (c =? 34) = false /\ (c =? 47) = false /\ (b = true -> is_num c = false).
Proof.
  intros c b H. apply ident_rune_range in H. unfold rune_eof.
  split; [lia|]. split; [apply not_ws; lia|]. split; [apply Z.eqb_neq; lia|]. split; [apply Z.eqb_neq; lia|].
  split; [apply Z.eqb_neq; lia|]. intros ->. apply not_num. lia.
Qed.

Lemma num_facts : forall c, is_num c = true ->
  0 < c < 128 /\ is_ws c = false /\ (c =? rune_eof) = false /\ is_ident_rune c true = false.
Proof.
  intros c H. pose proof (is_num_range c H) as R. unfold rune_eof.
  split; [lia|]. split; [apply not_ws; lia|]. split; [apply Z.eqb_neq; lia|].
  unfold is_ident_rune, is_letter. rewrite H. cbn [negb andb]. rewrite orb_false_r.
  destruct (Z.eqb_spec c 95); [lia|].
  destruct (Z.leb_spec 65 c); destruct (Z.leb_spec c 90); destruct (Z.leb_spec 97 c); destruct (Z.leb_spec c 122);
    try lia; reflexivity.
Qed.

(* 3. next_token reads one lexeme *)

Lemma sw_stop : forall (p : Z -> bool) f s ch, p ch = false -> scan_while cursor nxt (S f) p s ch = Some (s, ch).
Proof. intros p f s ch H. cbn [scan_while]. rewrite H. reflexivity. Qed.

Lemma ntok_skip : forall f s ch s0 ch0, scan_while cursor nxt (S f) is_ws s ch = Some (s0, ch0) -> is_ws ch0 = false ->
  ntok (S f) s ch = ntok (S f) s0 ch0.
Proof.
  intros f s ch s0 ch0 H H0. unfold ntok. cbn [next_token]. rewrite H.
  assert (H1 : scan_while cursor nxt (S f) is_ws s0 ch0 = Some (s0, ch0)) by (cbn [scan_while]; rewrite H0; reflexivity).
  rewrite H1. reflexivity.
Qed.

(* a run for [sw_run]: bytes satisfying [p], all of them non-NUL ASCII *)
Lemma run_of : forall (p : Z -> bool) l, (forall x, p x = true -> 0 < x < 128) -> forallb p l = true ->
  Forall (fun b => 0 < b < 128 /\ p b = true) l.
Proof. intros p l Hp H. apply Forall_forall. intros x Hx. rewrite forallb_forall in H. split; [apply Hp|]; exact (H x Hx). Qed.

(* the token is complete: [s'] has consumed exactly [text] since the token started *)
Lemma ntok_finish : forall ty pre text rest s' off line col,
  at_ (pre ++ text) rest s' (fst (look rest)) -> c_tok s' = Some (length pre) ->
  exists t s'',
    Some ({| t_type := match ty with TIdent => if is_reserved (c_token_text s') then TReserved else TIdent | _ => ty end;
             t_off := off; t_line := line; t_col := col; t_text := c_token_text s' |}, s', fst (look rest))
    = Some (t, s'', fst (look rest)) /\ strip t = retype (ty, text) /\ at_ (pre ++ text) rest s'' (fst (look rest)).
Proof.
  intros ty pre text rest s' off line col A T. eexists _, _. split; [reflexivity|]. split; [|exact A].
  unfold strip, retype. cbn [t_type t_text fst snd]. rewrite (at_token_text pre text rest s' _ A T).
  destruct ty; try reflexivity. destruct (is_reserved text); reflexivity.
Qed.

Lemma ntok_eof : forall pre s ch f, at_ pre [] s ch ->
  exists t s', ntok (S f) s ch = Some (t, s', rune_eof) /\ strip t = (TEOF, []) /\ at_ pre [] s' rune_eof.
Proof.
  intros pre s ch f Hat. pose proof (at_ch _ _ _ _ Hat) as ->. cbn [look fst].
  destruct (at_token_start _ _ _ _ Hat) as (A1 & T1).
  unfold ntok. cbn [next_token]. rewrite (sw_stop is_ws) by reflexivity.
  destruct (c_token_position (c_token_start s)) as [[off line] col].
  change (rune_eof =? rune_eof) with true. cbv iota.
  eexists _, _. split; [reflexivity|]. split; [|exact A1].
  unfold strip. cbn [t_type t_text]. rewrite <- (app_nil_r pre) in A1.
  rewrite (at_token_text pre [] [] _ _ A1) by exact T1. reflexivity.
Qed.

Definition op_ok1 (t : str) : bool :=
  match t with
  | [] => false
  | c0 :: tail => (0 <? c0) && (c0 <? 128) && negb (is_ws c0) && negb (c0 =? rune_eof) && negb (is_ident_rune c0 true)
                  && negb (is_num c0) && negb (c0 =? 34) && negb (c0 =? 47) && forallb (fun b => (0 <? b) && (b <? 128)) tail
  end.

Lemma op_texts_ok1 : forallb op_ok1 op_texts = true.
Proof. vm_compute. reflexivity. Qed.

Lemma op_first_facts : forall c0 tail, In (c0 :: tail) op_texts ->
  0 < c0 < 128 /\ is_ws c0 = false /\ (c0 =? rune_eof) = false /\ is_ident_rune c0 true = false /\ is_num c0 = false /\
  (c0 =? 34) = false /\ (c0 =? 47) = false /\ forall rest, ghead rest -> ghead (tail ++ rest).
Proof.
  intros c0 tail Hin. pose proof op_texts_ok1 as H. rewrite forallb_forall in H. specialize (H _ Hin).
  cbn [op_ok1] in H. rewrite !andb_true_iff, !negb_true_iff, !Z.ltb_lt in H.
  destruct H as ((((((((H1 & H2) & H3) & H4) & H5) & H6) & H7) & H8) & Ht). repeat split; try assumption.
  intros rest Hg. destruct tail as [|b t]; [exact Hg|]. cbn [forallb] in Ht.
  rewrite !andb_true_iff, !Z.ltb_lt in Ht. apply ghead_ascii. lia.
Qed.

Lemma sop_lex : forall text, In text op_texts -> forall c0 tail, text = c0 :: tail ->
  forall rest pre s2 ch2, sepb TOperator text (fst (look rest)) = true -> ghead rest ->
  at_ (pre ++ [c0]) (tail ++ rest) s2 ch2 ->
  exists s3, scan_operator cursor nxt s2 c0 ch2 = Some (TOperator, s3, fst (look rest)) /\
             at_ (pre ++ text) rest s3 (fst (look rest)) /\ c_tok s3 = c_tok s2.
Proof.
  intros text Hin. unfold op_texts in Hin. cbn [map In] in Hin.
  repeat (destruct Hin as [<- | Hin]); try (destruct Hin);
    intros c0 tail E; vm_compute in E; injection E as <- <-; intros rest pre s2 ch2 Hsep Hg Hat; cbn [app] in Hat;
    first
      [ (* two characters *)
        pose proof (at_ch_ascii _ _ _ _ _ Hat ltac:(lia)) as ->;
        destruct (cstep1 _ _ _ _ _ Hat ltac:(lia) Hg) as (s3 & E3 & A3 & T3); exists s3;
        split; [unfold scan_operator, nxt; rewrite E3; reflexivity | split; [rewrite <- app_assoc in A3; exact A3 | exact T3]]
      | (* one character *)
        pose proof (at_ch _ _ _ _ Hat) as ->; exists s2;
        split; [| split; [exact Hat | reflexivity]];
        first [ reflexivity
              | change (negb (fst (look rest) =? 58) = true) in Hsep; apply negb_true_iff in Hsep;
                unfold scan_operator; rewrite Hsep; reflexivity
              | change (negb (fst (look rest) =? 61) = true) in Hsep; apply negb_true_iff in Hsep;
                unfold scan_operator; rewrite Hsep; reflexivity ] ].
Qed.

Lemma is_hex_range : forall h, is_hex h = true -> 48 <= h <= 102.
Proof.
  intros h H. unfold is_hex, is_num in H. rewrite !orb_true_iff, !andb_true_iff, !Z.leb_le in H. lia.
Qed.

Lemma ghead_hex : forall hs rest, Forall (fun h => is_hex h = true) hs -> ghead rest -> ghead (hs ++ rest).
Proof.
  intros hs rest H Hg. destruct H as [|h hs' Hh _]; [exact Hg|]. apply ghead_ascii. pose proof (is_hex_range h Hh). lia.
Qed.

Lemma shex_run : forall hs rest maxd, Forall (fun h => is_hex h = true) hs -> ghead rest ->
  forall n count pre s ch, at_ pre (hs ++ rest) s ch -> (length hs <= n)%nat -> (count + length hs <= maxd)%nat ->
  (is_hex (fst (look rest)) = false \/ (count + length hs = maxd)%nat) ->
  exists s', scan_hex cursor nxt n maxd s ch count = Some (s', fst (look rest), (count + length hs)%nat) /\
             at_ (pre ++ hs) rest s' (fst (look rest)) /\ c_tok s' = c_tok s.
Proof.
  intros hs rest maxd Hhs Hg. induction Hhs as [|h hs Hh Hhs IH]; intros n count pre s ch Hat Hn Hm Hstop.
  - cbn [app length] in *. pose proof (at_ch _ _ _ _ Hat) as ->. rewrite Nat.add_0_r, app_nil_r.
    exists s. split; [|split; [exact Hat | reflexivity]].
    destruct n as [|n]; [reflexivity|]. cbn [scan_hex].
    replace (Nat.ltb count maxd && is_hex (fst (look rest))) with false; [reflexivity|].
    symmetry. destruct Hstop as [H|H]; [rewrite H; apply andb_false_r|].
    rewrite Nat.add_0_r in H. subst maxd. rewrite Nat.ltb_irrefl. reflexivity.
  - cbn [app length] in *. pose proof (is_hex_range h Hh) as Rh.
    pose proof (at_ch_ascii _ _ _ _ _ Hat ltac:(lia)) as ->.
    destruct n as [|n]; [lia|]. cbn [scan_hex]. rewrite Hh.
    replace (Nat.ltb count maxd) with true by (symmetry; apply Nat.ltb_lt; lia). cbn [andb]. unfold nxt at 1.
    destruct (cstep1 _ _ _ _ _ Hat ltac:(lia) (ghead_hex hs rest Hhs Hg)) as (s1 & E1 & A1 & T1). rewrite E1.
    destruct (IH n (S count) _ _ _ A1 ltac:(lia) ltac:(lia) ltac:(destruct Hstop; [left; assumption | right; lia]))
      as (s' & E' & A' & T').
    exists s'. rewrite <- app_assoc in A'. cbn [app] in A'.
    replace (count + S (length hs))%nat with (S count + length hs)%nat by lia.
    split; [exact E'|]. split; [exact A' | congruence].
Qed.

Lemma sunit_ghead : forall u tail, sunit u -> ghead (u ++ tail).
Proof.
  intros u tail H. destruct H as [b Hb _ _ _ | r Hv Hr | c Hc | hs Hl Hh | h1 h2 H1 H2]; cbn [app];
    try (apply ghead_ascii; lia).
  apply (look_rune r tail Hv Hr).
Qed.

Lemma sbody_ghead : forall body rest, sbody body -> ghead (body ++ 34 :: rest).
Proof.
  intros body rest H. destruct H as [|u r Hu Hr]; [apply ghead_ascii; lia|].
  rewrite <- app_assoc. apply sunit_ghead. exact Hu.
Qed.

Lemma esc_char_facts : forall c, In c esc_chars -> 0 < c < 128 /\ existsb (Z.eqb c) esc_chars = true.
Proof.
  intros c H. split.
  - unfold esc_chars in H. cbn [In] in H. lia.
  - apply existsb_exists. exists c. split; [exact H | apply Z.eqb_refl].
Qed.

Definition sstr := scan_string cursor nxt c_set_err.

(* one unit of a string body *)
Lemma sstr_unit : forall u, sunit u -> forall tail pre s ch f, ghead tail -> at_ pre (u ++ tail) s ch ->
  exists s', sstr (S f) s ch = sstr f s' (fst (look tail)) /\ at_ (pre ++ u) tail s' (fst (look tail)) /\ c_tok s' = c_tok s.
Proof.
  intros u Hu tail pre s ch f Hg Hat. unfold sstr.
  (* a character that stands for itself, one byte or several *)
  assert (RAW : forall r, look (u ++ tail) = (r, length u) -> 0 <= r -> r <> 34 -> r <> 10 -> r <> 92 ->
            exists s', scan_string cursor nxt c_set_err (S f) s ch = scan_string cursor nxt c_set_err f s' (fst (look tail)) /\
                       at_ (pre ++ u) tail s' (fst (look tail)) /\ c_tok s' = c_tok s).
  { intros r Hl Hr0 H34 H10 H92. pose proof (at_ch _ _ _ _ Hat) as ->. rewrite Hl. cbn [fst].
    destruct (cstep _ _ _ _ _ Hat ltac:(rewrite Hl; reflexivity) Hg) as (s1 & E1 & A1 & T1).
    exists s1. split; [|split; assumption]. cbn [scan_string].
    rewrite (proj2 (Z.eqb_neq r 34) H34), (proj2 (Z.eqb_neq r 10) H10), (proj2 (Z.eqb_neq r 92) H92).
    replace (r <? 0) with false by (symmetry; apply Z.ltb_ge; exact Hr0). cbn [orb]. unfold nxt at 1. rewrite E1. reflexivity. }
  (* a backslash: scan_escape takes over; [e] is the character after the backslash *)
  assert (ESC : forall e rest', u ++ tail = 92 :: e :: rest' -> 0 < e < 128 ->
            exists s1, nxt s = Some (s1, e) /\ at_ (pre ++ [92]) (e :: rest') s1 e /\ c_tok s1 = c_tok s /\
              scan_string cursor nxt c_set_err (S f) s ch
              = match scan_escape cursor nxt c_set_err s with
                | Some (s', c) => scan_string cursor nxt c_set_err f s' c
                | None => None
                end).
  { intros e rest' E He. rewrite E in Hat. pose proof (at_ch_ascii _ _ _ _ _ Hat ltac:(lia)) as ->.
    destruct (cstep1 _ _ _ _ _ Hat ltac:(lia) (ghead_ascii e rest' He)) as (s1 & E1 & A1 & T1).
    rewrite look_ascii in E1, A1 by lia. cbn [fst] in E1, A1. exists s1. unfold nxt. rewrite E1.
    split; [reflexivity|]. split; [exact A1|]. split; [exact T1 | reflexivity]. }
  destruct Hu as [b Hb H34 H10 H92 | r Hv Hr | c Hc | hs Hl Hh | h1 h2 H1 H2]; [clear ESC | clear ESC | clear RAW ..].
  - apply (RAW b); [apply look_ascii | ..]; lia.
  - apply (RAW r); [apply (look_rune r tail Hv Hr) | ..]; lia.
  - (* a one-character escape *)
    destruct (esc_char_facts c Hc) as [Rc Ec].
    destruct (ESC c tail eq_refl Rc) as (s1 & E1 & A1 & T1 & ->). unfold scan_escape. rewrite E1. fold esc_chars. rewrite Ec.
    destruct (cstep1 _ _ _ _ _ A1 ltac:(lia) Hg) as (s2 & E2 & A2 & T2). unfold nxt at 1. rewrite E2.
    exists s2. rewrite <- app_assoc in A2. split; [reflexivity | split; [exact A2 | congruence]].
  - (* \u{h..h} *)
    destruct (ESC 117 (123 :: hs ++ 125 :: tail)) as (s1 & E1 & A1 & T1 & ->); [rewrite <- !app_assoc; reflexivity | lia |].
    unfold scan_escape. rewrite E1.
    change (existsb (Z.eqb 117) [110; 114; 116; 92; 48; 39; 34; 42]) with false. change (117 =? 120) with false.
    change (117 =? 117) with true. cbv iota. unfold nxt at 1.
    destruct (cstep1 _ _ _ _ _ A1 ltac:(lia) (ghead_ascii 123 _ ltac:(lia))) as (s2 & E2 & A2 & T2).
    rewrite look_ascii in E2, A2 by lia. rewrite E2. change (negb (123 =? 123)) with false. cbv iota. unfold nxt at 1.
    destruct (cstep1 _ _ _ _ _ A2 ltac:(lia) (ghead_hex hs _ Hh (ghead_ascii 125 tail ltac:(lia)))) as (s3 & E3 & A3 & T3).
    rewrite E3.
    destruct (shex_run hs (125 :: tail) 6 Hh (ghead_ascii 125 tail ltac:(lia)) 7 0 _ _ _ A3 ltac:(lia) ltac:(lia)
                ltac:(left; rewrite look_ascii by lia; reflexivity)) as (s4 & E4 & A4 & T4).
    rewrite look_ascii in E4, A4 by lia. cbn [fst Nat.add] in E4. rewrite E4.
    replace (Nat.ltb (length hs) 1) with false by (symmetry; apply Nat.ltb_ge; lia).
    change (negb (125 =? 125)) with false. cbv iota. unfold nxt at 1.
    destruct (cstep1 _ _ _ _ _ A4 ltac:(lia) Hg) as (s5 & E5 & A5 & T5). rewrite E5.
    exists s5. split; [reflexivity | split; [|congruence]]. repeat rewrite <- app_assoc in A5. exact A5.
  - (* \xhh *)
    pose proof (is_hex_range h1 H1) as R1.
    destruct (ESC 120 (h1 :: h2 :: tail)) as (s1 & E1 & A1 & T1 & ->); [reflexivity | lia |].
    unfold scan_escape. rewrite E1.
    change (existsb (Z.eqb 120) [110; 114; 116; 92; 48; 39; 34; 42]) with false. change (120 =? 120) with true.
    cbv iota. unfold nxt at 1.
    destruct (cstep1 _ _ _ _ _ A1 ltac:(lia) (ghead_ascii h1 _ ltac:(lia))) as (s2 & E2 & A2 & T2).
    rewrite look_ascii in E2, A2 by lia. rewrite E2.
    destruct (shex_run [h1; h2] tail 2 ltac:(repeat constructor; assumption) Hg 3 0 _ _ _ A2 ltac:(cbn; lia) ltac:(cbn; lia)
                ltac:(right; reflexivity)) as (s3 & E3 & A3 & T3).
    cbn [Nat.add length] in E3. rewrite E3.
    exists s3. split; [reflexivity | split; [|congruence]]. repeat rewrite <- app_assoc in A3. exact A3.
Qed.

Lemma sstr_body : forall body, sbody body -> forall rest fuel pre s ch, at_ pre (body ++ 34 :: rest) s ch ->
  (length body < fuel)%nat ->
  exists s', sstr fuel s ch = Some (s', 34) /\ at_ (pre ++ body) (34 :: rest) s' 34 /\ c_tok s' = c_tok s.
Proof.
  intros body H. induction H as [|u r Hu Hr IH]; intros rest fuel pre s ch Hat Hf.
  - cbn [app] in Hat. pose proof (at_ch_ascii _ _ _ _ _ Hat ltac:(lia)) as ->.
    destruct fuel as [|f]; [cbn [length] in Hf; lia|]. exists s. rewrite app_nil_r.
    split; [reflexivity | split; [exact Hat | reflexivity]].
  - destruct fuel as [|f]; [lia|]. rewrite <- app_assoc in Hat.
    destruct (sstr_unit u Hu _ _ _ _ f (sbody_ghead r rest Hr) Hat) as (s1 & E1 & A1 & T1).
    assert (Hu1 : (1 <= length u)%nat).
    { destruct Hu as [b _ _ _ _ | r0 Hv _ | c _ | hs _ _ | h1 h2 _ _]; cbn [length app]; try lia.
      apply (encode_rune_length r0 Hv). }
    rewrite app_length in Hf.
    destruct (IH rest f _ _ _ A1 ltac:(lia)) as (s' & E' & A' & T').
    exists s'. rewrite E1. split; [exact E'|]. rewrite <- app_assoc in A'. split; [exact A' | congruence].
Qed.

Definition all_ws (t : str) : Prop := Forall (fun b => is_ws b = true) t.

Lemma is_ws_range : forall b, is_ws b = true -> b = 9 \/ b = 10 \/ b = 13 \/ b = 32.
Proof. intros b H. unfold is_ws in H. rewrite !orb_true_iff, !Z.eqb_eq in H. tauto. Qed.

Lemma lexeme_first : forall strict ty text, lexeme strict ty text ->
  exists b r, text = b :: r /\ 0 < b < 128 /\ is_ws b = false.
Proof.
  intros strict ty text H.
  assert (ID : ident_shape text -> exists b r, text = b :: r /\ 0 < b < 128 /\ is_ws b = false).
  { destruct text as [|c r]; [contradiction|]. intros [Hc _].
    exists c, r. split; [reflexivity|]. split; apply (ident_rune_facts c true Hc). }
  destruct ty; cbn [lexeme] in H; try contradiction; [exact (ID (proj1 H)) | | exact (ID (proj1 H)) | |]; clear ID.
  - destruct H as [H1 H2]. destruct text as [|c r]; [congruence|]. cbn [forallb] in H2. apply andb_true_iff in H2.
    destruct H2 as [Hc _]. exists c, r. split; [reflexivity|]. split; apply (num_facts c Hc).
  - destruct H as (body & -> & _). exists 34, (body ++ [34]). split; [reflexivity|]. split; [lia | reflexivity].
  - destruct text as [|c0 tail].
    + pose proof op_texts_ok1 as H0. rewrite forallb_forall in H0. specialize (H0 _ H). discriminate H0.
    + exists c0, tail. split; [reflexivity|]. split; apply (op_first_facts _ _ H).
Qed.

Lemma all_ws_run : forall ws, all_ws ws -> Forall (fun b => 0 < b < 128 /\ is_ws b = true) ws.
Proof.
  intros ws H. eapply Forall_impl; [|exact H]. intros x Hx. cbv beta in Hx. split; [pose proof (is_ws_range x Hx); lia | exact Hx].
Qed.

(* next_token reads one lexeme, after any white space *)
Lemma ntok_lex : forall strict ty text ws rest pre s ch f, all_ws ws -> lexeme strict ty text ->
  sepb ty text (fst (look rest)) = true -> ghead rest -> at_ pre (ws ++ text ++ rest) s ch ->
  (length ws + length text <= f)%nat ->
  exists t s', ntok (S f) s ch = Some (t, s', fst (look rest)) /\ strip t = retype (ty, text) /\
               at_ (pre ++ ws ++ text) rest s' (fst (look rest)).
Proof.
  intros strict ty text ws rest pre s ch f Hws Hlex Hsep Hg Hat Hf.
  destruct (lexeme_first _ _ _ Hlex) as (b0 & r0 & -> & Hb0 & Hws0).
  assert (Hl : fst (look ((b0 :: r0) ++ rest)) = b0) by (cbn [app]; rewrite look_ascii by lia; reflexivity).
  destruct (sw_run is_ws ws ((b0 :: r0) ++ rest) (all_ws_run ws Hws) ltac:(rewrite Hl; exact Hws0) (ghead_ascii b0 _ Hb0)
              (S f) _ _ _ Hat ltac:(lia)) as (s0 & E & A0 & _).
  rewrite (ntok_skip _ _ _ _ _ E) by (rewrite Hl; exact Hws0). rewrite Hl in *. clear E Hat s ch Hl.
  (* the token starts at [pre ++ ws] *)
  rewrite app_assoc. cbn [length] in Hf. cbn [app] in A0.
  destruct (at_token_start _ _ _ _ A0) as (A1 & T1). clear A0.
  unfold ntok. cbn [next_token]. rewrite (sw_stop is_ws) by exact Hws0.
  destruct (c_token_position (c_token_start s0)) as [[off line] col].
  (* [scan]: what next_token does after the start of the token *)
  match goal with |- exists t s', ?X = _ /\ _ => set (scan := X) end.
  (* an identifier or a reserved word *)
  assert (ID : ident_shape (b0 :: r0) -> sepb TIdent (b0 :: r0) (fst (look rest)) = true ->
               exists t s', scan = Some (t, s', fst (look rest)) /\ strip t = retype (TIdent, b0 :: r0) /\
                            at_ ((pre ++ ws) ++ b0 :: r0) rest s' (fst (look rest))).
  { subst scan. intros [Hc Hr] Hstop. cbn [sepb] in Hstop. apply negb_true_iff in Hstop.
    destruct (ident_rune_facts _ _ Hc) as (_ & _ & Heof & _). rewrite Heof, Hc. unfold nxt at 1.
    pose proof (run_of _ r0 (fun x Hx => proj1 (ident_rune_facts x false Hx)) Hr) as HR.
    destruct (cstep1 _ _ _ _ _ A1 ltac:(lia) (ghead_run _ _ _ HR Hg)) as (s2 & E2 & A2 & T2). rewrite E2.
    destruct (sw_run _ r0 rest HR Hstop Hg (S f) _ _ _ A2 ltac:(lia)) as (s3 & E3 & A3 & T3). rewrite E3.
    rewrite <- app_assoc in A3. apply (ntok_finish TIdent); [exact A3 | congruence]. }
  destruct ty; cbn [lexeme] in Hlex; try contradiction; [| subst scan | | subst scan ..].
  - exact (ID (proj1 Hlex) Hsep).
  - (* an integer *)
    clear ID. destruct Hlex as [_ Hnum]. cbn [sepb] in Hsep. apply negb_true_iff in Hsep.
    pose proof (run_of _ _ (fun x Hx => proj1 (num_facts x Hx)) Hnum) as HR.
    cbn [forallb] in Hnum. apply andb_true_iff in Hnum. destruct Hnum as [Hd _].
    destruct (num_facts _ Hd) as (_ & _ & Heof & Hid). rewrite Heof, Hid, Hd.
    destruct (sw_run is_num (b0 :: r0) rest HR Hsep Hg (S f) _ _ _ A1 ltac:(cbn [length]; lia)) as (s3 & E3 & A3 & T3).
    rewrite E3. apply (ntok_finish TInt); [exact A3 | congruence].
  - (* a reserved word is scanned as an identifier and re-typed *)
    destruct Hlex as [Hsh Hres]. destruct (ID Hsh Hsep) as (t & s' & Et & St & At).
    exists t, s'. split; [exact Et|]. split; [|exact At]. rewrite St. unfold retype. cbn [fst snd]. rewrite Hres. reflexivity.
  - (* a string literal *)
    clear ID. destruct Hlex as (body & E & Hb). injection E as -> ->.
    change (34 =? rune_eof) with false. change (is_ident_rune 34 true) with false. change (is_num 34) with false.
    change (34 =? 34) with true. cbv iota. unfold nxt at 1.
    rewrite <- app_assoc in A1. cbn [app] in A1.
    destruct (cstep1 _ _ _ _ _ A1 ltac:(lia) (sbody_ghead body rest Hb)) as (s2 & E2 & A2 & T2). rewrite E2.
    destruct (sstr_body body Hb rest (S f) _ _ _ A2 ltac:(rewrite app_length in Hf; lia)) as (s3 & E3 & A3 & T3).
    unfold sstr in E3. rewrite E3. unfold nxt at 1.
    destruct (cstep1 _ _ _ _ _ A3 ltac:(lia) Hg) as (s4 & E4 & A4 & T4). rewrite E4.
    rewrite <- !(app_assoc (pre ++ ws)) in A4. cbn [app] in A4.
    apply (ntok_finish TString); [exact A4 | congruence].
  - (* an operator *)
    clear ID. destruct (op_first_facts _ _ Hlex) as (_ & _ & Heof & Hid & Hnum & H34 & H47 & Hgt).
    rewrite Heof, Hid, Hnum, H34, H47. unfold nxt at 1.
    destruct (cstep1 _ _ _ _ _ A1 ltac:(lia) (Hgt rest Hg)) as (s2 & E2 & A2 & T2). rewrite E2.
    destruct (sop_lex _ Hlex b0 r0 eq_refl rest _ s2 _ Hsep Hg A2) as (s3 & E3 & A3 & T3). rewrite E3.
    apply (ntok_finish TOperator); [exact A3 | congruence].
Qed.

(* 4. The generic theorem *)

(* [lexk strict l c]: every token item of [l] is a lexeme, every blank is white space, and no token merges with the byte that
   follows it in the rendering ([c] is the byte that follows the whole of [l]; EOF = -1) *)
Fixpoint lexk (strict : bool) (l : list item) (c : Z) : Prop :=
  match l with
  | [] => True
  | Sp t :: r => all_ws t /\ lexk strict r c
  | T ty t :: r => lexeme strict ty t /\ sepb ty t (nextb (render r) c) = true /\ lexk strict r c
  end.

Lemma render_cons_T : forall ty t r, render (T ty t :: r) = t ++ render r.
Proof. reflexivity. Qed.
Lemma render_cons_Sp : forall t r, render (Sp t :: r) = t ++ render r.
Proof. reflexivity. Qed.
Lemma render_app : forall a b, render (a ++ b) = render a ++ render b.
Proof. intros a b. unfold render. apply flat_map_app. Qed.

Lemma lexk_ahead : forall strict l c, lexk strict l c -> ahead (render l).
Proof.
  intros strict l c. induction l as [|[ty t|t] r IH]; intros H; [exact I | |].
  - destruct H as (H & _ & _). destruct (lexeme_first _ _ _ H) as (b & r' & -> & Hb & _). rewrite render_cons_T. exact Hb.
  - destruct H as (H & Hr). rewrite render_cons_Sp. destruct H as [|b t Hb _]; [exact (IH Hr)|].
    cbn [app ahead]. pose proof (is_ws_range b Hb). lia.
Qed.

Lemma retype_not_eof : forall strict ty text, lexeme strict ty text -> fst (retype (ty, text)) <> TEOF.
Proof.
  intros strict ty text H. unfold retype. cbn [fst snd]. destruct ty; cbn [lexeme] in H; try contradiction; try discriminate.
  destruct (is_reserved text); discriminate.
Qed.

Lemma toks_cons_T : forall ty t r, toks (T ty t :: r) = (ty, t) :: toks r.
Proof. reflexivity. Qed.
Lemma toks_cons_Sp : forall t r, toks (Sp t :: r) = toks r.
Proof. reflexivity. Qed.
Lemma toks_app : forall a b, toks (a ++ b) = toks a ++ toks b.
Proof. intros a b. unfold toks. apply flat_map_app. Qed.

Lemma tloop_lex : forall strict l ws pre s ch acc fuel, all_ws ws -> lexk strict l rune_eof ->
  at_ pre (ws ++ render l) s ch -> (length ws + length (render l) < fuel)%nat ->
  exists ts, tloop fuel s ch acc = Some (Some (rev acc ++ ts)) /\ map strip ts = map retype (toks l) ++ [(TEOF, [])].
Proof.
  intros strict l. induction l as [|[ty t|t] r IH]; intros ws pre s ch acc fuel Hws Hl Hat Hf.
  - (* end of input *)
    cbn [render flat_map] in Hat, Hf. destruct fuel as [|f]; [lia|].
    destruct (sw_run is_ws ws [] (all_ws_run ws Hws) eq_refl I (S f) _ _ _ Hat ltac:(lia)) as (s0 & E & A0 & _).
    destruct (ntok_eof _ _ _ f A0) as (t & s' & Et & St & At).
    exists [t]. split; [|cbn [map toks flat_map app]; rewrite St; reflexivity].
    unfold tloop. cbn [tokenize_loop]. fold ntok. rewrite (ntok_skip _ _ _ _ _ E eq_refl). rewrite Et.
    rewrite (at_err _ _ _ _ At). injection St as Hty _. rewrite Hty. reflexivity.
  - (* a token *)
    destruct Hl as (Hlex & Hsep & Hr). rewrite render_cons_T in Hat, Hf. rewrite app_length in Hf.
    destruct fuel as [|f]; [lia|].
    pose proof (lexk_ahead _ _ _ Hr) as Hah.
    rewrite <- (ahead_look _ Hah) in Hsep.
    destruct (ntok_lex strict ty t ws (render r) pre s ch f Hws Hlex Hsep (ahead_ghead _ Hah) Hat ltac:(lia))
      as (t0 & s' & Et & St & At).
    destruct (lexeme_first _ _ _ Hlex) as (b0 & r0 & E0 & _ & _).
    assert (Hlen : (1 <= length t)%nat) by (rewrite E0; cbn [length]; lia).
    destruct (IH [] _ _ _ (t0 :: acc) f (Forall_nil _) Hr At ltac:(cbn [length]; lia)) as (ts & Eloop & Ets).
    exists (t0 :: ts). split.
    + unfold tloop. cbn [tokenize_loop]. fold ntok. rewrite Et. rewrite (at_err _ _ _ _ At). fold tloop.
      cbn [rev] in Eloop. rewrite <- app_assoc in Eloop. cbn [app] in Eloop.
      assert (Hty : t_type t0 <> TEOF).
      { pose proof (retype_not_eof _ _ _ Hlex) as H. rewrite <- St in H. exact H. }
      destruct (t_type t0); [contradiction | exact Eloop ..].
    + rewrite toks_cons_T. cbn [map app]. rewrite St, Ets. reflexivity.
  - (* a blank *)
    destruct Hl as (Ht & Hr). rewrite render_cons_Sp in Hat, Hf. rewrite app_length in Hf. rewrite app_assoc in Hat.
    destruct (IH (ws ++ t) pre s ch acc fuel ltac:(apply Forall_app; split; assumption) Hr Hat
                ltac:(rewrite app_length; lia)) as (ts & E & Ets).
    exists ts. split; [exact E | rewrite toks_cons_Sp; exact Ets].
Qed.

Theorem lex_render_generic : forall strict l, lexk strict l rune_eof ->
  exists f0, forall f, (f0 <= f)%nat -> exists ts,
    spec_tokenize f (render l) = Some (Some ts) /\ map strip ts = map retype (toks l) ++ [(TEOF, [])].
Proof.
  intros strict l H. exists (S (length (render l))). intros f Hf.
  rewrite spec_tokenize_unfold.
  pose proof (at_init (render l) (ahead_ghead _ (lexk_ahead _ _ _ H))) as A.
  destruct (tloop_lex strict l [] [] _ _ [] f (Forall_nil _) H A ltac:(cbn [length]; lia)) as (ts & E & Ets).
  exists ts. split; [exact E | exact Ets].
Qed.

Lemma lexk_strict_retype : forall l c, lexk true l c -> map retype (toks l) = toks l.
Proof.
  induction l as [|[ty t|t] r IH]; intros c H; [reflexivity | |].
  - destruct H as (Hlex & _ & Hr). rewrite toks_cons_T. cbn [map]. rewrite (IH c Hr). f_equal.
    unfold retype. cbn [fst snd]. destruct ty; try reflexivity. destruct Hlex as [_ Hres]. rewrite (Hres eq_refl). reflexivity.
  - destruct H as (_ & Hr). rewrite toks_cons_Sp. exact (IH c Hr).
Qed.

Theorem lex_render_strict : forall l, lexk true l rune_eof ->
  exists f0, forall f, (f0 <= f)%nat -> exists ts,
    spec_tokenize f (render l) = Some (Some ts) /\ map strip ts = toks l ++ [(TEOF, [])].
Proof.
  intros l H. destruct (lex_render_generic true l H) as [f0 H0]. exists f0. intros f Hf.
  destruct (H0 f Hf) as (ts & E & Ets). exists ts. split; [exact E|]. rewrite (lexk_strict_retype l _ H) in Ets. exact Ets.
Qed.

(* 5. String literals the printer emits are string lexemes *)

Lemma sbody_app : forall a b, sbody a -> sbody b -> sbody (a ++ b).
Proof. intros a b Ha Hb. induction Ha as [|u r Hu Hr IH]; [exact Hb|]. rewrite <- app_assoc. constructor; assumption. Qed.

Lemma sbody_unit : forall u, sunit u -> sbody u.
Proof. intros u H. rewrite <- (app_nil_r u). constructor; [exact H | constructor]. Qed.

Lemma sbody_flat_map : forall (A : Type) (g : A -> str) l, (forall x, In x l -> sbody (g x)) -> sbody (flat_map g l).
Proof.
  intros A g l. induction l as [|x l IH]; intros H; cbn [flat_map]; [constructor|].
  apply sbody_app; [apply H; left; reflexivity | apply IH; intros y Hy; apply H; right; exact Hy].
Qed.

Lemma lowhex_is_hex : forall c, lowhex c -> is_hex c = true.
Proof.
  intros c H. unfold lowhex in H. unfold is_hex, is_num. rewrite !orb_true_iff, !andb_true_iff, !Z.leb_le. lia.
Qed.

Lemma in_esc : forall c, existsb (Z.eqb c) esc_chars = true -> In c esc_chars.
Proof. intros c H. apply existsb_exists in H. destruct H as (x & Hx & E). apply Z.eqb_eq in E. subst x. exact Hx. Qed.

Lemma plain_body : forall arg, Forall (fun c => 32 <= c < 127 /\ c <> 34 /\ c <> 92) arg -> sbody arg.
Proof.
  intros arg H. induction H as [|c arg Hc _ IH]; [constructor|].
  change (c :: arg) with ([c] ++ arg). constructor; [apply su_ascii; lia | exact IH].
Qed.

Lemma lexeme_plain : forall st arg, Forall (fun c => 32 <= c < 127 /\ c <> 34 /\ c <> 92) arg ->
  lexeme st TString ([34] ++ arg ++ [34]).
Proof. intros st arg H. exists arg. split; [reflexivity | apply plain_body; exact H]. Qed.

Lemma escape_stars_unit : forall u, sunit u -> sbody (escape_stars u).
Proof.
  intros u H. destruct H as [b Hb H34 H10 H92 | r Hv Hr | c Hc | hs Hl Hh | h1 h2 H1 H2].
  - unfold escape_stars. cbn [flat_map]. rewrite app_nil_r. destruct (Z.eqb_spec b 42) as [->|Hne].
    + apply sbody_unit, su_esc, in_esc. reflexivity.
    + apply sbody_unit, su_ascii; assumption.
  - rewrite escape_stars_id; [apply sbody_unit, su_rune; assumption|].
    destruct (encode_rune_bytes r Hv) as [[H _] | [_ Hb]]; [lia|].
    eapply Forall_impl; [|exact Hb]. intros x Hx. cbv beta in Hx. lia.
  - unfold escape_stars. cbn [flat_map]. change (92 =? 42) with false. cbv iota. rewrite app_nil_r. cbn [app].
    destruct (Z.eqb_spec c 42) as [->|Hne].
    + change [92; 92; 42] with ([92; 92] ++ [42] ++ []). constructor; [apply su_esc, in_esc; reflexivity|].
      constructor; [apply su_ascii; lia | constructor].
    + apply sbody_unit, su_esc. exact Hc.
  - rewrite escape_stars_id; [apply sbody_unit, su_u; assumption|].
    repeat (apply Forall_app; split); try (repeat constructor; lia).
    eapply Forall_impl; [|exact Hh]. intros x Hx. cbv beta in Hx. pose proof (is_hex_range x Hx). lia.
  - rewrite escape_stars_id; [apply sbody_unit, su_x; assumption|].
    pose proof (is_hex_range h1 H1). pose proof (is_hex_range h2 H2). repeat constructor; lia.
Qed.

Lemma pat_tail_ok_all : forall r, pat_tail_ok r = true -> Forall (fun c : pcomp => str_ok (snd c) = true) r.
Proof.
  induction r as [|[w l] r IH]; intros H; [constructor|]. cbn [pat_tail_ok] in H.
  rewrite !andb_true_iff in H. destruct H as (((_ & Hl) & _) & Hr). constructor; [exact Hl | exact (IH Hr)].
Qed.

Lemma pat_ok_all : forall p, pat_ok p = true -> Forall (fun c : pcomp => str_ok (snd c) = true) p.
Proof.
  intros [|[w l] r] H; [constructor|]. cbn [pat_ok] in H.
  rewrite !andb_true_iff in H. destruct H as ((Hl & _) & Hr). constructor; [exact Hl | exact (pat_tail_ok_all r Hr)].
Qed.

Section Strings.
  Variables is_printable is_gext : Z -> bool.

  Lemma escape_rune_unit : forall r b, valid_rune r = true -> sunit (escape_rune is_printable is_gext r b).
  Proof.
    intros r b Hv. pose proof (valid_rune_range r Hv) as Hr. unfold escape_rune.
    assert (HU : sunit (u_escape r)).
    { unfold u_escape. destruct (hex_lower_spec r ltac:(lia)) as (Hl & Hf & _). apply su_u; [exact Hl|].
      eapply Forall_impl; [|exact Hf]. intros x Hx. apply lowhex_is_hex. exact Hx. }
    (* the seven characters with an escape of their own *)
    repeat lazymatch goal with |- sunit (if ?x =? ?n then _ else _) =>
      destruct (Z.eqb_spec x n); [apply su_esc, in_esc; reflexivity|] end.
    destruct (b && is_gext r); [exact HU|].
    destruct (is_printable r); [|exact HU].
    destruct (Z.ltb_spec r 128); [rewrite encode_rune_1 by lia; apply su_ascii; lia | apply su_rune; [exact Hv | lia]].
  Qed.

  Lemma escape_string_body : forall s, nonneg s -> valid_utf8 s = true -> sbody (escape_string is_printable is_gext s).
  Proof.
    intros s Hnn Hv. unfold escape_string, escape_runes. pose proof (runes_valid s Hnn Hv) as HV.
    destruct (runes s) as [|r rs]; [constructor|]. inversion HV as [|r' rs' Hr Hrs]; subst.
    apply sbody_app; [apply sbody_unit, escape_rune_unit; exact Hr|].
    apply sbody_flat_map. intros x Hx. apply sbody_unit, escape_rune_unit. rewrite Forall_forall in Hrs. apply Hrs. exact Hx.
  Qed.

  Lemma lexeme_quote_string : forall st s, str_ok2 s = true -> lexeme st TString (quote_string is_printable is_gext s).
  Proof.
    intros st s H. unfold str_ok2 in H. apply andb_true_iff in H. destruct H as [Hb Hv].
    exists (escape_string is_printable is_gext s). split; [reflexivity|].
    apply escape_string_body; [apply ParserRoundTrip.byte_str_nonneg; exact Hb | exact Hv].
  Qed.

  Lemma lexeme_quote_pattern : forall st p, pat_ok2 p = true -> lexeme st TString (quote_pattern is_printable is_gext p).
  Proof.
    intros st p H. unfold pat_ok2 in H. apply andb_true_iff in H. destruct H as [Hb Hp].
    pose proof (pat_ok_all p Hp) as Hall.
    eexists. split; [reflexivity|].
    apply sbody_flat_map. intros [w l] Hin. cbn [fst snd].
    rewrite forallb_forall in Hb. specialize (Hb _ Hin). cbn [snd] in Hb.
    rewrite Forall_forall in Hall. specialize (Hall _ Hin). cbn [snd] in Hall.
    apply sbody_app; [destruct w; [apply sbody_unit, su_ascii; lia | constructor]|].
    unfold escape_char_all. rewrite escape_stars_flat_map.
    pose proof (runes_valid l (ParserRoundTrip.byte_str_nonneg l Hb) Hall) as HV.
    apply sbody_flat_map. intros r Hr. apply escape_stars_unit, escape_rune_unit.
    rewrite Forall_forall in HV. apply HV. exact Hr.
  Qed.
End Strings.

(* A boolean version of [lexeme] (sound).  It settles by evaluation that the explicit tokens of the printer are lexemes
   (section 6) and is the token part of the checker [lexkb] (section 8). *)
Definition ident_shapeb (t : str) : bool :=
  match t with [] => false | c :: r => is_ident_rune c true && forallb (fun x => is_ident_rune x false) r end.

Lemma ident_shapeb_ok : forall t, ident_shapeb t = true -> ident_shape t.
Proof. intros [|c r] H; [discriminate|]. cbn [ident_shapeb] in H. apply andb_true_iff in H. exact H. Qed.

Fixpoint span_hex (s : str) : str * str :=
  match s with
  | [] => ([], [])
  | h :: r => if is_hex h then (h :: fst (span_hex r), snd (span_hex r)) else ([], s)
  end.

Lemma span_hex_spec : forall s, s = fst (span_hex s) ++ snd (span_hex s) /\ Forall (fun h => is_hex h = true) (fst (span_hex s)).
Proof.
  induction s as [|h r [IH1 IH2]]; [split; [reflexivity | constructor]|].
  cbn [span_hex]. destruct (is_hex h) eqn:E; cbn [fst snd app].
  - split; [f_equal; exact IH1 | constructor; assumption].
  - split; [reflexivity | constructor].
Qed.

Fixpoint sbodyb (fuel : nat) (s : str) : bool :=
  match fuel with
  | O => false
  | S f =>
    match s with
    | [] => true
    | b :: r =>
      if b =? 92 then
        match r with
        | [] => false
        | c :: r' =>
          if existsb (Z.eqb c) esc_chars then sbodyb f r'
          else if c =? 117 then
            match r' with
            | [] => false
            | c2 :: r2 =>
              (c2 =? 123) && Nat.leb 1 (length (fst (span_hex r2))) && Nat.leb (length (fst (span_hex r2))) 6 &&
              match snd (span_hex r2) with
              | [] => false
              | c4 :: r4 => (c4 =? 125) && sbodyb f r4
              end
            end
          else if c =? 120 then
            match r' with
            | h1 :: h2 :: r2 => is_hex h1 && is_hex h2 && sbodyb f r2
            | _ => false
            end
          else false
        end
      else if b <? 128 then (0 <? b) && negb (b =? 34) && negb (b =? 10) && sbodyb f r
      else negb ((fst (decode_rune s) =? rune_error) && Nat.leb (snd (decode_rune s)) 1) && sbodyb f (skipn (snd (decode_rune s)) s)
    end
  end.

Lemma sbodyb_sound : forall fuel s, nonneg s -> sbodyb fuel s = true -> sbody s.
Proof.
  (* every case: the input is a unit followed by a rest, which is non-negative with the whole (nonneg_app_r) *)
  induction fuel as [|f IH]; intros s Hnn H; [discriminate H|].
  destruct s as [|b r]; [constructor|]. cbn [sbodyb] in H.
  destruct (Z.eqb_spec b 92) as [->|Hb92].
  - destruct r as [|c r']; [discriminate H|].
    destruct (existsb (Z.eqb c) esc_chars) eqn:Ec.
    { change (92 :: c :: r') with ([92; c] ++ r') in *.
      constructor; [apply su_esc, in_esc; exact Ec | exact (IH _ (nonneg_app_r _ _ Hnn) H)]. }
    destruct (Z.eqb_spec c 117) as [->|Hc117].
    { destruct r' as [|c2 r2]; [discriminate H|].
      destruct (span_hex_spec r2) as [Es Hh]. destruct (span_hex r2) as [hs r3]. cbn [fst snd] in *.
      rewrite !andb_true_iff in H. destruct H as (((H1 & H2) & H3) & H4). apply Z.eqb_eq in H1. subst c2.
      apply Nat.leb_le in H2. apply Nat.leb_le in H3.
      destruct r3 as [|c4 r4]; [discriminate H4|]. apply andb_true_iff in H4. destruct H4 as [H5 H6].
      apply Z.eqb_eq in H5. subst c4. subst r2.
      replace (92 :: 117 :: 123 :: hs ++ 125 :: r4) with (([92; 117; 123] ++ hs ++ [125]) ++ r4) in *
        by (repeat rewrite <- app_assoc; reflexivity).
      constructor; [apply su_u; [lia | exact Hh] | exact (IH _ (nonneg_app_r _ _ Hnn) H6)]. }
    destruct (Z.eqb_spec c 120) as [->|Hc120]; [|discriminate H].
    destruct r' as [|h1 [|h2 r2]]; try discriminate H.
    rewrite !andb_true_iff in H. destruct H as ((H1 & H2) & H3).
    change (92 :: 120 :: h1 :: h2 :: r2) with ([92; 120; h1; h2] ++ r2) in *.
    constructor; [apply su_x; assumption | exact (IH _ (nonneg_app_r _ _ Hnn) H3)].
  - destruct (Z.ltb_spec b 128) as [Hb|Hb].
    + rewrite !andb_true_iff, !negb_true_iff, Z.ltb_lt, !Z.eqb_neq in H. destruct H as (((H1 & H2) & H3) & H4).
      change (b :: r) with ([b] ++ r) in *.
      constructor; [apply su_ascii; [lia | assumption..] | exact (IH _ (nonneg_app_r _ _ Hnn) H4)].
    + apply andb_true_iff in H. destruct H as [H1 H2]. apply negb_true_iff in H1.
      destruct (decode_rune (b :: r)) as [ch w] eqn:Hd. cbn [fst snd] in *.
      destruct (decode_rune_inv _ _ _ Hnn Hd H1) as (Hv & rest & Es & Hw).
      rewrite Es, Hw, skipn_app_length in H2. rewrite Es in Hnn |- *.
      assert (Hch : 128 <= ch).
      { destruct (encode_rune_bytes ch Hv) as [[Hlt E1] | [Hge _]]; [|exact Hge].
        rewrite E1 in Es. cbn [app] in Es. injection Es as Eb _. lia. }
      constructor; [apply su_rune; assumption | exact (IH _ (nonneg_app_r _ _ Hnn) H2)].
Qed.

Definition lexemeb (strict : bool) (ty : toktype) (text : str) : bool :=
  match ty with
  | TIdent => ident_shapeb text && (negb strict || negb (is_reserved text))
  | TReserved => ident_shapeb text && is_reserved text
  | TInt => negb (match text with [] => true | _ => false end) && forallb is_num text
  | TString =>
      match text with
      | q :: r =>
        match rev r with
        | q' :: body_rev =>
            (q =? 34) && (q' =? 34) && forallb (fun b => 0 <=? b) (rev body_rev)
            && sbodyb (S (length body_rev)) (rev body_rev)
        | [] => false
        end
      | [] => false
      end
  | TOperator => existsb (str_eqb text) op_texts
  | TEOF | TUnknown => false
  end.

Lemma lexemeb_sound : forall st ty text, lexemeb st ty text = true -> lexeme st ty text.
Proof.
  intros st ty text H. destruct ty; cbn [lexemeb lexeme] in *; try discriminate H.
  - apply andb_true_iff in H. destruct H as [H1 H2]. split; [apply ident_shapeb_ok; exact H1|].
    intros ->. cbn [negb orb] in H2. apply negb_true_iff in H2. exact H2.
  - apply andb_true_iff in H. destruct H as [H1 H2]. split; [|exact H2]. destruct text; [discriminate H1 | discriminate].
  - apply andb_true_iff in H. destruct H as [H1 H2]. split; [apply ident_shapeb_ok; exact H1 | exact H2].
  - destruct text as [|q r]; [discriminate H|]. destruct (rev r) as [|q' body_rev] eqn:Er; [discriminate H|].
    rewrite !andb_true_iff, !Z.eqb_eq in H. destruct H as (((-> & ->) & H3) & H4).
    exists (rev body_rev). split.
    + f_equal. rewrite <- (rev_involutive r), Er. reflexivity.
    + apply (sbodyb_sound _ _ ltac:(apply Forall_forall; intros x Hx; rewrite forallb_forall in H3; apply Z.leb_le, H3, Hx) H4).
  - apply existsb_exists in H. destruct H as (x & Hx & E). apply str_eqb_eq in E. subst x. exact Hx.
Qed.

(* 6. The printer's item lists satisfy [lexk] *)

Lemma nextb_app : forall x y c, nextb (x ++ y) c = nextb x (nextb y c).
Proof. intros [|b x] y c; reflexivity. Qed.

Lemma lexk_app : forall st a b c, lexk st (a ++ b) c <-> lexk st a (nextb (render b) c) /\ lexk st b c.
Proof.
  intros st a b c. induction a as [|[ty t|t] r IH]; cbn [app lexk].
  - tauto.
  - rewrite render_app, nextb_app. tauto.
  - tauto.
Qed.

Lemma lexk_app_i : forall st a b c, lexk st a (nextb (render b) c) -> lexk st b c -> lexk st (a ++ b) c.
Proof. intros st a b c H1 H2. apply lexk_app. split; assumption. Qed.

Lemma lexk_T_i : forall st ty t r c, lexeme st ty t -> sepb ty t (nextb (render r) c) = true -> lexk st r c ->
  lexk st (T ty t :: r) c.
Proof. intros st ty t r c H1 H2 H3. cbn [lexk]. repeat split; assumption. Qed.

Lemma lexk_Sp_i : forall st t r c, all_ws t -> lexk st r c -> lexk st (Sp t :: r) c.
Proof. intros st t r c H1 H2. cbn [lexk]. split; assumption. Qed.

Lemma lexeme_weaken : forall st ty t, lexeme true ty t -> lexeme st ty t.
Proof. intros st ty t H. destruct ty; cbn [lexeme] in *; try exact H. destruct H as [H1 H2]. split; [exact H1 | intros _; apply H2; reflexivity]. Qed.

Lemma lexk_weaken : forall st l c, lexk true l c -> lexk st l c.
Proof.
  intros st l c. induction l as [|[ty t|t] r IH]; cbn [lexk]; [tauto | |].
  - intros (H1 & H2 & H3). split; [apply lexeme_weaken; exact H1 | split; [exact H2 | exact (IH H3)]].
  - intros (H1 & H2). split; [exact H1 | exact (IH H2)].
Qed.

(* the byte after an expression: anything that cannot continue an identifier or a number *)
Definition ctx_ok (c : Z) : Prop := is_ident_rune c false = false.

(* the rendering is not empty and does not start with ':' or '=' *)
Definition starts (l : list item) : Prop := exists b r, render l = b :: r /\ b <> 58 /\ b <> 61.

Definition good (l : list item) : Prop := (forall c, ctx_ok c -> lexk true l c) /\ starts l.

Lemma starts_app : forall a b, starts a -> starts (a ++ b).
Proof. intros a b (x & r & E & H). exists x, (r ++ render b). rewrite render_app, E. split; [reflexivity | exact H]. Qed.

Lemma starts_T : forall ty b t r, b <> 58 -> b <> 61 -> starts (T ty (b :: t) :: r).
Proof. intros ty b t r H1 H2. exists b, (t ++ render r). split; [reflexivity | split; assumption]. Qed.

Lemma lexeme_can_ident : forall st k, can_ident k = true -> lexeme st TIdent k.
Proof.
  intros st k H. destruct (ParserRoundTrip.can_ident_inv k H) as (c & r & -> & Hres & Hc & Hr).
  split; [split; assumption | intros _; exact Hres].
Qed.

Lemma can_ident_first : forall k, can_ident k = true -> exists c r, k = c :: r /\ c <> 58 /\ c <> 61.
Proof.
  intros k H. destruct (ParserRoundTrip.can_ident_inv k H) as (c & r & -> & _ & Hc & _).
  exists c, r. split; [reflexivity|]. pose proof (ident_rune_range c true Hc). lia.
Qed.

Lemma sepb_ident_ctx : forall t c, ctx_ok c -> sepb TIdent t c = true.
Proof. intros t c H. cbn [sepb]. unfold ctx_ok in H. rewrite H. reflexivity. Qed.
Lemma sepb_kw_ctx : forall t c, ctx_ok c -> sepb TReserved t c = true.
Proof. intros t c H. cbn [sepb]. unfold ctx_ok in H. rewrite H. reflexivity. Qed.
Lemma sepb_int_ctx : forall t c, ctx_ok c -> sepb TInt t c = true.
Proof.
  intros t c Hc. cbn [sepb]. unfold ctx_ok, is_ident_rune in Hc. apply orb_false_iff in Hc. destruct Hc as [_ Hc].
  cbn [negb] in Hc. rewrite andb_true_r in Hc. rewrite Hc. reflexivity.
Qed.
(* only ':' and '=' can extend an operator (to "::", "!=", "<=", ">=") *)
Lemma sepb_op : forall t c, c <> 58 -> c <> 61 -> sepb TOperator t c = true.
Proof.
  intros t c H58 H61. cbn [sepb]. rewrite (proj2 (Z.eqb_neq c 58) H58), (proj2 (Z.eqb_neq c 61) H61).
  destruct (str_eqb t [58]); [reflexivity|]. destruct (str_eqb t [33] || str_eqb t [60] || str_eqb t [62]); reflexivity.
Qed.

Lemma sepb_ctx : forall ty t c, ctx_ok c -> c <> 58 -> c <> 61 -> ty <> TEOF -> ty <> TUnknown -> sepb ty t c = true.
Proof.
  intros ty t c Hc H58 H61 H1 H2.
  destruct ty; try congruence;
    [apply sepb_ident_ctx | apply sepb_int_ctx | apply sepb_kw_ctx | reflexivity | apply sepb_op]; assumption.
Qed.

Lemma all_ws_sp : all_ws [32]. Proof. repeat constructor. Qed.
Lemma all_ws_nl : all_ws [10]. Proof. repeat constructor. Qed.
Lemma all_ws_indent : all_ws [10; 32; 32; 32; 32]. Proof. repeat constructor. Qed.

Lemma sepb_op_starts : forall t X c, starts X -> sepb TOperator t (nextb (render X) c) = true.
Proof. intros t X c (b & r & E & H58 & H61). rewrite E. apply sepb_op; assumption. Qed.

Lemma print_nat_first : forall z, exists d r, print_nat z = d :: r /\ 48 <= d <= 57.
Proof.
  intros z. pose proof (TextProofs.print_nat_all_digits z) as H. pose proof (TextProofs.print_nat_nonempty z) as Hne.
  destruct (print_nat z) as [|d r]; [congruence|]. exists d, r. split; [reflexivity|].
  inversion H; subst. apply TextProofs.is_digit_range. assumption.
Qed.

Lemma lexeme_print_nat : forall st z, lexeme st TInt (print_nat z).
Proof.
  intros st z. destruct (print_nat_first z) as (d & r & E & _). split; [rewrite E; discriminate|].
  pose proof (TextProofs.print_nat_all_digits z) as H. apply forallb_forall. rewrite Forall_forall in H. exact H.
Qed.

(* [parens l] and hence [child .. l] are good when [l] is: the brackets are operators that merge with nothing *)
Lemma good_parens : forall l, (forall c, ctx_ok c -> lexk true l c) -> good (parens l).
Proof.
  intros l H. unfold parens, op. split.
  - intros c Hc. cbn [app]. apply lexk_T_i; [apply lexemeb_sound; reflexivity | reflexivity |].
    apply lexk_app_i; [apply H; reflexivity|]. apply lexk_T_i; [apply lexemeb_sound; reflexivity | reflexivity | exact I].
  - exists 40, (render l ++ [41]). rewrite !render_app. split; [reflexivity | split; discriminate].
Qed.

Lemma good_child : forall extra this e body, good body -> good (child extra this e body).
Proof. intros extra this e body H. unfold child. destruct (_ || _); [apply good_parens; exact (proj1 H) | exact H]. Qed.

(* Tactics for [good L] and [lexk st L c] where L is an explicit list of tokens and blanks around parts known to be good.
   [lexm]: an explicit token is a lexeme.  [startm]: the first byte of L.  [sepm]: the byte after an explicit token does not
   extend it - it is a known byte, the first byte of a good part, or the context byte. *)
Local Ltac lexm :=
  first [ assumption
        | lazymatch goal with |- lexeme _ _ (s_of _) => apply lexeme_weaken, lexemeb_sound; vm_compute; reflexivity end
        | apply lexeme_can_ident; assumption
        | apply lexeme_quote_string; assumption
        | apply lexeme_quote_pattern; assumption
        | apply lexeme_print_nat ].

Local Ltac startm :=
  lazymatch goal with
  | H : good ?X |- starts ?X => exact (proj2 H)
  | H : good ?X |- starts (?X ++ _) => apply starts_app; exact (proj2 H)
  | |- _ => eexists _, _; split; [reflexivity | split; (let E := fresh "E" in intro E; vm_compute in E; discriminate E)]
  end.

Local Ltac sepm :=
  first [ reflexivity
        | apply sepb_ident_ctx; assumption | apply sepb_kw_ctx; assumption | apply sepb_int_ctx; assumption
        | apply sepb_op_starts; startm ].

(* decompose a goal [lexk st L c] along the explicit structure of L *)
Local Ltac lexk_step :=
  match goal with
  | |- lexk _ [] _ => exact I
  | |- lexk _ (T _ _ :: _) _ => apply lexk_T_i; [try lexm | try sepm | ]
  | |- lexk _ (Sp _ :: _) _ => apply lexk_Sp_i; [try first [exact all_ws_sp | exact all_ws_nl | exact all_ws_indent | assumption] | ]
  | H : good ?X |- lexk _ (?X ++ _) _ => apply lexk_app_i; [apply lexk_weaken, (proj1 H); try first [reflexivity | assumption] | ]
  | H : good ?X |- lexk _ ?X _ => apply lexk_weaken, (proj1 H); try first [reflexivity | assumption]
  | |- lexk _ (_ ++ _) _ => apply lexk_app_i
  end.
Local Ltac lexk_go := repeat first [lexk_step | progress unfold op, kw, idt, sp, nl, indent, str_item, var_item].

Lemma lexk_commas : forall (A : Type) (g : A -> list item) l, (forall a, In a l -> forall c, ctx_ok c -> lexk true (g a) c) ->
  forall c, ctx_ok c -> lexk true (commas (map g l)) c.
Proof.
  induction l as [|x r IH]; intros H c Hc; [exact I|].
  destruct r as [|y r']; [cbn [map commas]; apply H; [left; reflexivity | exact Hc]|].
  change (commas (map g (x :: y :: r'))) with (g x ++ [op ","; sp] ++ commas (map g (y :: r'))).
  apply lexk_app_i; [apply H; [left; reflexivity | reflexivity]|].
  cbn [app]. lexk_go. apply IH; [intros z Hz; apply H; right; exact Hz | exact Hc].
Qed.

Lemma path_items_of_lexk : forall cs, cs <> [] -> forallb can_ident cs = true ->
  (forall c, ctx_ok c -> lexk true (path_items_of cs) c) /\ starts (path_items_of cs).
Proof.
  induction cs as [|x r IH]; intros Hne H; [congruence|].
  cbn [forallb] in H. apply andb_true_iff in H. destruct H as [Hx Hr].
  destruct (can_ident_first x Hx) as (b & t & E & Hb1 & Hb2).
  destruct r as [|y r'].
  - cbn [path_items_of]. split.
    + intros c Hc. lexk_go.
    + rewrite E. apply starts_T; assumption.
  - change (path_items_of (x :: y :: r')) with (T TIdent x :: op "::" :: path_items_of (y :: r')). split.
    + intros c Hc. lexk_go. apply (IH ltac:(discriminate) Hr). exact Hc.
    + rewrite E. apply starts_T; assumption.
Qed.

Lemma good_path : forall ty, path_ok ty = true -> good (path_items ty).
Proof.
  intros ty H. unfold path_items. apply path_items_of_lexk; [apply ParserRoundTrip.split_path_acc_ne | exact H].
Qed.

(* [good L]: split the conditions of the hypotheses, feed the induction hypotheses, note that paths and the parts wrapped by
   [child] are good, then walk along L *)
Local Ltac good_go :=
  repeat match goal with
  | H : _ && _ = true |- _ => apply andb_true_iff in H; destruct H
  | IH : ?P -> good _, H : ?P |- _ => specialize (IH H)
  end;
  repeat match goal with
  | H : path_ok ?ty = true |- _ =>
      lazymatch goal with _ : good (path_items ty) |- _ => fail | _ => pose proof (good_path ty H) end
  | H : good ?B |- context [child ?x ?p ?e ?B] =>
      lazymatch goal with _ : good (child x p e B) |- _ => fail | _ => pose proof (good_child x p e B H) end
  end;
  split; [let c := fresh "c" in let Hc := fresh "Hc" in intros c Hc; cbn [app]; lexk_go | startm].

Section Printer.
  Variables (is_printable is_gext : Z -> bool) (set_order : list value -> list nat) (print_ip : bool -> Z -> Z -> str) (extra : expr -> bool).
  Hypothesis print_ip_plain : forall v6 a p, Forall (fun c => 32 <= c < 127 /\ c <> 34 /\ c <> 92) (print_ip v6 a p).

  Notation EI := (expr_items is_printable is_gext set_order print_ip extra).
  Notation VI := (value_items is_printable is_gext set_order print_ip).
  Notation SI := (str_item is_printable is_gext).
  Notation eok := (expr_ok set_order).
  Notation vok := (value_ok set_order).
  Notation CH := (child extra).

  Lemma good_ext : forall fn arg, ident_shapeb (s_of fn) && negb (is_reserved (s_of fn)) = true ->
    Forall (fun c => 32 <= c < 127 /\ c <> 34 /\ c <> 92) arg -> good (ext_items fn arg).
  Proof.
    intros fn arg Hfn Harg. pose proof (lexemeb_sound true TIdent (s_of fn) Hfn) as Hl. pose proof (lexeme_plain true arg Harg) as Hs.
    unfold ext_items. split; [intros c Hc; lexk_go|].
    apply andb_true_iff in Hfn. destruct Hfn as [Hfn _]. unfold idt. destruct (s_of fn) as [|b t]; [discriminate|].
    cbn [ident_shapeb] in Hfn. apply andb_true_iff in Hfn. destruct Hfn as [Hb _].
    pose proof (ident_rune_range b true Hb). apply starts_T; lia.
  Qed.

  (* an entry of a record: the key, a colon, the (good) rendering of the member *)
  Lemma lexk_entry : forall k X c, str_ok2 k = true -> good X -> ctx_ok c -> lexk true ([SI k; op ":"] ++ X) c.
  Proof. intros k X c Hk HX Hc. cbn [app]. lexk_go. Qed.

  Lemma value_good : forall v, vok v = true -> good (VI v).
  Proof.
    induction v as [b | z | s | ty id | l IH | kvs IH | z | z | z | v6 a p] using value_ind'; intros Hok.
    - destruct b; cbn [value_items]; good_go.
    - cbn [value_items]. destruct (z <? 0); [good_go|]. split; [intros c Hc; lexk_go|].
      destruct (print_nat_first z) as (d & r & E & Hd). rewrite E. apply starts_T; lia.
    - cbn [value_items value_ok] in *. good_go.
    - cbn [value_items value_ok] in *. good_go.
    - rewrite ParserRoundTrip.value_ok_set in Hok. apply andb_true_iff in Hok. destruct Hok as [_ Hall].
      cbn [value_items]. rewrite (ParserRoundTrip.value_set_items_map is_printable is_gext set_order print_ip).
      good_go. apply lexk_commas; [|reflexivity]. intros i _ c' Hc'.
      destruct (nth_in_or_default i (map VI l) []) as [Hin | ->]; [|exact I].
      apply in_map_iff in Hin. destruct Hin as (v & <- & Hv).
      rewrite Forall_forall in IH. rewrite forallb_forall in Hall. apply (IH v Hv (Hall v Hv)). exact Hc'.
    - rewrite ParserRoundTrip.value_ok_record, !andb_true_iff in Hok. destruct Hok as ((_ & Hkeys) & Hall).
      cbn [value_items]. rewrite (ParserRoundTrip.value_rec_items_map is_printable is_gext set_order print_ip).
      good_go. apply lexk_commas; [|reflexivity]. intros [k v] Hkv c' Hc'.
      rewrite Forall_forall in IH. rewrite forallb_forall in Hall, Hkeys.
      exact (lexk_entry k _ c' (Hkeys _ Hkv) (IH _ Hkv (Hall _ Hkv)) Hc').
    - cbn [value_items]. apply good_ext; [vm_compute; reflexivity | apply ParserRoundTrip.print_decimal_plain].
    - cbn [value_items]. apply good_ext; [vm_compute; reflexivity | apply ParserRoundTrip.print_datetime_plain].
    - cbn [value_items]. apply good_ext; [vm_compute; reflexivity | apply ParserRoundTrip.print_duration_plain].
    - cbn [value_items]. apply good_ext; [vm_compute; reflexivity | apply print_ip_plain].
  Qed.

  Lemma is_method_true : forall n ar, ext_lookup n = Some (ar, true) -> is_method n = true.
  Proof. intros n ar H. unfold is_method. rewrite H. reflexivity. Qed.
  Lemma is_method_false : forall n ar, ext_lookup n = Some (ar, false) -> is_method n = false.
  Proof. intros n ar H. unfold is_method. rewrite H. reflexivity. Qed.

  Lemma lexk_args : forall this es, Forall (fun e => eok e = true -> good (EI e)) es -> forallb eok es = true ->
    forall c, ctx_ok c -> lexk true (commas (map (fun x => CH this x (EI x)) es)) c.
  Proof.
    intros this es IH Hall. apply lexk_commas. intros e He c Hc.
    rewrite Forall_forall in IH. rewrite forallb_forall in Hall.
    apply (proj1 (good_child extra this e _ (IH e He (Hall e He)))). exact Hc.
  Qed.

  (* Every constructor prints its children, good by induction and wrapped by [child], between fixed tokens and blanks:
     [good_go] does all of these; what is left are the cases with a list of children or a case distinction in the printer. *)
  Lemma expr_good : forall e, eok e = true -> good (EI e).
  Proof.
    induction e as [v | x | a b IHa IHb | a b IHa IHb | a IHa | a IHa | a b IHa IHb | a b IHa IHb | a b IHa IHb
                    | a b IHa IHb | a b IHa IHb | a b IHa IHb | a b IHa IHb | a b IHa IHb | a b IHa IHb | a b IHa IHb
                    | a b IHa IHb | a b IHa IHb | a b IHa IHb | a IHa | a k IHa | a k IHa | a b IHa IHb | a b IHa IHb
                    | a p IHa | a ty IHa | a ty b IHa IHb | c0 t f IHc IHt IHf | es IH | kvs IH | n args IH | k]
      using expr_ind'; intros Hok; try (cbn [expr_ok expr_items] in *; unfold infix; solve [good_go]).
    - (* ELit *) apply value_good. exact Hok.
    - (* EVar *) cbn [expr_items]. destruct x; good_go.
    - (* ENeg *) cbn [expr_ok expr_items] in *. destruct (starts_with_int a); good_go.
    - (* EAccess *) cbn [expr_ok expr_items] in *. unfold attr_items. destruct (can_ident k) eqn:Ek; good_go.
    - (* EHas *) cbn [expr_ok expr_items] in *. destruct (can_ident k) eqn:Ek; good_go.
    - (* ESet *) rewrite ParserRoundTrip.expr_ok_set in Hok. cbn [expr_items].
      rewrite (ParserRoundTrip.args_items_map is_printable is_gext set_order print_ip extra).
      good_go. apply (lexk_args PUnary es IH Hok). reflexivity.
    - (* ERecord *) rewrite ParserRoundTrip.expr_ok_record, !andb_true_iff in Hok. destruct Hok as ((_ & Hkeys) & Hall).
      cbn [expr_items].
      rewrite (ParserRoundTrip.rec_items_map is_printable is_gext set_order print_ip extra).
      good_go. apply lexk_commas; [|reflexivity]. intros [k v] Hkv c' Hc'.
      rewrite Forall_forall in IH. rewrite forallb_forall in Hall, Hkeys.
      exact (lexk_entry k _ c' (Hkeys _ Hkv) (good_child extra PUnary v _ (IH _ Hkv (Hall _ Hkv))) Hc').
    - (* ECall *) rewrite ParserRoundTrip.expr_ok_call in Hok. cbn [expr_items].
      destruct (ext_lookup n) as [[ar [|]]|] eqn:El; [| |discriminate Hok].
      + rewrite (is_method_true n ar El). rewrite !andb_true_iff in Hok. destruct Hok as (((_ & Hn) & Hne) & Hall).
        destruct args as [|a rest]; [discriminate Hne|].
        cbn [forallb] in Hall. apply andb_true_iff in Hall. destruct Hall as [Ha Hrest].
        inversion IH as [|a' rest' IHa IHrest]; subst.
        rewrite (ParserRoundTrip.args_items_map is_printable is_gext set_order print_ip extra).
        good_go. apply (lexk_args PAccess rest IHrest Hrest). reflexivity.
      + rewrite (is_method_false n ar El). apply andb_true_iff in Hok. destruct Hok as [Hn Hall].
        rewrite (ParserRoundTrip.args_items_map is_printable is_gext set_order print_ip extra).
        unfold path_items. rewrite (ParserRoundTrip.split_path_ident n Hn). cbn [path_items_of].
        destruct (can_ident_first n Hn) as (b0 & t0 & E0 & Hb1 & Hb2).
        split; [|rewrite E0; cbn [app]; apply starts_T; assumption]. intros c Hc. cbn [app]. lexk_go.
        apply (lexk_args PAccess args IH Hall). reflexivity.
    - (* EPartialError *) discriminate Hok.
  Qed.
End Printer.

Lemma ctx_ok_eof : ctx_ok rune_eof.
Proof. reflexivity. Qed.

Lemma reserved_shape : forall k, is_reserved k = true -> ident_shape k.
Proof.
  intros k H. unfold is_reserved in H. apply existsb_exists in H. destruct H as (w & Hw & E).
  apply str_eqb_eq in E. subst k. unfold reserved in Hw. cbn [In] in Hw.
  repeat (destruct Hw as [<- | Hw]; [apply ident_shapeb_ok; vm_compute; reflexivity|]). destruct Hw.
Qed.

Lemma lexk_flat_map : forall (A : Type) st (g : A -> list item) l, (forall x, In x l -> forall c, lexk st (g x) c) ->
  forall c, lexk st (flat_map g l) c.
Proof.
  intros A st g l. induction l as [|x l IH]; intros H c; [exact I|]. cbn [flat_map].
  apply lexk_app_i; [apply H; left; reflexivity | apply IH; intros y Hy; apply H; right; exact Hy].
Qed.

Lemma forallb_map' : forall (A B : Type) (f : A -> B) (p : B -> bool) l, forallb p (map f l) = forallb (fun x => p (f x)) l.
Proof. intros A B f p l. induction l as [|x l IH]; [reflexivity|]. cbn [map forallb]. rewrite IH. reflexivity. Qed.

Section Policies.
  Variables (is_printable is_gext : Z -> bool) (set_order : list value -> list nat) (print_ip : bool -> Z -> Z -> str) (extra : expr -> bool).
  Hypothesis print_ip_plain : forall v6 a p, Forall (fun c => 32 <= c < 127 /\ c <> 34 /\ c <> 92) (print_ip v6 a p).

  Notation EIx := (expr_items is_printable is_gext set_order print_ip).
  Notation SI := (str_item is_printable is_gext).
  Notation SIx := (scope_items is_printable is_gext set_order print_ip).
  Notation PI := (policy_items is_printable is_gext set_order print_ip extra).
  Notation eok := (expr_ok set_order).

  Theorem lex_render_expr : forall e, expr_ok set_order e = true ->
    exists f0, forall f, (f0 <= f)%nat -> exists ts,
      spec_tokenize f (render (expr_items is_printable is_gext set_order print_ip extra e)) = Some (Some ts) /\
      map strip ts = toks (expr_items is_printable is_gext set_order print_ip extra e) ++ [(TEOF, [])].
  Proof.
    intros e Hok. apply lex_render_strict.
    apply (proj1 (expr_good is_printable is_gext set_order print_ip extra print_ip_plain e Hok)). exact ctx_ok_eof.
  Qed.

  Lemma uid_expr_ok : forall u : uid, uid_ok u = true -> eok (ELit (VEntity (fst u) (snd u))) = true.
  Proof. intros u H. exact H. Qed.

  Lemma scope_expr_ok : forall x s, scope_ok s = true ->
    match scope_expr x s with Some e => eok e = true | None => True end.
  Proof.
    intros x s H. destruct s as [|u|u|us|ty|ty u]; cbn [scope_expr scope_ok] in *.
    - exact I.
    - cbn [expr_ok]. exact H.
    - cbn [expr_ok]. exact H.
    - change (eok (EIn (EVar x) (ESet (map (fun u : uid => ELit (VEntity (fst u) (snd u))) us))))
        with (true && eok (ESet (map (fun u : uid => ELit (VEntity (fst u) (snd u))) us))).
      rewrite ParserRoundTrip.expr_ok_set, forallb_map'. exact H.
    - cbn [expr_ok]. exact H.
    - cbn [expr_ok]. apply andb_true_iff in H. destruct H as [H1 H2]. cbn [andb]. rewrite H1. exact H2.
  Qed.

  Lemma good_var_item : forall x, good [var_item x].
  Proof.
    intros x. destruct x; good_go.
  Qed.

  Lemma good_scope : forall x s, scope_ok s = true -> good (SIx x s).
  Proof.
    intros x s H. unfold scope_items. pose proof (scope_expr_ok x s H) as He.
    destruct (scope_expr x s) as [e|]; [|apply good_var_item].
    apply (expr_good is_printable is_gext set_order print_ip no_extra print_ip_plain e He).
  Qed.

  Lemma principal_scope_ok_ok : forall s, principal_scope_ok s = true -> scope_ok s = true.
  Proof. intros s H. destruct s; try exact H. discriminate H. Qed.
  Lemma action_scope_ok_ok : forall s, action_scope_ok s = true -> scope_ok s = true.
  Proof. intros s H. destruct s; try exact H; discriminate H. Qed.

  Definition scope_part (p : policy) : list item :=
    match p_principal p, p_action p, p_resource p with
    | SAll, SAll, SAll => [op "("; sp; idt "principal"; op ","; sp; idt "action"; op ","; sp; idt "resource"; sp; op ")"]
    | sp_, sa, sr => [op "("; indent] ++ SIx VPrincipal sp_ ++ [op ","; indent] ++ SIx VAction sa
                     ++ [op ","; indent] ++ SIx VResource sr ++ [nl; op ")"]
    end.

  Lemma scope_part_cases : forall p,
    scope_part p = [op "("; sp; idt "principal"; op ","; sp; idt "action"; op ","; sp; idt "resource"; sp; op ")"] \/
    scope_part p = [op "("; indent] ++ SIx VPrincipal (p_principal p) ++ [op ","; indent] ++ SIx VAction (p_action p)
                     ++ [op ","; indent] ++ SIx VResource (p_resource p) ++ [nl; op ")"].
  Proof.
    intros p. unfold scope_part.
    destruct (p_principal p); [destruct (p_action p); [destruct (p_resource p); [left; reflexivity|..]|..]|..]; right; reflexivity.
  Qed.

  Lemma policy_items_eq : forall annots p,
    PI annots p =
    flat_map (fun kv : str * str => [op "@"; T TIdent (fst kv); op "("; SI (snd kv); op ")"; nl]) annots
    ++ [idt (if p_effect p then "permit" else "forbid"); sp] ++ scope_part p
    ++ flat_map (fun c : bool * expr => [nl; idt (if fst c then "when" else "unless"); sp; op "{"; sp] ++ EIx extra (snd c) ++ [sp; op "}"]) (p_conds p)
    ++ [op ";"].
  Proof. reflexivity. Qed.

  Lemma policy_lexk : forall st annots p c, policy_ok set_order annots p = true ->
    (st = true -> forallb (fun kv : str * str => negb (is_reserved (fst kv))) annots = true) ->
    lexk st (PI annots p) c.
  Proof.
    intros st annots p c Hok Hst. rewrite policy_items_eq.
    unfold policy_ok, annots_ok in Hok. rewrite !andb_true_iff in Hok. destruct Hok as (((((_ & Hvals) & Hs1) & Hs2) & Hs3) & Hconds).
    apply lexk_app_i.
    { (* annotations *)
      apply lexk_flat_map. intros [k v] Hkv c'. cbn [fst snd].
      rewrite forallb_forall in Hvals. specialize (Hvals _ Hkv). cbn [fst snd] in Hvals.
      apply andb_true_iff in Hvals. destruct Hvals as [Hk Hv].
      assert (Lk : lexeme st TIdent k).
      { split.
        - apply orb_true_iff in Hk. destruct Hk as [Hk | Hk]; [|apply reserved_shape; exact Hk].
          destruct (ParserRoundTrip.can_ident_inv k Hk) as (c0 & r0 & -> & _ & H1 & H2). split; assumption.
        - intros E. specialize (Hst E). rewrite forallb_forall in Hst. specialize (Hst _ Hkv). cbn [fst] in Hst.
          apply negb_true_iff in Hst. exact Hst. }
      pose proof (lexeme_quote_string is_printable is_gext st v Hv) as Lv.
      unfold str_item. lexk_go. }
    apply lexk_app_i.
    { destruct (p_effect p); lexk_go. }
    apply lexk_app_i.
    { (* scopes *)
      destruct (scope_part_cases p) as [-> | ->]; [lexk_go|].
      pose proof (good_scope VPrincipal _ (principal_scope_ok_ok _ Hs1)) as G1.
      pose proof (good_scope VAction _ (action_scope_ok_ok _ Hs2)) as G2.
      pose proof (good_scope VResource _ (principal_scope_ok_ok _ Hs3)) as G3.
      cbn [app]. lexk_go. }
    apply lexk_app_i; [|lexk_go].
    (* conditions *)
    apply lexk_flat_map. intros [b e] Hbe c'. cbn [fst snd].
    rewrite forallb_forall in Hconds. specialize (Hconds _ Hbe). cbn [snd] in Hconds.
    pose proof (expr_good is_printable is_gext set_order print_ip extra print_ip_plain e Hconds) as Ge.
    cbn [app]. destruct b; lexk_go.
  Qed.

  (* Without a side condition the exact statement is FALSE: annots_ok allows reserved words as annotation keys; the printer
     lists such a key as an identifier token while the tokenizer reports a reserved-word token (see
     [lex_render_policy_counterexample] below).  Exact statement under the side condition "no annotation key is a reserved
     word"; the general statement is [lex_render_policy_gen]: equal up to [retype]. *)
  Theorem lex_render_policy : forall annots p, policy_ok set_order annots p = true ->
    forallb (fun kv : str * str => negb (is_reserved (fst kv))) annots = true ->
    exists f0, forall f, (f0 <= f)%nat -> exists ts,
      spec_tokenize f (render (policy_items is_printable is_gext set_order print_ip extra annots p)) = Some (Some ts) /\
      map strip ts = toks (policy_items is_printable is_gext set_order print_ip extra annots p) ++ [(TEOF, [])].
  Proof.
    intros annots p Hok Hres. apply lex_render_strict. apply policy_lexk; [exact Hok | intros _; exact Hres].
  Qed.

  Theorem lex_render_policy_gen : forall annots p, policy_ok set_order annots p = true ->
    exists f0, forall f, (f0 <= f)%nat -> exists ts,
      spec_tokenize f (render (policy_items is_printable is_gext set_order print_ip extra annots p)) = Some (Some ts) /\
      map strip ts = map retype (toks (policy_items is_printable is_gext set_order print_ip extra annots p)) ++ [(TEOF, [])].
  Proof.
    intros annots p Hok. apply (lex_render_generic false). apply policy_lexk; [exact Hok | discriminate].
  Qed.

  (* documents: policies joined by a white-space separator (possibly empty), with optional leading / trailing white space *)
  Fixpoint doc_items (sep : str) (ps : list (list (str * str) * policy)) : list item :=
    match ps with
    | [] => []
    | ap :: r => PI (fst ap) (snd ap) ++ match r with [] => [] | _ => Sp sep :: doc_items sep r end
    end.

  Lemma doc_items_toks : forall sep ps,
    toks (doc_items sep ps) = flat_map (fun ap => toks (PI (fst ap) (snd ap))) ps.
  Proof.
    intros sep. induction ps as [|ap r IH]; [reflexivity|]. cbn [doc_items flat_map]. rewrite toks_app. f_equal.
    destruct r as [|ap' r']; [reflexivity|]. rewrite toks_cons_Sp. exact IH.
  Qed.

  Lemma doc_lexk : forall st sep ps c, all_ws sep ->
    Forall (fun ap => policy_ok set_order (fst ap) (snd ap) = true) ps ->
    (st = true -> Forall (fun ap => forallb (fun kv : str * str => negb (is_reserved (fst kv))) (fst ap) = true) ps) ->
    lexk st (doc_items sep ps) c.
  Proof.
    intros st sep ps c Hsep Hok Hst. induction Hok as [|ap r Hap Hr IH]; [exact I|].
    cbn [doc_items]. apply lexk_app_i.
    - apply policy_lexk; [exact Hap|]. intros E. specialize (Hst E). inversion Hst; assumption.
    - destruct r as [|ap' r']; [exact I|]. apply lexk_Sp_i; [exact Hsep|]. apply IH.
      intros E. specialize (Hst E). inversion Hst; assumption.
  Qed.

  Theorem lex_render_document : forall sep ps, all_ws sep ->
    Forall (fun ap => policy_ok set_order (fst ap) (snd ap) = true) ps ->
    Forall (fun ap => forallb (fun kv : str * str => negb (is_reserved (fst kv))) (fst ap) = true) ps ->
    exists f0, forall f, (f0 <= f)%nat -> exists ts,
      spec_tokenize f (render (doc_items sep ps)) = Some (Some ts) /\
      map strip ts = flat_map (fun ap => toks (policy_items is_printable is_gext set_order print_ip extra (fst ap) (snd ap))) ps
                     ++ [(TEOF, [])].
  Proof.
    intros sep ps Hsep Hok Hres. rewrite <- (doc_items_toks sep). apply lex_render_strict.
    apply doc_lexk; [exact Hsep | exact Hok | intros _; exact Hres].
  Qed.

  Theorem lex_render_document_gen : forall sep ps, all_ws sep ->
    Forall (fun ap => policy_ok set_order (fst ap) (snd ap) = true) ps ->
    exists f0, forall f, (f0 <= f)%nat -> exists ts,
      spec_tokenize f (render (doc_items sep ps)) = Some (Some ts) /\
      map strip ts = map retype (flat_map (fun ap => toks (policy_items is_printable is_gext set_order print_ip extra (fst ap) (snd ap))) ps)
                     ++ [(TEOF, [])].
  Proof.
    intros sep ps Hsep Hok. rewrite <- (doc_items_toks sep). apply (lex_render_generic false).
    apply doc_lexk; [exact Hsep | exact Hok | discriminate].
  Qed.

  (* the same with white space before the first and after the last policy *)
  Theorem lex_render_document_ws : forall lead sep trail ps, all_ws lead -> all_ws sep -> all_ws trail ->
    Forall (fun ap => policy_ok set_order (fst ap) (snd ap) = true) ps ->
    Forall (fun ap => forallb (fun kv : str * str => negb (is_reserved (fst kv))) (fst ap) = true) ps ->
    exists f0, forall f, (f0 <= f)%nat -> exists ts,
      spec_tokenize f (lead ++ render (doc_items sep ps) ++ trail) = Some (Some ts) /\
      map strip ts = flat_map (fun ap => toks (policy_items is_printable is_gext set_order print_ip extra (fst ap) (snd ap))) ps
                     ++ [(TEOF, [])].
  Proof.
    intros lead sep trail ps Hlead Hsep Htrail Hok Hres. rewrite <- (doc_items_toks sep).
    assert (L : lexk true (Sp lead :: doc_items sep ps ++ [Sp trail]) rune_eof).
    { apply lexk_Sp_i; [exact Hlead|]. apply lexk_app_i; [|apply lexk_Sp_i; [exact Htrail | exact I]].
      apply doc_lexk; [exact Hsep | exact Hok | intros _; exact Hres]. }
    destruct (lex_render_strict _ L) as [f0 H0]. exists f0. intros f Hf. destruct (H0 f Hf) as (ts & E & Ets).
    exists ts. rewrite render_cons_Sp, render_app in E. cbn [render flat_map] in E. rewrite app_nil_r in E.
    split; [exact E|]. rewrite toks_cons_Sp, toks_app in Ets. cbn [toks flat_map] in Ets. rewrite app_nil_r in Ets. exact Ets.
  Qed.
End Policies.

(* the counterexample to the unconditional policy statement: the annotation key "if" *)
Definition cex_policy : policy := {| p_effect := true; p_principal := SAll; p_action := SAll; p_resource := SAll; p_conds := [] |}.
Definition cex_items : list item :=
  policy_items (fun _ => true) (fun _ => false) (fun l => seq 0 (length l)) (fun _ _ _ => []) (fun _ => false) [(s_of "if", s_of "x")] cex_policy.

Example lex_render_policy_counterexample :
  policy_ok (fun l => seq 0 (length l)) [(s_of "if", s_of "x")] cex_policy = true /\
  exists ts, spec_tokenize 100 (render cex_items) = Some (Some ts) /\
    nth 1 (map strip ts) (TEOF, []) = (TReserved, s_of "if") /\ nth 1 (toks cex_items) (TEOF, []) = (TIdent, s_of "if").
Proof.
  split; [vm_compute; reflexivity|]. eexists. split; [vm_compute; reflexivity|]. split; vm_compute; reflexivity.
Qed.

(* 7. Positions do not matter to the parser *)
(* a token with its position erased *)
Definition nrm (t : token) : token := mk (strip t).

Lemma peek_map : forall ts, peek (map nrm ts) = nrm (peek ts).
Proof. intros [|t ts]; reflexivity. Qed.
Lemma adv_map : forall ts, adv (map nrm ts) = map nrm (adv ts).
Proof. intros [|a [|b r]]; reflexivity. Qed.

Definition emap {A : Type} (x : pres A) : pres A :=
  match x with POk a r => POk a (map nrm r) | PErr => PErr | PFuel => PFuel end.

Definition umap (x : list bool * list token) : list bool * list token := (fst x, map nrm (snd x)).

Lemma unary_ops_map : forall f ts acc, unary_ops f (map nrm ts) acc = option_map umap (unary_ops f ts acc).
Proof.
  induction f as [|f IH]; intros ts acc; [reflexivity|]. cbn [unary_ops]. cbv zeta.
  rewrite peek_map, adv_map, !IH. change (tx (nrm (peek ts))) with (tx (peek ts)).
  destruct (tx (peek ts) "-"); [reflexivity|]. destruct (tx (peek ts) "!"); reflexivity.
Qed.

(* a parsed policy with its position erased *)
Definition zp (pp : ppolicy) : ppolicy := {| pp_annots := pp_annots pp; pp_pos := (0, 0, 0); pp_policy := pp_policy pp |}.
Definition emap_p (x : pres ppolicy) : pres ppolicy :=
  match x with POk a r => POk (zp a) (map nrm r) | PErr => PErr | PFuel => PFuel end.
Definition emap_l (x : pres (list ppolicy)) : pres (list ppolicy) :=
  match x with POk a r => POk (map zp a) (map nrm r) | PErr => PErr | PFuel => PFuel end.

(* Goals  L = m R  where L and R run the same code, L on [map nrm ts] and R on [ts], and [m] is emap, emap_p or emap_l.
   Both sides are stuck on the same test.  A test that looks at a token ([tx (nrm t) s], [t_text (nrm t)], ...) is
   convertible to the one on [t] once [map nrm] has been moved out of [peek] and [adv]; a call of a parser function is
   [emap] of the call on the right by [ih].  Then one [destruct] moves both sides on.  At the end: equal results, or
   a tail call, which is [ih] again. *)
Local Ltac head_scrut t :=
  lazymatch t with
  | match ?c with _ => _ end => head_scrut c
  | _ => t
  end.

Local Ltac walk_step ih :=
  rewrite ?peek_map, ?adv_map;
  lazymatch goal with
  | |- _ = POk _ _ => reflexivity
  | |- _ = PErr => reflexivity
  | |- _ = PFuel => reflexivity
  | |- ?L = ?m ?R =>
    let c := head_scrut R in
    lazymatch c with
    | R => lazymatch R with POk _ _ => reflexivity | _ => ih end
    | _ =>
      let c' := head_scrut L in
      lazymatch type of c with
      | pres _ => replace c' with (emap c) by (symmetry; ih); destruct c
      | option (list bool * list token) => rewrite map_length, unary_ops_map; destruct c as [[? ?]|]
      | _ =>
        first [ change c' with c; destruct c
              | (* the test sits under another one, inside an argument (the optional comma of p_policy) *)
                lazymatch c with context [if ?b then _ else _] =>
                  lazymatch c' with context [if ?b' then _ else _] => change b' with b; destruct b end
                end ]
      end;
      cbn [emap emap_p emap_l option_map umap fst snd]
    end
  end.

Local Ltac walk ih := cbv zeta; unfold bind, bexact, exact; repeat walk_step ih.

Lemma entity_rest_map : forall f ty ts, entity_rest f ty (map nrm ts) = emap (entity_rest f ty ts).
Proof. induction f as [|f IH]; intros ty ts; [reflexivity|]. cbn [entity_rest]. walk ltac:(apply IH). Qed.

Lemma p_entity_map : forall f ts, p_entity f (map nrm ts) = emap (p_entity f ts).
Proof. intros f ts. unfold p_entity. walk ltac:(apply entity_rest_map). Qed.

Lemma path_rest_map : forall f ty ts, path_rest f ty (map nrm ts) = emap (path_rest f ty ts).
Proof. induction f as [|f IH]; intros ty ts; [reflexivity|]. cbn [path_rest]. walk ltac:(apply IH). Qed.

Lemma p_path_map : forall f ts, p_path f (map nrm ts) = emap (p_path f ts).
Proof. intros f ts. unfold p_path. walk ltac:(apply path_rest_map). Qed.

Lemma p_entlist_map : forall f ts acc, p_entlist f (map nrm ts) acc = emap (p_entlist f ts acc).
Proof.
  induction f as [|f IH]; intros ts acc; [reflexivity|]. cbn [p_entlist]. walk ltac:(first [apply IH | apply p_entity_map]).
Qed.

Lemma p_scope_pr_map : forall f ts, p_scope_pr f (map nrm ts) = emap (p_scope_pr f ts).
Proof. intros f ts. unfold p_scope_pr. walk ltac:(first [apply p_entity_map | apply p_path_map]). Qed.

Lemma p_scope_action_map : forall f ts, p_scope_action f (map nrm ts) = emap (p_scope_action f ts).
Proof. intros f ts. unfold p_scope_action. walk ltac:(first [apply p_entity_map | apply p_entlist_map]). Qed.

Lemma expr_block_map : forall f,
  (forall ts, p_expression f (map nrm ts) = emap (p_expression f ts)) /\
  (forall ts, p_or f (map nrm ts) = emap (p_or f ts)) /\
  (forall l ts, p_or_loop f l (map nrm ts) = emap (p_or_loop f l ts)) /\
  (forall ts, p_and f (map nrm ts) = emap (p_and f ts)) /\
  (forall l ts, p_and_loop f l (map nrm ts) = emap (p_and_loop f l ts)) /\
  (forall ts, p_relation f (map nrm ts) = emap (p_relation f ts)) /\
  (forall res cur ts, p_has_chain f res cur (map nrm ts) = emap (p_has_chain f res cur ts)) /\
  (forall ts, p_add f (map nrm ts) = emap (p_add f ts)) /\
  (forall l ts, p_add_loop f l (map nrm ts) = emap (p_add_loop f l ts)) /\
  (forall ts, p_mult f (map nrm ts) = emap (p_mult f ts)) /\
  (forall l ts, p_mult_loop f l (map nrm ts) = emap (p_mult_loop f l ts)) /\
  (forall ts, p_unary f (map nrm ts) = emap (p_unary f ts)) /\
  (forall ts, p_member f (map nrm ts) = emap (p_member f ts)) /\
  (forall l ts, p_access_loop f l (map nrm ts) = emap (p_access_loop f l ts)) /\
  (forall ts, p_primary f (map nrm ts) = emap (p_primary f ts)) /\
  (forall pre ts, p_entity_or_extfun f pre (map nrm ts) = emap (p_entity_or_extfun f pre ts)) /\
  (forall close ts acc, p_expressions f close (map nrm ts) acc = emap (p_expressions f close ts acc)) /\
  (forall ts acc, p_record f (map nrm ts) acc = emap (p_record f ts acc)).
Proof.
  induction f as [|f IH]; [repeat split; intros; reflexivity|].
  (* the eighteen induction hypotheses apart: a call finds its own among them ([apply] through the conjunction is dear) *)
  repeat (destruct IH as [? IH]).
  repeat split; intros;
    cbn [p_expression p_or p_or_loop p_and p_and_loop p_relation p_has_chain p_add p_add_loop p_mult p_mult_loop p_unary
         p_member p_access_loop p_primary p_entity_or_extfun p_expressions p_record];
    walk ltac:(first [match goal with H : forall _, _ |- _ => apply H end | apply p_path_map]).
Qed.

Lemma p_expression_map : forall f ts, p_expression f (map nrm ts) = emap (p_expression f ts).
Proof. intros f. apply (expr_block_map f). Qed.

Lemma p_annotations_map : forall f ts acc, p_annotations f (map nrm ts) acc = emap (p_annotations f ts acc).
Proof. induction f as [|f IH]; intros ts acc; [reflexivity|]. cbn [p_annotations]. walk ltac:(apply IH). Qed.

Lemma p_conditions_map : forall f ts acc, p_conditions f (map nrm ts) acc = emap (p_conditions f ts acc).
Proof.
  induction f as [|f IH]; intros ts acc; [reflexivity|]. cbn [p_conditions].
  walk ltac:(first [apply IH | apply p_expression_map]).
Qed.

Lemma p_policy_map : forall f ts, p_policy f (map nrm ts) = emap_p (p_policy f ts).
Proof.
  intros f ts. unfold p_policy.
  walk ltac:(first [apply p_annotations_map | apply p_scope_pr_map | apply p_scope_action_map | apply p_conditions_map]).
Qed.

Lemma p_policies_map : forall f ts acc, p_policies f (map nrm ts) (map zp acc) = emap_l (p_policies f ts acc).
Proof.
  induction f as [|f IH]; intros ts acc; [reflexivity|]. cbn [p_policies]. rewrite peek_map. change (t_type (nrm (peek ts))) with (t_type (peek ts)).
  assert (H : bind (p_policy (S f) (map nrm ts)) (fun p r => p_policies f r (map zp acc ++ [p]))
              = emap_l (bind (p_policy (S f) ts) (fun p r => p_policies f r (acc ++ [p])))).
  { rewrite p_policy_map. unfold bind. destruct (p_policy (S f) ts) as [a r| |]; cbn [emap_p emap_l]; [|reflexivity..].
    rewrite <- IH, map_app. reflexivity. }
  destruct (t_type (peek ts)); first [reflexivity | exact H].
Qed.

(* the end-to-end theorem; annotation keys may be reserved words, which the tokenizer re-types *)
Section TextRoundTripGen.
  Variables (is_printable is_gext : Z -> bool) (set_order : list value -> list nat) (print_ip : bool -> Z -> Z -> str) (extra : expr -> bool).
  Hypothesis print_ip_plain : forall v6 a p, Forall (fun c => 32 <= c < 127 /\ c <> 34 /\ c <> 92) (print_ip v6 a p).

  Notation PI := (policy_items is_printable is_gext set_order print_ip extra).

  (* the token the tokenizer makes of an annotation key: an identifier, or a reserved word *)
  Definition key_tok (k : str) : token := mk (retype (TIdent, k)).
  Notation AT' := (ParserRoundTrip.ATk is_printable is_gext key_tok).

  Lemma key_tok_facts : forall k, is_ident (key_tok k) || is_reserved_tok (key_tok k) = true /\ t_text (key_tok k) = k.
  Proof. intros k. unfold key_tok, retype. cbn [fst snd]. destruct (is_reserved k); split; reflexivity. Qed.

  Lemma policy_items_split : forall annots p,
    PI annots p = flat_map (fun kv : str * str => [op "@"; T TIdent (fst kv); op "("; str_item is_printable is_gext (snd kv); op ")"; nl]) annots
                  ++ PI [] p.
  Proof. reflexivity. Qed.

  Lemma policy_ok_nil : forall annots p, policy_ok set_order annots p = true -> policy_ok set_order [] p = true.
  Proof.
    intros annots p H. unfold policy_ok in *. rewrite !andb_true_iff in *. repeat split; first [apply H | reflexivity].
  Qed.

  Lemma retoks_annots : forall annots,
    map mk (map retype (toks (flat_map (fun kv : str * str =>
       [op "@"; T TIdent (fst kv); op "("; str_item is_printable is_gext (snd kv); op ")"; nl]) annots))) = AT' annots.
  Proof.
    induction annots as [|kv annots IH]; [reflexivity|]. cbn [flat_map]. rewrite toks_app, !map_app, IH. reflexivity.
  Qed.

  Lemma retoks_policy : forall annots p, policy_ok set_order annots p = true ->
    map mk (map retype (toks (PI annots p))) = AT' annots ++ toks_of (PI [] p).
  Proof.
    intros annots p Hok. rewrite policy_items_split, toks_app, !map_app, retoks_annots. f_equal.
    unfold toks_of. f_equal. apply (lexk_strict_retype _ rune_eof).
    apply (policy_lexk is_printable is_gext set_order print_ip extra print_ip_plain true [] p rune_eof (policy_ok_nil _ _ Hok)).
    intros _. reflexivity.
  Qed.

  (* print to bytes, tokenize, parse: the policies come back up to the text normal form - for every policy_ok input *)
  Theorem text_roundtrip_document_gen : forall sep ps, all_ws sep ->
    Forall (fun ap => policy_ok set_order (fst ap) (snd ap) = true) ps ->
    exists f0, forall f, (f0 <= f)%nat -> exists ts,
      spec_tokenize f (render (doc_items is_printable is_gext set_order print_ip extra sep ps)) = Some (Some ts) /\
      exists res last, p_policies f ts [] = POk res [last] /\ t_type last = TEOF /\
        map (fun pp => (pp_annots pp, pp_policy pp)) res = map (fun ap => (fst ap, norm_policy set_order print_ip (snd ap))) ps.
  Proof.
    intros sep ps Hsep Hok.
    destruct (lex_render_document_gen is_printable is_gext set_order print_ip extra print_ip_plain sep ps Hsep Hok) as [f1 H1].
    (* the parser reads the re-typed tokens: ParserRoundTrip, with [key_tok] as the key token *)
    destruct (ParserRoundTrip.parse_print_policies_kt is_printable is_gext set_order print_ip extra print_ip_plain key_tok
                (fun k => proj1 (key_tok_facts k)) (fun k => proj2 (key_tok_facts k)) ps [] Hok) as [f2 H2].
    exists (f1 + f2)%nat. intros f Hf. destruct (H1 f ltac:(lia)) as (ts & Etok & Ets). exists ts. split; [exact Etok|].
    specialize (H2 f ltac:(lia)).
    assert (Hn : map nrm ts = flat_map (fun ap => AT' (fst ap) ++ toks_of (PI [] (snd ap))) ps ++ [eof_token]).
    { unfold nrm. rewrite <- (map_map strip mk), Ets, map_app. f_equal.
      clear -Hok print_ip_plain. induction Hok as [|ap ps Hap _ IH]; [reflexivity|].
      cbn [flat_map]. rewrite !map_app, IH. f_equal. apply retoks_policy. exact Hap. }
    pose proof (p_policies_map f ts []) as Hp. cbn [map] in Hp. rewrite Hn, H2 in Hp. cbn [app] in Hp.
    destruct (p_policies f ts []) as [res rest| |]; cbn [emap_l] in Hp; try discriminate Hp.
    injection Hp as Hres' Hrest.
    destruct rest as [|last [|x rest']]; try discriminate Hrest.
    exists res, last. split; [reflexivity|]. split.
    - assert (Hl : nrm last = eof_token) by (cbn [map] in Hrest; congruence). apply (f_equal t_type) in Hl. exact Hl.
    - apply (f_equal (map (fun pp => (pp_annots pp, pp_policy pp)))) in Hres'. rewrite !map_map in Hres'.
      cbn [zp pp_annots pp_policy ParserRoundTrip.doc_result] in Hres'. symmetry. exact Hres'.
  Qed.

  (* the same under the side condition of lex_render_policy (no annotation key is a reserved word), which the end-to-end
     statement does not need *)
  Theorem text_roundtrip_document : forall sep ps, all_ws sep ->
    Forall (fun ap => policy_ok set_order (fst ap) (snd ap) = true) ps ->
    Forall (fun ap => forallb (fun kv : str * str => negb (is_reserved (fst kv))) (fst ap) = true) ps ->
    exists f0, forall f, (f0 <= f)%nat -> exists ts,
      spec_tokenize f (render (doc_items is_printable is_gext set_order print_ip extra sep ps)) = Some (Some ts) /\
      exists res last, p_policies f ts [] = POk res [last] /\ t_type last = TEOF /\
        map (fun pp => (pp_annots pp, pp_policy pp)) res = map (fun ap => (fst ap, norm_policy set_order print_ip (snd ap))) ps.
  Proof. intros sep ps Hsep Hok _. exact (text_roundtrip_document_gen sep ps Hsep Hok). Qed.
End TextRoundTripGen.

(* 8. A boolean checker for [lexk] (sound): lets a test evaluate lexability of any concrete rendering *)
Fixpoint lexkb (strict : bool) (l : list item) (c : Z) : bool :=
  match l with
  | [] => true
  | Sp t :: r => forallb is_ws t && lexkb strict r c
  | T ty t :: r => lexemeb strict ty t && sepb ty t (nextb (render r) c) && lexkb strict r c
  end.

Lemma lexkb_sound : forall st l c, lexkb st l c = true -> lexk st l c.
Proof.
  intros st l c. induction l as [|[ty t|t] r IH]; intros H; [exact I | |]; cbn [lexkb lexk] in *.
  - rewrite !andb_true_iff in H. destruct H as ((H1 & H2) & H3).
    split; [apply lexemeb_sound; exact H1 | split; [exact H2 | exact (IH H3)]].
  - apply andb_true_iff in H. destruct H as [H1 H2]. split; [|exact (IH H2)].
    apply Forall_forall. intros x Hx. rewrite forallb_forall in H1. exact (H1 x Hx).
Qed.

(* any item list that passes the check lexes back to its own tokens *)
Theorem lex_render_checked : forall l, lexkb true l rune_eof = true ->
  exists f0, forall f, (f0 <= f)%nat -> exists ts,
    spec_tokenize f (render l) = Some (Some ts) /\ map strip ts = toks l ++ [(TEOF, [])].
Proof. intros l H. apply lex_render_strict, lexkb_sound. exact H. Qed.

(* the checker accepts a typical rendering (non-ASCII text, escapes, every operator class) *)
Example lexkb_example :
  lexkb true (expr_items (fun r => negb (r =? 7)) (fun _ => false) (fun l => seq 0 (length l)) (fun _ _ _ => []) (fun _ => false)
     (EAnd (EEq (EAccess (EVar VPrincipal) (s_of "name")) (ELit (VString [206; 187; 7; 34; 10; 120])))
           (ELt (ENeg (ELit (VLong 3))) (ELit (VLong (-5)))))) rune_eof = true.
Proof. vm_compute. reflexivity. Qed.

Print Assumptions lex_render_generic.
Print Assumptions lex_render_strict.
Print Assumptions lex_render_expr.
Print Assumptions lex_render_policy.
Print Assumptions lex_render_policy_gen.
Print Assumptions lex_render_document.
Print Assumptions lex_render_document_gen.
Print Assumptions lex_render_document_ws.
Print Assumptions lex_render_policy_counterexample.
Print Assumptions text_roundtrip_document.
Print Assumptions text_roundtrip_document_gen.
Print Assumptions lex_render_checked.
