(* Correctness of the greedy chunk matcher of types/pattern.go (model: Impl/Like.v)
   against the textbook semantics of wildcard patterns. *)
From Coq Require Import ZArith List Bool Lia.
Import ListNotations.
From Cedar Require Import Lang.Value Impl.Like.
Local Open Scope Z_scope.

Inductive pelem := PStar | PChar (c : Z).

(* specification: * matches any (possibly empty) sequence of bytes, a char matches itself *)
Fixpoint wmatch (p : list pelem) (s : str) : bool :=
  match p with
  | [] => match s with [] => true | _ :: _ => false end
  | PChar c :: p' =>
      match s with
      | [] => false
      | x :: s' => (c =? x) && wmatch p' s'
      end
  | PStar :: p' =>
      (* either the star matches the empty sequence, or it eats one byte of s *)
      (fix star (s : str) : bool :=
         wmatch p' s || match s with [] => false | _ :: s' => star s' end) s
  end.

Definition elems_of_raw (cs : list (option str)) : list pelem :=
  flat_map (fun c => match c with None => [PStar] | Some s => map PChar s end) cs.

(* the element list denoted by a compiled pattern *)
Definition expand (p : pattern) : list pelem :=
  flat_map (fun c : pcomp => let '(w, lit) := c in
                             (if w then [PStar] else []) ++ map PChar lit) p.

Lemma wmatch_star_unfold : forall q s,
  wmatch (PStar :: q) s =
  wmatch q s || match s with [] => false | _ :: s' => wmatch (PStar :: q) s' end.
Proof. intros q s. destruct s as [|x s']; reflexivity. Qed.

Lemma wmatch_star_all : forall s, wmatch [PStar] s = true.
Proof.
  induction s as [|x s IH].
  - reflexivity.
  - rewrite wmatch_star_unfold. rewrite IH. apply orb_true_r.
Qed.

Lemma wmatch_star_iff : forall q s,
  wmatch (PStar :: q) s = true <->
  exists u v, s = u ++ v /\ wmatch q v = true.
Proof.
  intros q s. split.
  - induction s as [|x s IH]; intros H; rewrite wmatch_star_unfold in H.
    + rewrite orb_false_r in H. exists [], []. split; [reflexivity|exact H].
    + apply orb_true_iff in H. destruct H as [H|H].
      * exists [], (x :: s). split; [reflexivity|exact H].
      * destruct (IH H) as [u [v [Hs Hv]]].
        exists (x :: u), v. split; [rewrite Hs; reflexivity|exact Hv].
  - intros [u [v [Hs Hv]]]. subst s.
    induction u as [|x u IH].
    + cbn [app]. rewrite wmatch_star_unfold. rewrite Hv. reflexivity.
    + cbn [app]. rewrite wmatch_star_unfold. rewrite IH. apply orb_true_r.
Qed.

Lemma match_chunk_spec : forall lit s t,
  match_chunk lit s = Some t <-> s = lit ++ t.
Proof.
  induction lit as [|c lit IH]; intros s t; cbn [match_chunk app].
  - split; [intros [= ->] | intros ->]; reflexivity.
  - destruct s as [|x s]; [split; discriminate|].
    destruct (Z.eqb_spec c x) as [->|Hne].
    + rewrite IH. split; [intros -> | intros [= ->]]; reflexivity.
    + split; [discriminate | intros [= E _]; destruct (Hne (eq_sym E))].
Qed.

Lemma wmatch_chars : forall lit q s,
  wmatch (map PChar lit ++ q) s =
  match match_chunk lit s with Some t => wmatch q t | None => false end.
Proof.
  induction lit as [|c lit IH]; intros q s.
  - reflexivity.
  - cbn [map app wmatch match_chunk]. destruct s as [|x s].
    + reflexivity.
    + destruct (c =? x).
      * rewrite andb_true_l. apply IH.
      * reflexivity.
Qed.

Definition peq (p q : list pelem) : Prop := forall s, wmatch p s = wmatch q s.

Lemma peq_cons : forall e p q, peq p q -> peq (e :: p) (e :: q).
Proof.
  intros e p q H. destruct e as [|c].
  - intros s. induction s as [|x s IH].
    + rewrite !wmatch_star_unfold. rewrite H. reflexivity.
    + rewrite (wmatch_star_unfold p), (wmatch_star_unfold q). rewrite H, IH. reflexivity.
  - intros s. cbn [wmatch]. destruct s as [|x s]; [reflexivity|]. rewrite H. reflexivity.
Qed.

Lemma peq_app_l : forall r p q, peq p q -> peq (r ++ p) (r ++ q).
Proof.
  induction r as [|e r IH]; intros p q H; cbn [app].
  - exact H.
  - apply peq_cons. apply IH. exact H.
Qed.

Lemma peq_star_star : forall q, peq (PStar :: q) (PStar :: PStar :: q).
Proof.
  intros q s. induction s as [|x s IH]; rewrite (wmatch_star_unfold (PStar :: q)).
  - symmetry. apply orb_false_r.
  - rewrite <- IH, (wmatch_star_unfold q (x :: s)).
    destruct (wmatch q (x :: s)), (wmatch (PStar :: q) s); reflexivity.
Qed.

(* every component is a wildcard, and only the last one may have an empty literal *)
Fixpoint tailok (p : pattern) : Prop :=
  match p with
  | [] => True
  | (w, l) :: p' => w = true /\ (p' = [] \/ l <> []) /\ tailok p'
  end.

(* as tailok, except that the first component may lack the wildcard *)
Definition wf (p : pattern) : Prop :=
  match p with
  | [] => True
  | (w, l) :: p' => (w = true -> p' = [] \/ l <> []) /\ tailok p'
  end.

(* the components before a non-empty end r see of it only that it is not empty: r can be exchanged *)
Lemma tailok_app : forall q r r', r <> [] -> r' <> [] -> (tailok r -> tailok r') ->
  tailok (q ++ r) -> tailok (q ++ r').
Proof.
  intros q r r' Hr Hr' H. induction q as [|[w0 l0] q IH]; cbn [app tailok]; [exact H|].
  intros [Hw [Hne Ht]]. split; [exact Hw|]. split; [|apply IH, Ht].
  destruct Hne as [Hne|Hne]; [|right; exact Hne]. apply app_eq_nil in Hne. destruct Hne as [_ Hne]. contradiction.
Qed.

Lemma wf_app : forall q r r', r <> [] -> r' <> [] -> (tailok r -> tailok r') -> (wf r -> wf r') ->
  wf (q ++ r) -> wf (q ++ r').
Proof.
  intros [|[w0 l0] q] r r' Hr Hr' Ht Hwf; cbn [app wf]; [exact Hwf|].
  intros [Hne H]. split; [|apply (tailok_app q r r'); assumption].
  intros Hw0. destruct (Hne Hw0) as [E|E]; [|right; exact E]. apply app_eq_nil in E. destruct E as [_ E]. contradiction.
Qed.

Lemma tailok_single : forall w l, w = true -> tailok [(w, l)].
Proof. intros w l Hw. split; [exact Hw|]. split; [left; reflexivity | exact I]. Qed.

Lemma wf_single : forall w l, wf [(w, l)].
Proof. intros w l. split; [intros _; left; reflexivity | exact I]. Qed.

(* NewPattern either extends the literal of the last component or, unless that is a bare wildcard, appends one *)
Lemma compile_rev_wf : forall cs acc,
  wf (rev acc) -> wf (rev (compile_rev cs acc)).
Proof.
  induction cs as [|c cs IH]; intros acc H; cbn [compile_rev].
  - exact H.
  - destruct c as [s|].
    + destruct acc as [|[w l] acc'].
      * apply IH, wf_single.
      * (* the end [(w, l)] of the pattern becomes [(w, l ++ s)] *)
        apply IH. cbn [rev] in *. revert H. apply wf_app; try discriminate.
        -- intros [Hw _]. apply tailok_single, Hw.
        -- intros _. apply wf_single.
    + destruct acc as [|[w l] acc'].
      * apply IH, wf_single.
      * destruct (negb w || negb (match l with [] => true | _ :: _ => false end)) eqn:E; [|apply IH; exact H].
        assert (Hc : w = true -> l <> []) by (intros ->; destruct l; [discriminate E | discriminate]).
        (* the end [(w, l)] becomes [(w, l); (true, [])] *)
        apply IH. cbn [rev] in *. rewrite <- app_assoc. revert H. apply wf_app; try discriminate.
        -- intros [Hw _]. split; [exact Hw|]. split; [right; exact (Hc Hw) | apply tailok_single; reflexivity].
        -- intros _. split; [intros Hw; right; exact (Hc Hw) | apply tailok_single; reflexivity].
Qed.

Lemma compile_pattern_wf : forall cs, wf (compile_pattern cs).
Proof. intros cs. unfold compile_pattern. apply compile_rev_wf. exact I. Qed.

Lemma expand_app : forall p q, expand (p ++ q) = expand p ++ expand q.
Proof. intros p q. unfold expand. apply flat_map_app. Qed.

Lemma expand_cons : forall w lit p,
  expand ((w, lit) :: p) = (if w then [PStar] else []) ++ map PChar lit ++ expand p.
Proof. intros w lit p. cbn [expand flat_map]. rewrite <- app_assoc. reflexivity. Qed.

Lemma expand_snoc : forall p w lit,
  expand (p ++ [(w, lit)]) = expand p ++ (if w then [PStar] else []) ++ map PChar lit.
Proof. intros p w lit. rewrite expand_app, expand_cons, app_nil_r. reflexivity. Qed.

(* merging components loses nothing but a star next to a star *)
Lemma compile_rev_expand : forall cs acc,
  peq (expand (rev (compile_rev cs acc))) (expand (rev acc) ++ elems_of_raw cs).
Proof.
  induction cs as [|c cs IH]; intros acc s; cbn [compile_rev].
  - cbn [elems_of_raw flat_map]. rewrite app_nil_r. reflexivity.
  - change (elems_of_raw (c :: cs)) with (match c with None => [PStar] | Some s => map PChar s end ++ elems_of_raw cs).
    destruct c as [s0|].
    + destruct acc as [|[w l] acc']; rewrite IH.
      * cbn. rewrite app_nil_r. reflexivity.
      * cbn [rev]. rewrite !expand_snoc, map_app, <- !app_assoc. reflexivity.
    + destruct acc as [|[w l] acc'].
      * rewrite IH. reflexivity.
      * destruct (negb w || negb (match l with [] => true | _ :: _ => false end)) eqn:E; rewrite IH; cbn [rev].
        -- rewrite expand_snoc, <- !app_assoc. reflexivity.
        -- destruct w; [|discriminate E]. destruct l as [|x l]; [|discriminate E].
           rewrite expand_snoc, <- !app_assoc. apply peq_app_l, peq_star_star.
Qed.

Lemma compile_pattern_expand : forall cs s,
  wmatch (elems_of_raw cs) s = wmatch (expand (compile_pattern cs)) s.
Proof.
  intros cs s. unfold compile_pattern. symmetry.
  apply (compile_rev_expand cs [] s).
Qed.

Lemma go_match_cons : forall w lit p' arg,
  go_match ((w, lit) :: p') arg =
  if w && is_nil lit then true else
  match match_chunk lit arg with
  | Some t => if is_nil t || negb (is_nil p') then go_match p' t
              else if w then match scan lit (is_nil p') arg with
                             | Some t => go_match p' t | None => false end
                   else false
  | None => if w then match scan lit (is_nil p') arg with
                      | Some t => go_match p' t | None => false end
            else false
  end.
Proof. intros w lit p' arg. reflexivity. Qed.

Lemma suffix_of_longer : forall (a b t t' : str),
  a ++ t = b ++ t' -> (length a <= length b)%nat -> exists z, t = z ++ t'.
Proof.
  induction a as [|x a IH]; intros b t t' H Hl.
  - exists b. exact H.
  - destruct b as [|y b]; [cbn in Hl; lia|].
    cbn [app] in H. injection H as _ H. cbn [length] in Hl.
    apply (IH b); [exact H|lia].
Qed.

(* Committing to an occurrence of lit is sound when a star follows: if a later occurrence leads to a match,
   so does this one. *)
Lemma absorb_key : forall lit r x s t,
  x :: s = lit ++ t ->
  wmatch (PStar :: map PChar lit ++ PStar :: r) s = true ->
  wmatch (PStar :: r) t = true.
Proof.
  intros lit r x s t Hs H.
  apply wmatch_star_iff in H. destruct H as [u [v [-> Hv]]].
  rewrite wmatch_chars in Hv. destruct (match_chunk lit v) as [t'|] eqn:E; [|discriminate Hv].
  apply match_chunk_spec in E. subst v.
  apply wmatch_star_iff in Hv. destruct Hv as [u' [v' [-> Hv']]].
  destruct (suffix_of_longer lit (x :: u ++ lit ++ u') t v') as [z Hz].
  - rewrite <- Hs. cbn [app]. rewrite <- !app_assoc. reflexivity.
  - cbn [length]. rewrite !app_length. lia.
  - apply wmatch_star_iff. exists z, v'. split; assumption.
Qed.

(* The greedy loop on a wildcard component with a non-empty literal, followed by the end of the pattern or by
   another wildcard component: the literal is tried at every offset from the left; the leftmost occurrence
   is taken, except that the last component only accepts an occurrence at the very end of the input. *)
Lemma go_star : forall lit p' q,
  lit <> [] ->
  (p' = [] /\ q = []) \/ (p' <> [] /\ exists r, q = PStar :: r) ->
  (forall t, go_match p' t = wmatch q t) ->
  forall s, go_match ((true, lit) :: p') s = wmatch (PStar :: map PChar lit ++ q) s.
Proof.
  intros lit p' q Hlit Hq HK.
  assert (Hnil : is_nil lit = false) by (destruct lit; [contradiction|reflexivity]).
  (* unrolled by one byte: scanning x :: s from offset 1 is matching s from offset 0 *)
  assert (Hgo : forall s, go_match ((true, lit) :: p') s =
            let next := match s with [] => false | _ :: s' => go_match ((true, lit) :: p') s' end in
            match match_chunk lit s with
            | Some t => if is_nil t || negb (is_nil p') then go_match p' t else next
            | None => next
            end).
  { intros s. rewrite go_match_cons, Hnil. cbn [andb]. destruct s as [|x s]; [reflexivity|].
    cbn [scan]. rewrite go_match_cons, Hnil. cbn [andb].
    destruct (match_chunk lit s) as [t|]; [|reflexivity]. destruct p', t; reflexivity. }
  induction s as [|x s IH]; rewrite Hgo, wmatch_star_unfold, wmatch_chars; cbv zeta.
  - destruct lit; [contradiction | reflexivity].
  - rewrite IH. destruct (match_chunk lit (x :: s)) as [t|] eqn:E; [|reflexivity]. rewrite HK.
    destruct Hq as [[-> ->]|[Hp [r ->]]].
    + (* last component: an occurrence counts only if it ends the input *)
      destruct t; reflexivity.
    + destruct p'; [contradiction|]. cbn [is_nil negb]. rewrite orb_true_r.
      destruct (wmatch (PStar :: r) t) eqn:Et; [reflexivity|]. cbn [orb].
      (* a later occurrence cannot succeed if the leftmost one fails *)
      destruct (wmatch (PStar :: map PChar lit ++ PStar :: r) s) eqn:Es; [|reflexivity].
      apply match_chunk_spec in E. rewrite (absorb_key lit r x s t E Es) in Et. discriminate Et.
Qed.

Lemma go_match_tail : forall p, tailok p ->
  forall s, go_match p s = wmatch (expand p) s.
Proof.
  induction p as [|[w lit] p' IH]; intros Hok s.
  - reflexivity.
  - cbn [tailok] in Hok. destruct Hok as [Hw [Hne Hok']]. subst w.
    rewrite expand_cons. cbn [app].
    destruct lit as [|c lit].
    + destruct Hne as [Hp|Hl]; [|contradiction]. subst p'.
      cbn. symmetry. apply wmatch_star_all.
    + apply go_star; [discriminate | | intros t; apply IH, Hok'].
      destruct p' as [|[w1 l1] p'']; [left; split; reflexivity | right; split; [discriminate|]].
      destruct Hok' as [-> _]. rewrite expand_cons. eexists. reflexivity.
Qed.

Lemma go_match_wf : forall p, wf p ->
  forall s, go_match p s = wmatch (expand p) s.
Proof.
  intros p Hwf s. destruct p as [|[w lit] p'].
  - reflexivity.
  - cbn [wf] in Hwf. destruct Hwf as [Hne Hok]. destruct w.
    + apply go_match_tail. cbn [tailok]. split; [reflexivity|]. split; [auto|exact Hok].
    + rewrite expand_cons. cbn [app]. rewrite wmatch_chars.
      rewrite go_match_cons. cbn [andb].
      destruct (match_chunk lit s) as [t|]; [|reflexivity].
      destruct p' as [|c1 p''].
      * cbn [is_nil negb expand flat_map go_match wmatch]. rewrite orb_false_r.
        destruct t; reflexivity.
      * cbn [is_nil negb]. rewrite orb_true_r. apply go_match_tail. exact Hok.
Qed.

Theorem like_spec : forall (cs : list (option str)) (s : str),
  go_match (compile_pattern cs) s = wmatch (elems_of_raw cs) s.
Proof.
  intros cs s. rewrite compile_pattern_expand.
  apply go_match_wf. apply compile_pattern_wf.
Qed.

(* a*b*c : 97 = 'a', 98 = 'b', 99 = 'c', 120 = 'x', 121 = 'y' *)
Example like_ex1 :
  go_match (compile_pattern [Some [97]; None; Some [98]; None; Some [99]])
           [97; 120; 120; 98; 121; 121; 99] = true.
Proof. vm_compute. reflexivity. Qed.

Example like_ex2 :
  go_match (compile_pattern [Some [97]; None; Some [98]; None; Some [99]])
           [97; 120; 120; 98; 121; 121] = false.
Proof. vm_compute. reflexivity. Qed.

Example like_ex1_spec :
  wmatch (elems_of_raw [Some [97]; None; Some [98]; None; Some [99]])
         [97; 120; 120; 98; 121; 121; 99] = true.
Proof. vm_compute. reflexivity. Qed.

Example like_ex2_spec :
  wmatch (elems_of_raw [Some [97]; None; Some [98]; None; Some [99]])
         [97; 120; 120; 98; 121; 121] = false.
Proof. vm_compute. reflexivity. Qed.

Print Assumptions like_spec.
Print Assumptions wmatch_star_all.
