(* C08 complement: the text normal form of a policy (Lang/RoundTrip.v: norm / norm_policy) has the same meaning.
   In a Section with  set_order (Hypothesis set_order_perm: a permutation of the positions of the member list) and
   print_ip / ip_ok (Hypothesis ip_roundtrip, the shape used in PolicyJsonProofs / ValueJsonProofs):
   - eval_norm                 : norm_env_wf en -> lit_ok e = true -> res_equiv (eval en (norm e)) (eval en e)
                                 (Ok values equal up to veq, or the same error kind)
   - eval_norm_wf              : the same with both values well formed (res_equiv_wf: on well-formed values veq is an equivalence, veqw)
   - eval_norm_bool            : bool_eval en (norm e) = bool_eval en e
   - policy_norm_same_outcome  : bool_eval en (policy_to_expr (norm_policy p)) = bool_eval en (policy_to_expr p)   (an EQUALITY)
   - policy_norm_same_sat      : sat en (norm_policy p) = sat en p
   lit_ok e: every literal value in e is wf_value (sets duplicate-free, records key-sorted) and its decimal / duration leaves are int64,
   its datetime leaves are in in_dt_range (F27: the lowest day of int64 does not read back), its ip leaves satisfy ip_ok.
   norm_env_wf en: the four request values and every attribute / tag value of the store are wf_value.
   The work: evaluation respects veq on well-formed values - a congruence lemma for each operator (andor_cong ... call_cong).
   Examples at the end show that wf_value, the datetime / decimal ranges and set_order_perm are needed. *)
From Coq Require Import ZArith List Bool Lia Arith String Permutation.
Import ListNotations.
From Cedar Require Import Base.Int64 Lang.Value Lang.Expr Impl.Like Impl.InSearch Impl.Eval Impl.Decimal Impl.Duration Impl.Datetime Impl.IPAddr
  Lang.RoundTrip.
From Cedar Require Import Proofs.ValueProofs Proofs.DecimalProofs Proofs.DurationProofs Proofs.DatetimeProofs Proofs.ValueJsonProofs
  Proofs.InSearchProofs Proofs.PartialProofs Proofs.PolicyJsonProofs.
Local Open Scope Z_scope.

Lemma Forall2_nth {A B} (P : A -> B -> Prop) l1 l2 d1 d2 : Forall2 P l1 l2 -> P d1 d2 ->
  forall i, P (nth i l1 d1) (nth i l2 d2).
Proof.
  intros H Hd. induction H as [|x y l1 l2 Hxy _ IH]; intros [|i]; cbn [nth]; auto.
Qed.

Lemma map_nth_seq {A} (l : list A) d : map (fun i => nth i l d) (seq 0 (List.length l)) = l.
Proof.
  induction l as [|x l IH]; [reflexivity|]. cbn [List.length seq map nth]. f_equal.
  rewrite <- seq_shift, map_map. exact IH.
Qed.

(* value equality between well-formed values is an equivalence *)
Definition veqw (a b : value) : Prop := veq a b = true /\ wf_value a = true /\ wf_value b = true.

Lemma veqw_refl a : wf_value a = true -> veqw a a.
Proof. intros H. split; [apply veq_refl | auto]. Qed.

Lemma veqw_sym a b : veqw a b -> veqw b a.
Proof. intros (H & Ha & Hb). split; [|auto]. rewrite veq_sym; auto. Qed.

Lemma veqw_trans a b c : veqw a b -> veqw b c -> veqw a c.
Proof. intros (H1 & Ha & Hb) (H2 & _ & Hc). split; [|auto]. eapply veq_trans_nowf; eauto. Qed.

(* each Boolean congruence below is one monotone direction, used twice *)
Lemma veq_mono x x' y y' : veqw x x' -> veqw y y' -> veq x y = true -> veq x' y' = true.
Proof.
  intros Hx (Hy & _) H. apply veqw_sym in Hx. destruct Hx as (Hx & _).
  exact (veq_trans_nowf _ _ _ Hx (veq_trans_nowf _ _ _ H Hy)).
Qed.

Lemma veq_cong x x' y y' : veqw x x' -> veqw y y' -> veq x y = veq x' y'.
Proof. intros Hx Hy. apply Bool.eq_true_iff_eq. split; apply veq_mono; auto using veqw_sym. Qed.

(* member lists of sets, compared member by member *)
Definition vsub (l l' : list value) : Prop := forall y, In y l -> exists y', In y' l' /\ veqw y y'.

Lemma sub_refl l : (forall x, In x l -> wf_value x = true) -> vsub l l.
Proof. intros H z Hz. exists z. split; [exact Hz | apply veqw_refl; auto]. Qed.

Lemma vsub_cons x x' l l' : veqw x x' -> vsub l l' -> vsub (x :: l) (x' :: l').
Proof.
  intros Hx Hl y [<-|Hy]; [exists x'; split; [left; reflexivity | exact Hx]|].
  destruct (Hl y Hy) as (y' & Hy' & E). exists y'. split; [right; exact Hy' | exact E].
Qed.

Lemma Forall2_veqw_sub vs vs' : Forall2 veqw vs vs' -> vsub vs vs' /\ vsub vs' vs.
Proof.
  induction 1 as [|x x' vs vs' Hx _ [IH1 IH2]]; [split; intros y []|]. split; apply vsub_cons; auto using veqw_sym.
Qed.

Lemma perm_sub l l' : Permutation l l' -> (forall x, In x l' -> wf_value x = true) -> vsub l l' /\ vsub l' l.
Proof.
  intros Hp Hw. split; intros x Hx; exists x.
  - assert (Hx' : In x l') by (eapply Permutation_in; eauto). split; [exact Hx' | apply veqw_refl; auto].
  - split; [eapply Permutation_in; [apply Permutation_sym; exact Hp | exact Hx] | apply veqw_refl; auto].
Qed.

Lemma sub_wf_l l l' : vsub l l' -> Forall (fun v => wf_value v = true) l.
Proof. intros H. apply Forall_forall. intros x Hx. destruct (H x Hx) as (y & _ & (_ & Hw & _)). exact Hw. Qed.

Lemma veqw_set_sub l l' : veqw (VSet l) (VSet l') -> vsub l l'.
Proof.
  intros (H & Hl & Hl'). apply veq_set_iff in H. destruct H as [_ H].
  apply wf_set_inv in Hl. apply wf_set_inv in Hl'. destruct Hl as [_ Hl]. destruct Hl' as [_ Hl'].
  intros y Hy. destruct (H y Hy) as (y' & Hy' & E). exists y'. split; [auto|]. split; auto.
Qed.

Lemma veqw_set_len l l' : veqw (VSet l) (VSet l') -> List.length l = List.length l'.
Proof. intros (H & _). apply veq_set_iff in H. tauto. Qed.

Lemma vmem_sub x x' l l' : veqw x x' -> vsub l l' -> vmem x l = true -> vmem x' l' = true.
Proof.
  intros Hx Hs H. apply vmem_true_iff in H. destruct H as (y & Hy & E).
  destruct (Hs y Hy) as (y' & Hy' & Hyy). apply vmem_true_iff. exists y'. split; [exact Hy' | exact (veq_mono _ _ _ _ Hx Hyy E)].
Qed.

Lemma vmem_cong x x' l l' : veqw x x' -> vsub l l' -> vsub l' l -> vmem x l = vmem x' l'.
Proof. intros Hx H1 H2. apply Bool.eq_true_iff_eq. split; apply vmem_sub; auto using veqw_sym. Qed.

Lemma mk_set_sub l l' : vsub l l' -> vsub l' l -> veqw (mk_set l) (mk_set l').
Proof.
  intros H1 H2. pose proof (sub_wf_l _ _ H1) as W1. pose proof (sub_wf_l _ _ H2) as W2.
  split; [|split; apply mk_set_wf; assumption].
  apply mk_set_order_irrelevant; auto. intros x Hx. apply vmem_cong; auto. apply veqw_refl. exact Hx.
Qed.

Lemma forallb_vmem_sub l l' m m' : vsub l l' -> vsub m' m ->
  forallb (fun x => vmem x l) m = true -> forallb (fun x => vmem x l') m' = true.
Proof.
  intros L M. rewrite !forallb_forall. intros H y' Hy'. destruct (M y' Hy') as (y & Hy & E).
  apply (vmem_sub y y' l l'); auto using veqw_sym.
Qed.

Lemma existsb_vmem_sub l l' m m' : vsub l l' -> vsub m m' ->
  existsb (fun x => vmem x l) m = true -> existsb (fun x => vmem x l') m' = true.
Proof.
  intros L M. rewrite !existsb_exists. intros (y & Hy & H). destruct (M y Hy) as (y' & Hy' & E).
  exists y'. split; [exact Hy' | apply (vmem_sub y y' l l'); auto].
Qed.

Lemma forallb_vmem_cong l l' m m' : veqw (VSet l) (VSet l') -> veqw (VSet m) (VSet m') ->
  forallb (fun x => vmem x l) m = forallb (fun x => vmem x l') m'.
Proof. intros L M. apply Bool.eq_true_iff_eq. split; apply forallb_vmem_sub; auto using veqw_set_sub, veqw_sym. Qed.

Lemma existsb_vmem_cong l l' m m' : veqw (VSet l) (VSet l') -> veqw (VSet m) (VSet m') ->
  existsb (fun x => vmem x l) m = existsb (fun x => vmem x l') m'.
Proof. intros L M. apply Bool.eq_true_iff_eq. split; apply existsb_vmem_sub; auto using veqw_set_sub, veqw_sym. Qed.

(* results up to value equality *)
Definition res_equiv (a b : res) : Prop :=
  match a, b with Ok x, Ok y => veq x y = true | Err k, Err k' => k = k' | _, _ => False end.

(* the same, and the values are well formed *)
Definition res_equiv_wf (a b : res) : Prop :=
  match a, b with Ok x, Ok y => veqw x y | Err k, Err k' => k = k' | _, _ => False end.

Lemma res_equiv_refl r : res_equiv r r.
Proof. destruct r; cbn; [apply veq_refl | reflexivity]. Qed.

Lemma res_equiv_eq r r' : r = r' -> res_equiv r r'.
Proof. intros ->. apply res_equiv_refl. Qed.

Lemma R_res_equiv r r' : res_equiv_wf r r' -> res_equiv r r'.
Proof. destruct r, r'; cbn; auto. intros (H & _). exact H. Qed.

Lemma R_trans a b c : res_equiv_wf a b -> res_equiv_wf b c -> res_equiv_wf a c.
Proof.
  destruct a, b, c; cbn [res_equiv_wf]; try contradiction; try congruence. apply veqw_trans.
Qed.

(* related results are equal (and then neither a set nor a record), or both sets, or both records *)
Definition flat_res (r : res) : Prop := match r with Ok v => atomic v | Err _ => True end.

Lemma res_equiv_cases r r' : res_equiv r r' ->
  (r = r' /\ flat_res r') \/ (exists l m, r = Ok (VSet l) /\ r' = Ok (VSet m)) \/ (exists l m, r = Ok (VRecord l) /\ r' = Ok (VRecord m)).
Proof.
  destruct r as [x|k], r' as [x'|k']; cbn [res_equiv]; try contradiction.
  - intros H. destruct x; try (apply atomic_veq_l in H; [subst x'; left; split; [reflexivity | exact I] | exact I]).
    + right; left. destruct (veq_set_l_inv _ _ H) as [m ->]. eauto.
    + right; right. destruct (veq_rec_l_inv _ _ H) as [m ->]. eauto.
  - intros ->. left. split; [reflexivity | exact I].
Qed.

(* rq H splits H : res_equiv r r' into these three cases (F : flat_res r' in the first, member lists l and m in the others);
   rc H does so for H : res_equiv_wf r r' and keeps it as E, which reads veqw (VSet l) (VSet m) in the second case *)
Ltac rq H :=
  let l := fresh "l" in let m := fresh "m" in let F := fresh "F" in
  apply res_equiv_cases in H; destruct H as [[H F]|[(l & m & ? & ?)|(l & m & ? & ?)]]; subst.
Ltac rc H := let E := fresh "E" in pose proof H as E; apply R_res_equiv in H; rq H; cbn [res_equiv_wf] in E.
Ltac fin := try reflexivity; try (apply res_equiv_refl).

(* a congruence lemma for each operator *)
(* && (g = negb) and || (g the identity) *)
Lemma andor_cong (g : bool -> bool) r1 r1' r2 r2' : res_equiv r1 r1' -> res_equiv r2 r2' ->
  res_equiv (bindr r1 (fun v => as_bool v (fun x => if g x then Ok v else bindr r2 (fun w => as_bool w (fun _ => Ok w)))))
            (bindr r1' (fun v => as_bool v (fun x => if g x then Ok v else bindr r2' (fun w => as_bool w (fun _ => Ok w))))).
Proof.
  intros H1 H2. rq H1; cbn; fin. destruct r1' as [[]|]; cbn; fin. destruct (g b); fin.
  rq H2; cbn; fin.
Qed.

Lemma un_cong (f : value -> res) r r' :
  (forall l, f (VSet l) = Err EType) -> (forall l, f (VRecord l) = Err EType) ->
  res_equiv r r' -> res_equiv (bindr r f) (bindr r' f).
Proof. intros Hs Hr H. rq H; cbn; rewrite ?Hs, ?Hr; fin. Qed.

Lemma if_cong rc rc' rt rt' rf rf' : res_equiv rc rc' -> res_equiv rt rt' -> res_equiv rf rf' ->
  res_equiv (bindr rc (fun v => as_bool v (fun x => if x then rt else rf)))
            (bindr rc' (fun v => as_bool v (fun x => if x then rt' else rf'))).
Proof.
  intros H1 H2 H3. rq H1; cbn; fin. destruct rc' as [[]|]; cbn; fin. destruct b; auto.
Qed.

Lemma arith_cong op r1 r1' r2 r2' : res_equiv r1 r1' -> res_equiv r2 r2' ->
  res_equiv (arith_eval r1 r2 op) (arith_eval r1' r2' op).
Proof.
  intros H1 H2. unfold arith_eval. rq H1; cbn; fin. destruct r1' as [[]|]; cbn; fin.
  rq H2; cbn; fin.
Qed.

Lemma cmp_cong f r1 r1' r2 r2' : res_equiv r1 r1' -> res_equiv r2 r2' ->
  res_equiv (cmp_eval r1 r2 f) (cmp_eval r1' r2' f).
Proof.
  intros H1 H2. unfold cmp_eval. rq H1; cbn; fin; destruct r1' as [[]|]; cbn; fin; rq H2; cbn; fin.
Qed.

(* == (g the identity) and != (g = negb) *)
Lemma eq_cong (g : bool -> bool) r1 r1' r2 r2' : res_equiv_wf r1 r1' -> res_equiv_wf r2 r2' ->
  res_equiv (bindr r1 (fun v => bindr r2 (fun w => vbool (g (veq v w))))) (bindr r1' (fun v => bindr r2' (fun w => vbool (g (veq v w))))).
Proof.
  intros H1 H2. destruct r1 as [x|], r1' as [x'|]; cbn [res_equiv_wf] in H1; try contradiction; [|subst; reflexivity].
  destruct r2 as [y|], r2' as [y'|]; cbn [res_equiv_wf] in H2; try contradiction; [|subst; reflexivity].
  cbn [bindr]. rewrite (veq_cong x x' y y'); auto. apply res_equiv_refl.
Qed.

(* the search finds exactly the reachable members (eval_in_set_correct), so only the members of the right-hand set matter *)
Lemma in_set_ext st a us us' : (forall b, In b us <-> In b us') -> in_set st a us = in_set st a us'.
Proof.
  intros H. destruct (eval_in_set_correct st a us) as (r & -> & Hr), (eval_in_set_correct st a us') as (r' & -> & Hr').
  f_equal. apply Bool.eq_true_iff_eq. rewrite Hr, Hr'. split; intros (b & Hb & R); exists b; split; auto; apply H; exact Hb.
Qed.

Lemma all_entities_inv : forall l us, all_entities l = Some us -> l = map (fun u => VEntity (fst u) (snd u)) us.
Proof.
  induction l as [|x l IH]; cbn [all_entities]; intros us E; [injection E as <-; reflexivity|].
  destruct x; try discriminate. destruct (all_entities l) as [us0|]; [|discriminate].
  injection E as <-. cbn [map fst snd]. rewrite <- (IH us0 eq_refl). reflexivity.
Qed.

(* a member equal (veq) to an entity is that entity *)
Lemma all_entities_sub l l' us' : vsub l l' -> all_entities l' = Some us' -> exists us, all_entities l = Some us /\ incl us us'.
Proof.
  intros Hs E'. apply all_entities_inv in E'. subst l'. induction l as [|x l IH].
  - exists []. split; [reflexivity | intros b []].
  - destruct (Hs x (or_introl eq_refl)) as (y & Hy & Hxy). apply in_map_iff in Hy. destruct Hy as (u & <- & Hu).
    apply veqw_sym in Hxy. destruct Hxy as (Hxy & _). apply atomic_veq_l in Hxy; [|exact I]. subst x.
    destruct IH as (us & E & Hi); [intros z Hz; apply Hs; right; exact Hz|].
    exists (u :: us). cbn [all_entities]. rewrite E. split; [destruct u; reflexivity|].
    intros b [<-|Hb]; [exact Hu | exact (Hi b Hb)].
Qed.

Lemma do_in_cong st u l l' : veqw (VSet l) (VSet l') -> do_in st u (VSet l) = do_in st u (VSet l').
Proof.
  intros H. pose proof (veqw_set_sub _ _ H) as S1. pose proof (veqw_set_sub _ _ (veqw_sym _ _ H)) as S2.
  cbn [do_in]. destruct (all_entities l') as [us'|] eqn:E'.
  - destruct (all_entities_sub _ _ _ S1 E') as (us & E & I1). destruct (all_entities_sub _ _ _ S2 E) as (us2 & E2 & I2).
    rewrite E' in E2. injection E2 as <-. rewrite E. f_equal. apply in_set_ext. split; [apply I1 | apply I2].
  - destruct (all_entities l) as [us|] eqn:E; [|reflexivity].
    destruct (all_entities_sub _ _ _ S2 E) as (us2 & E2 & _). congruence.
Qed.

(* in (t constantly false) and is .. in (t the type test) *)
Lemma in_cong st (t : uid -> bool) r1 r1' r2 r2' : res_equiv r1 r1' -> res_equiv_wf r2 r2' ->
  res_equiv (bindr r1 (fun v => as_entity v (fun u => if t u then vbool false else bindr r2 (fun w => do_in st u w))))
            (bindr r1' (fun v => as_entity v (fun u => if t u then vbool false else bindr r2' (fun w => do_in st u w)))).
Proof.
  intros H1 H2. rq H1; cbn [bindr as_entity]; fin. destruct r1' as [[]|]; cbn [bindr as_entity]; fin.
  destruct (t (ty, id)); fin.
  rc H2; cbn [bindr]; fin. apply res_equiv_eq. apply do_in_cong. exact E.
Qed.

Lemma contains_cong r1 r1' r2 r2' : res_equiv_wf r1 r1' -> res_equiv_wf r2 r2' ->
  res_equiv (bindr r1 (fun v => as_set v (fun l => bindr r2 (fun w => vbool (vmem w l)))))
            (bindr r1' (fun v => as_set v (fun l => bindr r2' (fun w => vbool (vmem w l))))).
Proof.
  intros H1 H2. rc H1; cbn [bindr as_set]; fin.
  - destruct r1' as [[]|]; try contradiction; fin.
  - destruct r2 as [y|], r2' as [y'|]; cbn [res_equiv_wf] in H2; try contradiction; [|subst; reflexivity].
    cbn [bindr]. rewrite (vmem_cong y y' l m); auto using veqw_set_sub, veqw_sym. apply res_equiv_refl.
Qed.

(* containsAll (q = forallb) and containsAny (q = existsb) *)
Lemma contains_q_cong (q : (value -> bool) -> list value -> bool) r1 r1' r2 r2' :
  (forall l l' m m', veqw (VSet l) (VSet l') -> veqw (VSet m) (VSet m') -> q (fun x => vmem x l) m = q (fun x => vmem x l') m') ->
  res_equiv_wf r1 r1' -> res_equiv_wf r2 r2' ->
  res_equiv (bindr r1 (fun v => as_set v (fun l => bindr r2 (fun w => as_set w (fun m => vbool (q (fun x => vmem x l) m))))))
            (bindr r1' (fun v => as_set v (fun l => bindr r2' (fun w => as_set w (fun m => vbool (q (fun x => vmem x l) m)))))).
Proof.
  intros Hq H1 H2. rc H1; cbn [bindr as_set]; fin.
  - destruct r1' as [[]|]; try contradiction; fin.
  - rc H2; cbn [bindr as_set]; fin.
    + destruct r2' as [[]|]; try contradiction; fin.
    + rewrite (Hq l m l0 m0); auto. apply res_equiv_refl.
Qed.

Lemma is_empty_cong r r' : res_equiv_wf r r' ->
  res_equiv (bindr r (fun v => as_set v (fun l => vbool (is_nil l)))) (bindr r' (fun v => as_set v (fun l => vbool (is_nil l)))).
Proof.
  intros H. rc H; cbn [bindr as_set]; fin. apply veqw_set_len in E. destruct l, m; cbn in E; try discriminate; reflexivity.
Qed.

(* . (f = get_attr) and has (f = has_attr) *)
Lemma attr_cong (f : store -> value -> str -> res) st k r r' : f = get_attr \/ f = has_attr ->
  res_equiv_wf r r' -> res_equiv (bindr r (fun v => f st v k)) (bindr r' (fun v => f st v k)).
Proof.
  intros Hf H. rc H; cbn [bindr]; fin; [destruct Hf as [-> | ->]; reflexivity|].
  destruct E as (E & _). rewrite veq_record in E. pose proof (rec_eqb_get l m E k) as G. unfold get_rel in G.
  destruct Hf as [-> | ->]; cbn [get_attr has_attr]; destruct (rec_get k l), (rec_get k m); try contradiction; cbn; auto.
Qed.

(* getTag (z = is_zero_uid) and hasTag (z constantly false) *)
Lemma tag_cong (z : uid -> bool) (F : uid -> str -> res) r1 r1' r2 r2' : res_equiv r1 r1' -> res_equiv r2 r2' ->
  res_equiv (bindr r1 (fun v => as_entity v (fun u => if z u then Err EUnspecified else bindr r2 (fun w => as_string w (F u)))))
            (bindr r1' (fun v => as_entity v (fun u => if z u then Err EUnspecified else bindr r2' (fun w => as_string w (F u))))).
Proof.
  intros H1 H2. rq H1; cbn [bindr as_entity]; fin. destruct r1' as [[]|]; cbn [bindr as_entity]; fin.
  destruct (z (ty, id)); fin. rq H2; cbn [bindr as_string]; fin.
Qed.

(* set construction *)
Definition set_res (rs : list res) : res := match seq_res rs with inl e => e | inr vs => Ok (mk_set vs) end.

Lemma seq_res_ok vs : seq_res (map Ok vs) = inr vs.
Proof. induction vs as [|v vs IH]; cbn [map seq_res]; [reflexivity|]. rewrite IH. reflexivity. Qed.

Lemma seq_res_R rs rs' : Forall2 res_equiv_wf rs rs' ->
  match seq_res rs, seq_res rs' with
  | inr vs, inr vs' => Forall2 veqw vs vs'
  | inl e, inl e' => e = e'
  | _, _ => False
  end.
Proof.
  induction 1 as [|r r' rs rs' Hr _ IH]; cbn [seq_res]; [constructor|].
  destruct r as [x|k], r' as [x'|k']; cbn [res_equiv_wf] in Hr; try contradiction.
  - destruct (seq_res rs), (seq_res rs'); try contradiction; auto.
  - subst. reflexivity.
Qed.

Lemma set_cong rs rs' : Forall2 res_equiv_wf rs rs' -> res_equiv_wf (set_res rs) (set_res rs').
Proof.
  intros H. pose proof (seq_res_R _ _ H) as S. unfold set_res.
  destruct (seq_res rs) as [e|vs] eqn:E1, (seq_res rs') as [e'|vs'] eqn:E2; try contradiction.
  - subst e'. apply seq_res_inl in E1. destruct E1 as [k ->]. reflexivity.
  - cbn [res_equiv_wf]. apply Forall2_veqw_sub in S. destruct S. apply mk_set_sub; auto.
Qed.

(* record construction *)
Definition rec_res (rs : list (str * res)) : res := match seq_rec rs with inl e => e | inr fs => Ok (VRecord fs) end.

Lemma seq_rec_ok kvs : seq_rec (mapv Ok kvs) = inr kvs.
Proof. induction kvs as [|[k v] kvs IH]; [reflexivity|]. rewrite mapv_cons. cbn [seq_rec fst snd]. rewrite IH. reflexivity. Qed.

Definition kres_equiv_wf (p q : str * res) : Prop := fst p = fst q /\ res_equiv_wf (snd p) (snd q).

Lemma seq_rec_R rs rs' : Forall2 kres_equiv_wf rs rs' ->
  match seq_rec rs, seq_rec rs' with
  | inr fs, inr fs' => rec_eqb fs fs' = true /\ Forall (fun kv => wf_value (snd kv) = true) fs /\ Forall (fun kv => wf_value (snd kv) = true) fs'
                       /\ map fst fs = map fst rs /\ map fst fs' = map fst rs
  | inl e, inl e' => e = e'
  | _, _ => False
  end.
Proof.
  induction 1 as [|[k r] [k' r'] rs rs' [Hk Hr] _ IH]; cbn [seq_rec]; [repeat split; constructor|].
  cbn [fst snd] in Hk, Hr. subst k'.
  destruct r as [x|e], r' as [x'|e']; cbn [res_equiv_wf] in Hr; try contradiction.
  - destruct (seq_rec rs), (seq_rec rs'); try contradiction; auto.
    destruct IH as (I1 & I2 & I3 & I4 & I5). destruct Hr as (Hv & Hw & Hw').
    cbn [rec_eqb map fst]. rewrite str_eqb_refl, Hv, I1, I4, I5. repeat split; constructor; auto.
  - subst. reflexivity.
Qed.

Lemma record_cong rs rs' : keys_sorted rs = true -> Forall2 kres_equiv_wf rs rs' -> res_equiv_wf (rec_res rs) (rec_res rs').
Proof.
  intros Hs H. pose proof (seq_rec_R _ _ H) as S. unfold rec_res.
  destruct (seq_rec rs) as [e|fs] eqn:E1, (seq_rec rs') as [e'|fs'] eqn:E2; try contradiction.
  - subst e'. apply seq_rec_inl in E1. destruct E1 as [k ->]. reflexivity.
  - destruct S as (S1 & S2 & S3 & S4 & S5). cbn [res_equiv_wf]. split; [rewrite veq_record; exact S1|].
    rewrite !wf_value_record, (keys_sorted_ext fs rs S4), (keys_sorted_ext fs' rs S5), Hs. cbn [andb].
    split; apply forallb_forall; apply Forall_forall; assumption.
Qed.

Lemma mapv_kR {A} (g h : A -> res) l : Forall (fun kv => res_equiv_wf (g (snd kv)) (h (snd kv))) l -> Forall2 kres_equiv_wf (mapv g l) (mapv h l).
Proof. intros H. apply Forall2_map. eapply Forall_impl; [|exact H]. intros kv Hkv. split; [reflexivity | exact Hkv]. Qed.

(* extension calls: every extension function coerces its first argument to a string or an extension type, and under that at most
   its second; a coercion rejects sets and records, and related results that are neither are equal *)
Definition blind (f : value -> res) : Prop := (forall l, f (VSet l) = Err EType) /\ (forall l, f (VRecord l) = Err EType).

Lemma bindr_blind (f f' : value -> res) r r' : res_equiv r r' -> blind f -> blind f' -> (forall v, atomic v -> f v = f' v) ->
  bindr r f = bindr r' f'.
Proof.
  intros H [Bs Br] [Bs' Br'] E. rq H; cbn [bindr].
  - destruct r' as [v|]; [apply E; exact F | reflexivity].
  - rewrite Bs, Bs'. reflexivity.
  - rewrite Br, Br'. reflexivity.
Qed.

Lemma nth_res_cong rs rs' n : Forall2 res_equiv rs rs' -> res_equiv (nth_res rs n) (nth_res rs' n).
Proof. intros H. unfold nth_res. apply Forall2_nth; [exact H | reflexivity]. Qed.

Lemma call_cong name rs rs' : Forall2 res_equiv rs rs' -> call_ext name rs = call_ext name rs'.
Proof.
  intros H. unfold call_ext. rewrite <- (Forall2_length _ _ _ H).
  destruct (ext_lookup name) as [[ar fl]|]; [|reflexivity].
  destruct (negb (Z.of_nat (List.length rs) =? ar)); [reflexivity|].
  pose proof (nth_res_cong _ _ 0 H) as H0. pose proof (nth_res_cong _ _ 1 H) as H1. revert H0 H1. generalize (nth_res rs 0) (nth_res rs' 0) (nth_res rs 1) (nth_res rs' 1). intros a0 a0' a1 a1' H0 H1.
  (* one branch for each function name *)
  assert (IF : forall (c : bool) (x x' y y' : res), x = x' -> y = y' -> (if c then x else y) = (if c then x' else y'))
    by (intros; subst; reflexivity).
  repeat (apply IF; [apply bindr_blind; [exact H0 | split; reflexivity | split; reflexivity |]; intros [] _; try reflexivity;
                     (apply bindr_blind; [exact H1 | split; reflexivity | split; reflexivity | reflexivity])|]).
  (* the unknown name is left; matched, since reflexivity between two different chains would not fail before minutes *)
  lazymatch goal with |- Err ?k = Err ?k => reflexivity end.
Qed.

Lemma bool_eval_cong r r' : res_equiv r r' ->
  bindr r (fun v => as_bool v (fun _ => Ok v)) = bindr r' (fun v => as_bool v (fun _ => Ok v)).
Proof. intros H. rq H; reflexivity. Qed.

(* policies whose conditions are rewritten by a function on expressions (norm_policy, normj_policy) *)
Definition same_res (en : env) (a b : expr) : Prop := res_equiv (eval en a) (eval en b).

Lemma and_all_cong en : forall es es' e e', same_res en e e' -> Forall2 (same_res en) es es' ->
  same_res en (and_all e es) (and_all e' es').
Proof.
  induction es as [|x es IH]; intros es' e e' He H; inversion H as [|? y ? es2 Hxy Hr]; subst; cbn [and_all]; [exact He|].
  apply (andor_cong negb); [exact He|]. apply IH; assumption.
Qed.

Lemma same_res_refl_list en l : Forall2 (same_res en) l l.
Proof. apply Forall2_refl_Forall, Forall_forall. intros x _. apply res_equiv_refl. Qed.

Definition map_conds (f : expr -> expr) (p : policy) : policy :=
  {| p_effect := p_effect p; p_principal := p_principal p; p_action := p_action p; p_resource := p_resource p;
     p_conds := map (fun c : bool * expr => (fst c, f (snd c))) (p_conds p) |}.

Lemma map_conds_comp f g p : map_conds f (map_conds g p) = map_conds (fun e => f (g e)) p.
Proof. unfold map_conds. cbn [p_effect p_principal p_action p_resource p_conds]. rewrite map_map. reflexivity. Qed.

Lemma map_conds_ext f g p : Forall (fun c : bool * expr => f (snd c) = g (snd c)) (p_conds p) -> map_conds f p = map_conds g p.
Proof.
  intros HF. unfold map_conds. f_equal. apply map_ext_Forall. eapply Forall_impl; [|exact HF].
  intros c Hc. cbn beta. rewrite Hc. reflexivity.
Qed.

(* if every condition keeps its result, the policy keeps its outcome *)
Lemma map_conds_same_outcome en f p : Forall (fun c : bool * expr => same_res en (f (snd c)) (snd c)) (p_conds p) ->
  bool_eval en (policy_to_expr (map_conds f p)) = bool_eval en (policy_to_expr p).
Proof.
  intros HF. unfold bool_eval. apply bool_eval_cong. unfold policy_to_expr.
  assert (HN : Forall2 (same_res en) (policy_nodes (map_conds f p)) (policy_nodes p)).
  { unfold policy_nodes, map_conds. cbn [p_principal p_action p_resource p_conds].
    apply Forall2_app; [apply same_res_refl_list|]. rewrite map_map. apply Forall2_map.
    eapply Forall_impl; [|exact HF]. intros [w c] Hc. cbn [fst snd] in *. unfold same_res in *.
    destruct w; [exact Hc|]. cbn [eval]. apply un_cong; try reflexivity. exact Hc. }
  destruct HN as [|a b l l' Hab Hl]; [apply res_equiv_refl|]. apply and_all_cong; assumption.
Qed.

Section NormMeaning.
  Variable set_order : list value -> list nat.                 (* member order of a rendered set *)
  Hypothesis set_order_perm : forall l, Permutation (set_order l) (seq 0 (List.length l)).
  Variable print_ip : bool -> Z -> Z -> str.                   (* net/netip's printer *)
  Variable ip_ok : bool -> Z -> Z -> bool.                     (* the ip values whose printed form parses back *)
  Hypothesis ip_roundtrip : forall v6 a p, ip_ok v6 a p = true -> parse_ip (print_ip v6 a p) = Some (v6, a, p).

  Notation norm_value := (norm_value set_order print_ip).
  Notation norm := (norm set_order print_ip).
  Notation norm_policy := (norm_policy set_order print_ip).

  (* the extension-typed leaves of a literal value print to a text that parses back to them
     (datetime: F27, the lowest day of int64 is excluded, as in DatetimeProofs.datetime_roundtrip) *)
  Fixpoint ext_ok (v : value) : bool :=
    match v with
    | VSet l => (fix go (l : list value) : bool := match l with [] => true | x :: r => ext_ok x && go r end) l
    | VRecord kvs => (fix go (l : list (str * value)) : bool := match l with [] => true | (_, x) :: r => ext_ok x && go r end) kvs
    | VDecimal z => in64b z
    | VDatetime z => in_dt_range z
    | VDuration z => in64b z
    | VIP v6 a p => ip_ok v6 a p
    | _ => true
    end.

  Definition value_lit_ok (v : value) : bool := wf_value v && ext_ok v.

  Fixpoint lit_ok (e : expr) : bool :=
    let fix all (l : list expr) : bool := match l with [] => true | x :: r => lit_ok x && all r end in
    let fix allkv (l : list (str * expr)) : bool := match l with [] => true | (_, x) :: r => lit_ok x && allkv r end in
    match e with
    | ELit v => value_lit_ok v
    | EVar _ | EPartialError _ => true
    | ENot a | ENeg a | EIsEmpty a | EAccess a _ | EHas a _ | EIs a _ | ELike a _ => lit_ok a
    | EAnd a b | EOr a b | EAdd a b | ESub a b | EMul a b | EEq a b | ENe a b | ELt a b | ELe a b | EGt a b | EGe a b
    | EIn a b | EContains a b | EContainsAll a b | EContainsAny a b | EGetTag a b | EHasTag a b | EIsIn a _ b => lit_ok a && lit_ok b
    | EIf c t f => lit_ok c && lit_ok t && lit_ok f
    | ESet es => all es
    | ERecord kvs => allkv kvs
    | ECall _ args => all args
    end.

  Definition policy_lit_ok (p : policy) : bool := forallb (fun c : bool * expr => lit_ok (snd c)) (p_conds p).

  (* request values and the attribute / tag values of the store are well formed *)
  Definition norm_env_wf (en : env) : Prop :=
    (forall x, wf_value (var_value en x) = true) /\ store_Q (fun v => wf_value v = true) en.

  Lemma ext_ok_set l : ext_ok (VSet l) = forallb ext_ok l.
  Proof. cbn [ext_ok]. induction l as [|x l IH]; [reflexivity|]. cbn [forallb]. rewrite <- IH. reflexivity. Qed.
  Lemma ext_ok_record l : ext_ok (VRecord l) = forallb (fun kv => ext_ok (snd kv)) l.
  Proof. cbn [ext_ok]. induction l as [|[k x] l IH]; [reflexivity|]. cbn [forallb snd]. rewrite <- IH. reflexivity. Qed.

  Lemma lit_all_forallb es :
    (fix all (l : list expr) : bool := match l with [] => true | x :: r => lit_ok x && all r end) es = forallb lit_ok es.
  Proof. induction es as [|x es IH]; [reflexivity|]. cbn [forallb]. rewrite <- IH. reflexivity. Qed.
  Lemma lit_ok_set es : lit_ok (ESet es) = forallb lit_ok es.
  Proof. cbn [lit_ok]. apply lit_all_forallb. Qed.
  Lemma lit_ok_call n es : lit_ok (ECall n es) = forallb lit_ok es.
  Proof. cbn [lit_ok]. apply lit_all_forallb. Qed.
  Lemma lit_ok_record kvs : lit_ok (ERecord kvs) = forallb (fun kv => lit_ok (snd kv)) kvs.
  Proof. cbn [lit_ok]. induction kvs as [|[key x] kvs IH]; [reflexivity|]. cbn [forallb snd]. rewrite <- IH. reflexivity. Qed.

  Lemma norm_value_set l :
    norm_value (VSet l) = ESet (map (fun i => nth i (map norm_value l) (ELit (VBool false))) (set_order l)).
  Proof. cbn [RoundTrip.norm_value]. rewrite pj_fix_map. reflexivity. Qed.
  Lemma norm_value_record l : norm_value (VRecord l) = ERecord (mapv norm_value l).
  Proof. cbn [RoundTrip.norm_value]. rewrite pj_fix_mapv. reflexivity. Qed.
  Lemma norm_set es : norm (ESet es) = ESet (map norm es).
  Proof. cbn [RoundTrip.norm]. rewrite pj_fix_map. reflexivity. Qed.
  Lemma norm_call n es : norm (ECall n es) = ECall n (map norm es).
  Proof. cbn [RoundTrip.norm]. rewrite pj_fix_map. reflexivity. Qed.
  Lemma norm_record kvs : norm (ERecord kvs) = ERecord (mapv norm kvs).
  Proof. cbn [RoundTrip.norm]. rewrite pj_fix_mapv. reflexivity. Qed.

  Lemma eval_set en es : eval en (ESet es) = set_res (map (eval en) es).
  Proof. reflexivity. Qed.
  Lemma eval_record en kvs : eval en (ERecord kvs) = rec_res (mapv (eval en) (rec_of_list kvs)).
  Proof. cbn [eval]. change (map (fun kv : str * expr => (fst kv, eval en (snd kv))) kvs) with (mapv (eval en) kvs).
         rewrite rec_of_list_mapv. reflexivity. Qed.

  Section Env.
    Variable en : env.

    (* a literal value and its constructor expression *)
    (* the constructor of an extension value applies the parser to the printed text *)
    Lemma ext_meaning {A} (o : option A) x (f : A -> value) : o = Some x -> wf_value (f x) = true ->
      res_equiv_wf (opt_res o f) (Ok (f x)).
    Proof. intros -> H. apply veqw_refl, H. Qed.
    Lemma norm_value_meaning : forall v, wf_value v = true -> ext_ok v = true -> res_equiv_wf (eval en (norm_value v)) (Ok v).
    Proof.
      apply (value_ind' (fun v => wf_value v = true -> ext_ok v = true -> res_equiv_wf (eval en (norm_value v)) (Ok v)));
        try (intros; cbn [RoundTrip.norm_value eval res_equiv_wf]; apply veqw_refl; reflexivity).
      - (* sets: member i of the constructor evaluates to member (set_order l) i of l; zs lists these *)
        intros l IH Hwf Hok. rewrite norm_value_set, eval_set. rewrite ext_ok_set in Hok.
        destruct (wf_set_inv _ Hwf) as [_ Hwl].
        set (zs := map (fun i => nth i l (VBool false)) (set_order l)).
        apply (R_trans _ (set_res (map Ok zs))).
        + apply set_cong. unfold zs. rewrite !map_map. apply Forall2_map. apply Forall_forall. intros i _.
          rewrite <- (map_nth Ok), <- (map_nth (eval en)), map_map.
          apply Forall2_nth; [|cbn; apply veqw_refl; reflexivity].
          apply Forall2_map. rewrite Forall_forall in *. rewrite forallb_forall in Hok. auto.
        + unfold set_res. rewrite seq_res_ok. cbn [res_equiv_wf]. rewrite <- (mk_set_wf_id l Hwf).
          pose proof (Permutation_map (fun i => nth i l (VBool false)) (set_order_perm l)) as Hp. rewrite map_nth_seq in Hp.
          destruct (perm_sub _ _ Hp Hwl). apply mk_set_sub; auto.
      - (* records *)
        intros l IH Hwf Hok. rewrite norm_value_record, eval_record. rewrite ext_ok_record in Hok.
        destruct (wf_rec_inv _ Hwf) as [Hks Hwl].
        rewrite (rec_of_list_sorted_id _ (eq_trans (keys_sorted_mapv _ _) Hks)), mapv_mapv.
        replace (Ok (VRecord l)) with (rec_res (mapv Ok l)) by (unfold rec_res; rewrite seq_rec_ok; reflexivity).
        apply record_cong; [rewrite keys_sorted_mapv; exact Hks|]. apply mapv_kR.
        rewrite forallb_forall in Hok. rewrite Forall_forall in *. intros kv Hkv. apply IH; auto.
      - (* decimal *) intros z _ Hok. apply in64b_spec in Hok. exact (ext_meaning _ z VDecimal (decimal_roundtrip z Hok) eq_refl).
      - (* datetime *) intros z _ Hok. exact (ext_meaning _ z VDatetime (datetime_roundtrip z Hok) eq_refl).
      - (* duration *) intros z _ Hok. apply in64b_spec in Hok. exact (ext_meaning _ z VDuration (duration_roundtrip z Hok) eq_refl).
      - (* ip *) intros v6 a p _ Hok.
        exact (ext_meaning _ (v6, a, p) (fun x => VIP (fst (fst x)) (snd (fst x)) (snd x)) (ip_roundtrip _ _ _ Hok) eq_refl).
    Qed.

    (* every value met during evaluation is well formed *)
    Hypothesis Hen : norm_env_wf en.

    Notation Qw := (fun v : value => wf_value v = true).
    Notation nodes := (expr_forall (node_Q Qw en)).

    Lemma norm_value_nodes : forall v, nodes (norm_value v).
    Proof.
      apply (value_ind' (fun v => nodes (norm_value v)));
        try (intros; cbn; tauto).
      - intros l IH. rewrite norm_value_set. apply expr_forall_set. split; [exact I|].
        apply Forall_forall. intros e He. apply in_map_iff in He. destruct He as (i & <- & _).
        assert (Hd : nodes (ELit (VBool false))) by (cbn; tauto).
        revert i. induction IH as [|x l Hx _ IHl]; intros [|i]; cbn [map nth]; auto.
      - intros l IH. rewrite norm_value_record. apply expr_forall_record. split; [exact I|].
        unfold mapv. rewrite Forall_map. exact IH.
    Qed.

    Lemma norm_nodes : forall e, nodes (norm e).
    Proof.
      destruct Hen as [Hvar _]. apply (expr_ind' (fun e => nodes (norm e))).
      (* all but literal, variable, set, record, call *)
      3-28, 32: intros; cbn [RoundTrip.norm expr_forall node_Q]; tauto.
      - apply norm_value_nodes.
      - intros x. cbn [RoundTrip.norm expr_forall node_Q]. auto.
      - intros es IH. rewrite norm_set, expr_forall_set, Forall_map. split; [exact I | exact IH].
      - intros kvs IH. rewrite norm_record, expr_forall_record. unfold mapv. rewrite Forall_map. split; [exact I | exact IH].
      - intros n es IH. rewrite norm_call, expr_forall_call, Forall_map. split; [exact I | exact IH].
    Qed.

    Lemma lit_ok_nodes : forall e, lit_ok e = true -> nodes e.
    Proof.
      destruct Hen as [Hvar _]. apply (expr_ind' (fun e => lit_ok e = true -> nodes e)).
      3-28, 32: intros; match goal with Hok : lit_ok _ = true |- _ => cbn [lit_ok] in Hok; rewrite ?andb_true_iff in Hok end;
                cbn [expr_forall node_Q]; tauto.
      - intros v Hok. apply andb_true_iff in Hok. cbn [expr_forall node_Q]. tauto.
      - intros x _. cbn [expr_forall node_Q]. auto.
      - intros es IH Hok. rewrite lit_ok_set in Hok. rewrite expr_forall_set. split; [exact I | exact (Forall_forallb_mp _ _ _ IH Hok)].
      - intros kvs IH Hok. rewrite lit_ok_record in Hok. rewrite expr_forall_record.
        split; [exact I | exact (Forall_forallb_mp (fun kv => lit_ok (snd kv)) _ _ IH Hok)].
      - intros n es IH Hok. rewrite lit_ok_call in Hok. rewrite expr_forall_call. split; [exact I | exact (Forall_forallb_mp _ _ _ IH Hok)].
    Qed.

    Notation same e := (res_equiv (eval en (norm e)) (eval en e)).
    Notation same_wf e := (res_equiv_wf (eval en (norm e)) (eval en e)).

    Lemma upgrade e : lit_ok e = true -> same e -> same_wf e.
    Proof.
      intros Hok H. destruct Hen as [_ Hst].
      pose proof (eval_Q Qw hered_wf en Hst e (lit_ok_nodes e Hok)) as W1.
      pose proof (eval_Q Qw hered_wf en Hst (norm e) (norm_nodes e)) as W2.
      destruct (eval en (norm e)) as [x|k], (eval en e) as [y|k']; cbn [res_equiv res_equiv_wf] in *; auto.
      split; [exact H|]. split; [apply W2 | apply W1]; reflexivity.
    Qed.

    (* the normal form evaluates to the same value up to veq, or to the same error *)
    (* In each case the operands are related by res_equiv_wf (their induction hypotheses, upgraded), and the operator's congruence
       lemma gives res_equiv of the results. *)
    Local Hint Resolve R_res_equiv : core.

    Lemma eval_norm_env : forall e, lit_ok e = true -> same_wf e.
    Proof.
      assert (HF : forall R : res -> res -> Prop, (forall r r', res_equiv_wf r r' -> R r r') ->
                forall es, Forall (fun e => lit_ok e = true -> same_wf e) es -> forallb lit_ok es = true ->
                Forall2 R (map (eval en) (map norm es)) (map (eval en) es)).
      { intros R HR es IH Hok. rewrite map_map. apply Forall2_map.
        eapply Forall_impl; [|exact (Forall_forallb_mp _ _ _ IH Hok)]. intros e. apply HR. }
      apply (expr_ind' (fun e => lit_ok e = true -> same_wf e)); intros; apply upgrade; trivial.
      (* all but set, record, call *)
      1-28: match goal with Hok : lit_ok _ = true |- _ => cbn [lit_ok] in Hok; rewrite ?andb_true_iff in Hok end; cbn [RoundTrip.norm eval].
      - (* literal *) unfold value_lit_ok in *. rewrite andb_true_iff in *. apply R_res_equiv, norm_value_meaning; tauto.
      - apply res_equiv_refl.
      - (* && *) apply (andor_cong negb); intuition auto.
      - (* || *) apply (andor_cong (fun x => x)); intuition auto.
      - (* ! *) apply un_cong; auto.
      - (* neg *) apply un_cong; auto.
      - apply arith_cong; intuition auto.
      - apply arith_cong; intuition auto.
      - apply arith_cong; intuition auto.
      - (* == *) apply (eq_cong (fun x => x)); tauto.
      - (* != *) apply (eq_cong negb); tauto.
      - apply cmp_cong; intuition auto.
      - apply cmp_cong; intuition auto.
      - apply cmp_cong; intuition auto.
      - apply cmp_cong; intuition auto.
      - (* in *) apply (in_cong _ (fun _ => false)); intuition auto.
      - apply contains_cong; tauto.
      - (* containsAll *) apply (contains_q_cong (@forallb value)); [exact forallb_vmem_cong | tauto | tauto].
      - (* containsAny *) apply (contains_q_cong (@existsb value)); [exact existsb_vmem_cong | tauto | tauto].
      - apply is_empty_cong; auto.
      - (* . *) apply (attr_cong get_attr); auto.
      - (* has *) apply (attr_cong has_attr); auto.
      - (* getTag *) apply (tag_cong is_zero_uid); intuition auto.
      - (* hasTag *) apply (tag_cong (fun _ => false)); intuition auto.
      - (* like *) apply un_cong; auto.
      - (* is *) apply un_cong; auto.
      - (* is in *) apply (in_cong _ (fun u => negb (str_eqb (fst u) ty))); intuition auto.
      - (* if *) apply if_cong; intuition auto.
      - (* set *) rewrite lit_ok_set in *. rewrite norm_set, !eval_set. apply R_res_equiv, set_cong, HF; auto.
      - (* record *) rewrite lit_ok_record in *. rewrite norm_record, !eval_record, rec_of_list_mapv, mapv_mapv.
        apply R_res_equiv, record_cong; [rewrite keys_sorted_mapv; apply rec_of_list_sorted_gen|].
        apply mapv_kR, (rec_of_list_Forall (fun x => same_wf x)), (Forall_forallb_mp (fun kv => lit_ok (snd kv))); assumption.
      - (* call *) rewrite lit_ok_call in *. rewrite norm_call. cbn [eval]. apply res_equiv_eq, call_cong.
        apply (HF _ R_res_equiv); assumption.
      - apply res_equiv_refl.
    Qed.
  End Env.

  Theorem eval_norm : forall en e, norm_env_wf en -> lit_ok e = true -> res_equiv (eval en (norm e)) (eval en e).
  Proof. intros en e Hen Hok. apply R_res_equiv, eval_norm_env; assumption. Qed.

  (* both sides are moreover well formed, so the relation is the equivalence veqw *)
  Theorem eval_norm_wf : forall en e, norm_env_wf en -> lit_ok e = true -> res_equiv_wf (eval en (norm e)) (eval en e).
  Proof. intros en e Hen Hok. apply eval_norm_env; assumption. Qed.

  (* a result a policy can act on (a Boolean or an error) is literally the same *)
  Corollary eval_norm_bool : forall en e, norm_env_wf en -> lit_ok e = true -> bool_eval en (norm e) = bool_eval en e.
  Proof. intros en e Hen Hok. unfold bool_eval. apply bool_eval_cong. apply eval_norm; assumption. Qed.

  Theorem policy_norm_same_outcome : forall en p, norm_env_wf en -> policy_lit_ok p = true ->
    bool_eval en (policy_to_expr (norm_policy p)) = bool_eval en (policy_to_expr p).
  Proof.
    intros en p Hen Hok. apply (map_conds_same_outcome en norm p).
    unfold policy_lit_ok in Hok. rewrite forallb_forall in Hok. apply Forall_forall. intros c Hc. apply eval_norm; auto.
  Qed.

  (* the policy is satisfied by the same requests *)
  Corollary policy_norm_same_sat : forall en p, norm_env_wf en -> policy_lit_ok p = true ->
    sat en (norm_policy p) = sat en p.
  Proof. intros en p Hen Hok. unfold sat. rewrite policy_norm_same_outcome; auto. Qed.
End NormMeaning.

(* the hypotheses are needed (computed on the model) *)

Definition nm_id_order (l : list value) : list nat := seq 0 (List.length l).
Definition nm_no_ip : bool -> Z -> Z -> str := fun _ _ _ => [].
Definition nm_env : env :=
  {| e_store := []; e_principal := VEntity [85] [97]; e_action := VEntity [65] [98]; e_resource := VEntity [82] [99]; e_context := VRecord [] |}.

(* a literal set with a duplicate member (not wf_value): the constructor expression removes the duplicate *)
Example nm_ex_dup_set :
  let e := EEq (ELit (VSet [VLong 1; VLong 1])) (ELit (VSet [VLong 1; VLong 2])) in
  eval nm_env e = Ok (VBool true) /\ eval nm_env (norm nm_id_order nm_no_ip e) = Ok (VBool false).
Proof. vm_compute. split; reflexivity. Qed.

(* a literal record whose keys are not sorted (not wf_value): the constructor expression sorts them *)
Example nm_ex_unsorted_record :
  let e := EEq (ELit (VRecord [([98], VLong 1); ([97], VLong 2)])) (ELit (VRecord [([97], VLong 2); ([98], VLong 1)])) in
  eval nm_env e = Ok (VBool false) /\ eval nm_env (norm nm_id_order nm_no_ip e) = Ok (VBool true).
Proof. vm_compute. split; reflexivity. Qed.

(* F27: a datetime literal in the lowest day of int64 prints to a text the parser rejects *)
Example nm_ex_datetime_bottom :
  let e := ELit (VDatetime min64) in
  eval nm_env e = Ok (VDatetime min64) /\ eval nm_env (norm nm_id_order nm_no_ip e) = Err EExt.
Proof. vm_compute. split; reflexivity. Qed.

(* a decimal literal outside int64 *)
Example nm_ex_decimal_range :
  let e := ELit (VDecimal two63) in
  eval nm_env e = Ok (VDecimal two63) /\ eval nm_env (norm nm_id_order nm_no_ip e) = Err EExt.
Proof. vm_compute. split; reflexivity. Qed.

(* a member order that is not a permutation of the positions loses members *)
Example nm_ex_order_not_perm :
  let e := EContains (ELit (VSet [VLong 1; VLong 2])) (ELit (VLong 2)) in
  eval nm_env e = Ok (VBool true) /\ eval nm_env (norm (fun l => map (fun _ => 0%nat) l) nm_no_ip e) = Ok (VBool false).
Proof. vm_compute. split; reflexivity. Qed.

(* with a permuting order the value differs as a list and is equal as a set: the statement is up to veq *)
Example nm_ex_order_rev :
  eval nm_env (norm (fun l => rev (seq 0 (List.length l))) nm_no_ip (ELit (VSet [VLong 1; VLong 2]))) = Ok (VSet [VLong 2; VLong 1]).
Proof. vm_compute. reflexivity. Qed.

Print Assumptions eval_norm.
Print Assumptions eval_norm_wf.
Print Assumptions eval_norm_bool.
Print Assumptions policy_norm_same_outcome.
Print Assumptions policy_norm_same_sat.
