(* Fuel monotonicity of the parser model (Impl/Parser.v): fuel only matters for PFuel.
   Once a function returns POk or PErr with some fuel, it returns the same with any larger fuel. *)
From Coq Require Import ZArith List Bool String Lia.
Import ListNotations.
From Cedar Require Import Base.Int64 Lang.Value Impl.Like Lang.Expr Impl.Eval Impl.Scanner Impl.Tokenizer Impl.Quote Impl.Parser.

Definition settled {A} (r : pres A) : Prop := r <> PFuel.

(* The workhorse.  Goal shape:  X <> PFuel -> X' = X   where X' is X with the fuel f replaced by f'.
   - X is a match/if on something not mentioning f : destruct it (it occurs identically on both sides);
   - X is a match on a call c at fuel f : its f'-version c' equals c by a hypothesis found by [auto];
   - X is a tail call at fuel f : a hypothesis found by [auto];  X is PFuel : contradiction;  otherwise X' is X.
   The hypotheses [auto] draws on are the induction hypothesis IH and the monotonicity of each callee, posed before the call
   as H<callee>. *)
Ltac mono_call f f' c :=
  match c with
  | context C [f] =>
    let c' := context C [f'] in
    let H := fresh "Hcall" in
    assert (H : c <> PFuel -> c' = c) by (auto);
    revert H; case c;
    [ intros ? ? H; rewrite (H ltac:(discriminate)); clear H
    | intros H; rewrite (H ltac:(discriminate)); clear H
    | intros _ ]
  end.

Ltac mono_step f f' :=
  cbv beta iota zeta;
  lazymatch goal with
  | |- ?X <> PFuel -> ?X' = ?X =>
    lazymatch X with
    | (match ?c with _ => _ end) =>
      tryif (match c with context [f] => idtac end)
      then mono_call f f' c
      else destruct c
    | PFuel => let H := fresh in intros H; exfalso; apply H; reflexivity
    | context [f] => solve [auto]
    | _ => intros _; reflexivity
    end
  end.

Ltac mono f f' := repeat (mono_step f f').

Ltac intro_args :=
  lazymatch goal with
  | |- (_ <> _) -> _ => idtac
  | |- forall _, _ => intro; intro_args
  end.

(* All the fuelled functions return PFuel at fuel 0 and call themselves at the predecessor of their fuel, so a
   statement "f <= f' -> ..." about them goes by descending both fuels together. *)
Lemma fuel_le_ind (P : nat -> nat -> Prop) :
  (forall f', P 0 f') -> (forall f f', f <= f' -> P f f' -> P (S f) (S f')) -> forall f f', f <= f' -> P f f'.
Proof.
  intros H0 HS. induction f as [|f IH]; intros f' Hle; [apply H0|].
  destruct f' as [|f']; [lia|]. apply HS; [lia|]. apply IH. lia.
Qed.

Lemma fuel_not_settled : forall A : Type, @PFuel A <> PFuel -> forall Q : Prop, Q.
Proof. intros A H Q. exfalso. apply H. reflexivity. Qed.

Lemma entity_rest_mono : forall f f' ty ts, f <= f' -> entity_rest f ty ts <> PFuel -> entity_rest f' ty ts = entity_rest f ty ts.
Proof.
  intros f f' ty ts Hle. revert f f' Hle ty ts. apply (fuel_le_ind (fun f f' => forall ty ts, _ <> _ -> _ = _)).
  - intros f' ty ts H. exact (fuel_not_settled _ H _).
  - intros f f' _ IH ty ts. cbn [entity_rest]. unfold exact. mono f f'.
Qed.

Lemma p_entity_mono : forall f f' ts, f <= f' -> p_entity f ts <> PFuel -> p_entity f' ts = p_entity f ts.
Proof.
  intros f f' ts Hle. pose proof (fun ty ts => entity_rest_mono f f' ty ts Hle) as Hentity_rest.
  unfold p_entity. mono f f'.
Qed.

Lemma path_rest_mono : forall f f' ty ts, f <= f' -> path_rest f ty ts <> PFuel -> path_rest f' ty ts = path_rest f ty ts.
Proof.
  intros f f' ty ts Hle. revert f f' Hle ty ts. apply (fuel_le_ind (fun f f' => forall ty ts, _ <> _ -> _ = _)).
  - intros f' ty ts H. exact (fuel_not_settled _ H _).
  - intros f f' _ IH ty ts. cbn [path_rest]. mono f f'.
Qed.

Lemma p_path_mono : forall f f' ts, f <= f' -> p_path f ts <> PFuel -> p_path f' ts = p_path f ts.
Proof.
  intros f f' ts Hle. pose proof (fun ty ts => path_rest_mono f f' ty ts Hle) as Hpath_rest.
  unfold p_path. mono f f'.
Qed.

Lemma p_entlist_mono : forall f f' ts acc, f <= f' -> p_entlist f ts acc <> PFuel -> p_entlist f' ts acc = p_entlist f ts acc.
Proof.
  intros f f' ts acc Hle. revert f f' Hle ts acc. apply (fuel_le_ind (fun f f' => forall ts acc, _ <> _ -> _ = _)).
  - intros f' ts acc H. exact (fuel_not_settled _ H _).
  - intros f f' Hle IH ts acc. pose proof (fun ts => p_entity_mono f f' ts Hle) as Hentity.
    cbn [p_entlist]. mono f f'.
Qed.

Lemma p_scope_pr_mono : forall f f' ts, f <= f' -> p_scope_pr f ts <> PFuel -> p_scope_pr f' ts = p_scope_pr f ts.
Proof.
  intros f f' ts Hle.
  pose proof (fun ts => p_entity_mono f f' ts Hle) as Hentity.
  pose proof (fun ts => p_path_mono f f' ts Hle) as Hpath.
  unfold p_scope_pr. mono f f'.
Qed.

Lemma p_scope_action_mono : forall f f' ts, f <= f' -> p_scope_action f ts <> PFuel -> p_scope_action f' ts = p_scope_action f ts.
Proof.
  intros f f' ts Hle.
  pose proof (fun ts => p_entity_mono f f' ts Hle) as Hentity.
  pose proof (fun ts acc => p_entlist_mono f f' ts acc Hle) as Hentlist.
  unfold p_scope_action. mono f f'.
Qed.

Lemma unary_ops_mono : forall f f' ts acc, f <= f' -> unary_ops f ts acc <> None -> unary_ops f' ts acc = unary_ops f ts acc.
Proof.
  intros f f' ts acc Hle. revert f f' Hle ts acc. apply (fuel_le_ind (fun f f' => forall ts acc, _ <> _ -> _ = _)).
  - intros f' ts acc H. exfalso. apply H. reflexivity.
  - intros f f' _ IH ts acc. cbn [unary_ops]. cbv zeta.
    destruct (tx (peek ts) "-"); [apply IH|]. destruct (tx (peek ts) "!"); [apply IH|]. reflexivity.
Qed.

(* the mutual block: one-step unfolding equations (the right-hand sides are the bodies with fuel f) *)
Ltac unfold_block t :=
  eval cbn [p_expression p_or p_or_loop p_and p_and_loop p_relation p_has_chain p_add p_add_loop p_mult p_mult_loop p_unary p_member p_access_loop p_primary p_entity_or_extfun p_expressions p_record] in t.

Lemma p_expression_S f ts : p_expression (S f) ts = ltac:(let t := unfold_block (p_expression (S f) ts) in exact t).
Proof. reflexivity. Qed.
Lemma p_expression_O ts : p_expression 0 ts = PFuel.
Proof. reflexivity. Qed.
Lemma p_or_S f ts : p_or (S f) ts = ltac:(let t := unfold_block (p_or (S f) ts) in exact t).
Proof. reflexivity. Qed.
Lemma p_or_O ts : p_or 0 ts = PFuel.
Proof. reflexivity. Qed.
Lemma p_or_loop_S f l ts : p_or_loop (S f) l ts = ltac:(let t := unfold_block (p_or_loop (S f) l ts) in exact t).
Proof. reflexivity. Qed.
Lemma p_or_loop_O l ts : p_or_loop 0 l ts = PFuel.
Proof. reflexivity. Qed.
Lemma p_and_S f ts : p_and (S f) ts = ltac:(let t := unfold_block (p_and (S f) ts) in exact t).
Proof. reflexivity. Qed.
Lemma p_and_O ts : p_and 0 ts = PFuel.
Proof. reflexivity. Qed.
Lemma p_and_loop_S f l ts : p_and_loop (S f) l ts = ltac:(let t := unfold_block (p_and_loop (S f) l ts) in exact t).
Proof. reflexivity. Qed.
Lemma p_and_loop_O l ts : p_and_loop 0 l ts = PFuel.
Proof. reflexivity. Qed.
Lemma p_relation_S f ts : p_relation (S f) ts = ltac:(let t := unfold_block (p_relation (S f) ts) in exact t).
Proof. reflexivity. Qed.
Lemma p_relation_O ts : p_relation 0 ts = PFuel.
Proof. reflexivity. Qed.
Lemma p_has_chain_S f res cur ts : p_has_chain (S f) res cur ts = ltac:(let t := unfold_block (p_has_chain (S f) res cur ts) in exact t).
Proof. reflexivity. Qed.
Lemma p_has_chain_O res cur ts : p_has_chain 0 res cur ts = PFuel.
Proof. reflexivity. Qed.
Lemma p_add_S f ts : p_add (S f) ts = ltac:(let t := unfold_block (p_add (S f) ts) in exact t).
Proof. reflexivity. Qed.
Lemma p_add_O ts : p_add 0 ts = PFuel.
Proof. reflexivity. Qed.
Lemma p_add_loop_S f l ts : p_add_loop (S f) l ts = ltac:(let t := unfold_block (p_add_loop (S f) l ts) in exact t).
Proof. reflexivity. Qed.
Lemma p_add_loop_O l ts : p_add_loop 0 l ts = PFuel.
Proof. reflexivity. Qed.
Lemma p_mult_S f ts : p_mult (S f) ts = ltac:(let t := unfold_block (p_mult (S f) ts) in exact t).
Proof. reflexivity. Qed.
Lemma p_mult_O ts : p_mult 0 ts = PFuel.
Proof. reflexivity. Qed.
Lemma p_mult_loop_S f l ts : p_mult_loop (S f) l ts = ltac:(let t := unfold_block (p_mult_loop (S f) l ts) in exact t).
Proof. reflexivity. Qed.
Lemma p_mult_loop_O l ts : p_mult_loop 0 l ts = PFuel.
Proof. reflexivity. Qed.
Lemma p_unary_S f ts : p_unary (S f) ts = ltac:(let t := unfold_block (p_unary (S f) ts) in exact t).
Proof. reflexivity. Qed.
Lemma p_unary_O ts : p_unary 0 ts = PFuel.
Proof. reflexivity. Qed.
Lemma p_member_S f ts : p_member (S f) ts = ltac:(let t := unfold_block (p_member (S f) ts) in exact t).
Proof. reflexivity. Qed.
Lemma p_member_O ts : p_member 0 ts = PFuel.
Proof. reflexivity. Qed.
Lemma p_access_loop_S f l ts : p_access_loop (S f) l ts = ltac:(let t := unfold_block (p_access_loop (S f) l ts) in exact t).
Proof. reflexivity. Qed.
Lemma p_access_loop_O l ts : p_access_loop 0 l ts = PFuel.
Proof. reflexivity. Qed.
Lemma p_primary_S f ts : p_primary (S f) ts = ltac:(let t := unfold_block (p_primary (S f) ts) in exact t).
Proof. reflexivity. Qed.
Lemma p_primary_O ts : p_primary 0 ts = PFuel.
Proof. reflexivity. Qed.
Lemma p_entity_or_extfun_S f pre ts : p_entity_or_extfun (S f) pre ts = ltac:(let t := unfold_block (p_entity_or_extfun (S f) pre ts) in exact t).
Proof. reflexivity. Qed.
Lemma p_entity_or_extfun_O pre ts : p_entity_or_extfun 0 pre ts = PFuel.
Proof. reflexivity. Qed.
Lemma p_expressions_S f close ts acc : p_expressions (S f) close ts acc = ltac:(let t := unfold_block (p_expressions (S f) close ts acc) in exact t).
Proof. reflexivity. Qed.
Lemma p_expressions_O close ts acc : p_expressions 0 close ts acc = PFuel.
Proof. reflexivity. Qed.
Lemma p_record_S f ts acc : p_record (S f) ts acc = ltac:(let t := unfold_block (p_record (S f) ts acc) in exact t).
Proof. reflexivity. Qed.
Lemma p_record_O ts acc : p_record 0 ts acc = PFuel.
Proof. reflexivity. Qed.

Lemma expr_block_mono : forall f f', f <= f' ->
  (forall ts, p_expression f ts <> PFuel -> p_expression f' ts = p_expression f ts) /\
  (forall ts, p_or f ts <> PFuel -> p_or f' ts = p_or f ts) /\
  (forall l ts, p_or_loop f l ts <> PFuel -> p_or_loop f' l ts = p_or_loop f l ts) /\
  (forall ts, p_and f ts <> PFuel -> p_and f' ts = p_and f ts) /\
  (forall l ts, p_and_loop f l ts <> PFuel -> p_and_loop f' l ts = p_and_loop f l ts) /\
  (forall ts, p_relation f ts <> PFuel -> p_relation f' ts = p_relation f ts) /\
  (forall res cur ts, p_has_chain f res cur ts <> PFuel -> p_has_chain f' res cur ts = p_has_chain f res cur ts) /\
  (forall ts, p_add f ts <> PFuel -> p_add f' ts = p_add f ts) /\
  (forall l ts, p_add_loop f l ts <> PFuel -> p_add_loop f' l ts = p_add_loop f l ts) /\
  (forall ts, p_mult f ts <> PFuel -> p_mult f' ts = p_mult f ts) /\
  (forall l ts, p_mult_loop f l ts <> PFuel -> p_mult_loop f' l ts = p_mult_loop f l ts) /\
  (forall ts, p_unary f ts <> PFuel -> p_unary f' ts = p_unary f ts) /\
  (forall ts, p_member f ts <> PFuel -> p_member f' ts = p_member f ts) /\
  (forall l ts, p_access_loop f l ts <> PFuel -> p_access_loop f' l ts = p_access_loop f l ts) /\
  (forall ts, p_primary f ts <> PFuel -> p_primary f' ts = p_primary f ts) /\
  (forall pre ts, p_entity_or_extfun f pre ts <> PFuel -> p_entity_or_extfun f' pre ts = p_entity_or_extfun f pre ts) /\
  (forall close ts acc, p_expressions f close ts acc <> PFuel -> p_expressions f' close ts acc = p_expressions f close ts acc) /\
  (forall ts acc, p_record f ts acc <> PFuel -> p_record f' ts acc = p_record f ts acc).
Proof.
  apply fuel_le_ind.
  - intros f'. repeat split; intro_args; intros H; exact (fuel_not_settled _ H _).
  - intros f f' Hle IH. pose proof (fun ts => p_path_mono f f' ts Hle) as Hpath. clear Hle.
    destruct IH as (IH1 & IH2 & IH3 & IH4 & IH5 & IH6 & IH7 & IH8 & IH9 & IH10 & IH11 & IH12 & IH13 & IH14 & IH15 & IH16 & IH17 & IH18).
    repeat split; intro_args;
      rewrite ?p_expression_S, ?p_or_S, ?p_or_loop_S, ?p_and_S, ?p_and_loop_S, ?p_relation_S, ?p_has_chain_S, ?p_add_S, ?p_add_loop_S,
        ?p_mult_S, ?p_mult_loop_S, ?p_unary_S, ?p_member_S, ?p_access_loop_S, ?p_primary_S, ?p_entity_or_extfun_S, ?p_expressions_S,
        ?p_record_S;
      mono f f'.
Qed.

Lemma p_expression_mono : forall f f' ts, f <= f' -> p_expression f ts <> PFuel -> p_expression f' ts = p_expression f ts.
Proof. intros f f' ts Hle. apply (expr_block_mono f f' Hle). Qed.
Lemma p_or_mono : forall f f' ts, f <= f' -> p_or f ts <> PFuel -> p_or f' ts = p_or f ts.
Proof. intros f f' ts Hle. apply (expr_block_mono f f' Hle). Qed.
Lemma p_or_loop_mono : forall f f' l ts, f <= f' -> p_or_loop f l ts <> PFuel -> p_or_loop f' l ts = p_or_loop f l ts.
Proof. intros f f' l ts Hle. apply (expr_block_mono f f' Hle). Qed.
Lemma p_and_mono : forall f f' ts, f <= f' -> p_and f ts <> PFuel -> p_and f' ts = p_and f ts.
Proof. intros f f' ts Hle. apply (expr_block_mono f f' Hle). Qed.
Lemma p_and_loop_mono : forall f f' l ts, f <= f' -> p_and_loop f l ts <> PFuel -> p_and_loop f' l ts = p_and_loop f l ts.
Proof. intros f f' l ts Hle. apply (expr_block_mono f f' Hle). Qed.
Lemma p_relation_mono : forall f f' ts, f <= f' -> p_relation f ts <> PFuel -> p_relation f' ts = p_relation f ts.
Proof. intros f f' ts Hle. apply (expr_block_mono f f' Hle). Qed.
Lemma p_has_chain_mono : forall f f' res cur ts, f <= f' -> p_has_chain f res cur ts <> PFuel -> p_has_chain f' res cur ts = p_has_chain f res cur ts.
Proof. intros f f' res cur ts Hle. apply (expr_block_mono f f' Hle). Qed.
Lemma p_add_mono : forall f f' ts, f <= f' -> p_add f ts <> PFuel -> p_add f' ts = p_add f ts.
Proof. intros f f' ts Hle. apply (expr_block_mono f f' Hle). Qed.
Lemma p_add_loop_mono : forall f f' l ts, f <= f' -> p_add_loop f l ts <> PFuel -> p_add_loop f' l ts = p_add_loop f l ts.
Proof. intros f f' l ts Hle. apply (expr_block_mono f f' Hle). Qed.
Lemma p_mult_mono : forall f f' ts, f <= f' -> p_mult f ts <> PFuel -> p_mult f' ts = p_mult f ts.
Proof. intros f f' ts Hle. apply (expr_block_mono f f' Hle). Qed.
Lemma p_mult_loop_mono : forall f f' l ts, f <= f' -> p_mult_loop f l ts <> PFuel -> p_mult_loop f' l ts = p_mult_loop f l ts.
Proof. intros f f' l ts Hle. apply (expr_block_mono f f' Hle). Qed.
Lemma p_unary_mono : forall f f' ts, f <= f' -> p_unary f ts <> PFuel -> p_unary f' ts = p_unary f ts.
Proof. intros f f' ts Hle. apply (expr_block_mono f f' Hle). Qed.
Lemma p_member_mono : forall f f' ts, f <= f' -> p_member f ts <> PFuel -> p_member f' ts = p_member f ts.
Proof. intros f f' ts Hle. apply (expr_block_mono f f' Hle). Qed.
Lemma p_access_loop_mono : forall f f' l ts, f <= f' -> p_access_loop f l ts <> PFuel -> p_access_loop f' l ts = p_access_loop f l ts.
Proof. intros f f' l ts Hle. apply (expr_block_mono f f' Hle). Qed.
Lemma p_primary_mono : forall f f' ts, f <= f' -> p_primary f ts <> PFuel -> p_primary f' ts = p_primary f ts.
Proof. intros f f' ts Hle. apply (expr_block_mono f f' Hle). Qed.
Lemma p_entity_or_extfun_mono : forall f f' pre ts, f <= f' -> p_entity_or_extfun f pre ts <> PFuel -> p_entity_or_extfun f' pre ts = p_entity_or_extfun f pre ts.
Proof. intros f f' pre ts Hle. apply (expr_block_mono f f' Hle). Qed.
Lemma p_expressions_mono : forall f f' close ts acc, f <= f' -> p_expressions f close ts acc <> PFuel -> p_expressions f' close ts acc = p_expressions f close ts acc.
Proof. intros f f' close ts acc Hle. apply (expr_block_mono f f' Hle). Qed.
Lemma p_record_mono : forall f f' ts acc, f <= f' -> p_record f ts acc <> PFuel -> p_record f' ts acc = p_record f ts acc.
Proof. intros f f' ts acc Hle. apply (expr_block_mono f f' Hle). Qed.

Lemma p_annotations_mono : forall f f' ts acc, f <= f' -> p_annotations f ts acc <> PFuel -> p_annotations f' ts acc = p_annotations f ts acc.
Proof.
  intros f f' ts acc Hle. revert f f' Hle ts acc. apply (fuel_le_ind (fun f f' => forall ts acc, _ <> _ -> _ = _)).
  - intros f' ts acc H. exact (fuel_not_settled _ H _).
  - intros f f' _ IH ts acc. cbn [p_annotations]. mono f f'.
Qed.

Lemma p_conditions_mono : forall f f' ts acc, f <= f' -> p_conditions f ts acc <> PFuel -> p_conditions f' ts acc = p_conditions f ts acc.
Proof.
  intros f f' ts acc Hle. revert f f' Hle ts acc. apply (fuel_le_ind (fun f f' => forall ts acc, _ <> _ -> _ = _)).
  - intros f' ts acc H. exact (fuel_not_settled _ H _).
  - intros f f' Hle IH ts acc. pose proof (fun ts => p_expression_mono f f' ts Hle) as Hexpression.
    cbn [p_conditions]. mono f f'.
Qed.

Lemma p_policy_mono : forall f f' ts, f <= f' -> p_policy f ts <> PFuel -> p_policy f' ts = p_policy f ts.
Proof.
  intros f f' ts Hle.
  pose proof (fun ts acc => p_annotations_mono f f' ts acc Hle) as Hannotations.
  pose proof (fun ts => p_scope_pr_mono f f' ts Hle) as Hscope_pr.
  pose proof (fun ts => p_scope_action_mono f f' ts Hle) as Hscope_action.
  pose proof (fun ts acc => p_conditions_mono f f' ts acc Hle) as Hconditions.
  unfold p_policy, bind, bexact. mono f f'.
Qed.

Lemma p_policies_mono : forall f f' ts acc, f <= f' -> p_policies f ts acc <> PFuel -> p_policies f' ts acc = p_policies f ts acc.
Proof.
  intros f f' ts acc Hle. revert f f' Hle ts acc. apply (fuel_le_ind (fun f f' => forall ts acc, _ <> _ -> _ = _)).
  - intros f' ts acc H. exact (fuel_not_settled _ H _).
  - intros f f' Hle IH ts acc. pose proof (fun ts => p_policy_mono (S f) (S f') ts (le_n_S _ _ Hle)) as Hpolicy.
    cbn [p_policies]. unfold bind. mono f f'.
Qed.

(* Two settled runs agree, whatever the fuels. *)
Lemma mono_agree : forall (A : Type) (p : nat -> pres A),
  (forall f f', f <= f' -> p f <> PFuel -> p f' = p f) -> forall f1 f2, p f1 <> PFuel -> p f2 <> PFuel -> p f1 = p f2.
Proof.
  intros A p Hm f1 f2 H1 H2. destruct (Nat.le_ge_cases f1 f2) as [Hle|Hle]; [symmetry|]; apply Hm; assumption.
Qed.

Lemma p_expression_agree : forall f1 f2 ts, p_expression f1 ts <> PFuel -> p_expression f2 ts <> PFuel -> p_expression f1 ts = p_expression f2 ts.
Proof. intros f1 f2 ts. apply (mono_agree _ (fun f => p_expression f ts)). intros f f'. apply p_expression_mono. Qed.

Lemma p_policy_agree : forall f1 f2 ts, p_policy f1 ts <> PFuel -> p_policy f2 ts <> PFuel -> p_policy f1 ts = p_policy f2 ts.
Proof. intros f1 f2 ts. apply (mono_agree _ (fun f => p_policy f ts)). intros f f'. apply p_policy_mono. Qed.

Lemma p_policies_agree : forall f1 f2 ts acc,
  p_policies f1 ts acc <> PFuel -> p_policies f2 ts acc <> PFuel -> p_policies f1 ts acc = p_policies f2 ts acc.
Proof. intros f1 f2 ts acc. apply (mono_agree _ (fun f => p_policies f ts acc)). intros f f'. apply p_policies_mono. Qed.

(* the same in "settled" form: more fuel keeps a settled result settled (and equal) *)
Lemma p_policies_settled : forall f f' ts acc, f <= f' -> settled (p_policies f ts acc) -> settled (p_policies f' ts acc).
Proof. unfold settled. intros f f' ts acc Hle H. rewrite (p_policies_mono f f' ts acc Hle H). exact H. Qed.

Lemma p_expression_settled : forall f f' ts, f <= f' -> settled (p_expression f ts) -> settled (p_expression f' ts).
Proof. unfold settled. intros f f' ts Hle H. rewrite (p_expression_mono f f' ts Hle H). exact H. Qed.

(* When does the unary-operator loop of p_unary, run with fuel S (List.length ts), terminate?
   adv does not move past the last token, so on a NONEMPTY token list consisting only of "-" / "!" tokens the loop
   spins: unary_ops returns None for every fuel and p_unary returns PFuel for every fuel.  In every other case
   (ts = [] or some token is neither "-" nor "!", e.g. the final EOF token, whose text is empty) fuel S (List.length ts)
   is enough and the result is the operator prefix. *)
Definition is_op (t : token) : bool := tx t "-" || tx t "!".

Fixpoint ops_prefix (ts : list token) : list bool * list token :=
  match ts with
  | [] => ([], [])
  | t :: ts' =>
    if tx t "-" then (true :: fst (ops_prefix ts'), snd (ops_prefix ts'))
    else if tx t "!" then (false :: fst (ops_prefix ts'), snd (ops_prefix ts'))
    else ([], ts)
  end.

Definition has_non_op (ts : list token) : bool := existsb (fun t => negb (is_op t)) ts.

Lemma tx_empty_text : forall t s, t_text t = [] -> s <> EmptyString -> tx t s = false.
Proof.
  intros t s Ht Hs. unfold tx. rewrite Ht. destruct s as [|a s]; [congruence|]. reflexivity.
Qed.

Lemma is_op_empty_text : forall t, t_text t = [] -> is_op t = false.
Proof.
  intros t Ht. unfold is_op. rewrite !tx_empty_text by (auto; discriminate). reflexivity.
Qed.

Lemma adv_all_ops : forall ts, ts <> [] -> forallb is_op ts = true -> adv ts <> [] /\ forallb is_op (adv ts) = true.
Proof.
  intros ts Hne Hall. destruct ts as [|t ts']; [congruence|].
  destruct ts' as [|t' ts'']; cbn [adv].
  - split; [discriminate | exact Hall].
  - cbn [forallb] in Hall. apply andb_true_iff in Hall. destruct Hall as [_ Hall].
    split; [discriminate | exact Hall].
Qed.

(* the spin: a nonempty list of operator tokens defeats every fuel *)
Lemma unary_ops_spin : forall f ts acc, ts <> [] -> forallb is_op ts = true -> unary_ops f ts acc = None.
Proof.
  induction f as [|f IH]; intros ts acc Hne Hall; [reflexivity|].
  destruct (adv_all_ops ts Hne Hall) as [Hne' Hall'].
  cbn [unary_ops]. cbv zeta.
  destruct ts as [|t ts']; [congruence|]. cbn [peek].
  cbn [forallb] in Hall. apply andb_true_iff in Hall. destruct Hall as [Hop _].
  unfold is_op in Hop.
  destruct (tx t "-"); [apply IH; assumption|].
  destruct (tx t "!"); [apply IH; assumption|].
  discriminate Hop.
Qed.

(* the good case: exact result *)
Lemma unary_ops_result : forall ts acc f,
  List.length ts < f -> ts = [] \/ has_non_op ts = true ->
  unary_ops f ts acc = Some (acc ++ fst (ops_prefix ts), snd (ops_prefix ts)).
Proof.
  induction ts as [|t ts' IH]; intros acc f Hf Hc.
  - destruct f as [|f]; [cbn [List.length] in Hf; lia|].
    cbn [ops_prefix fst snd]. rewrite app_nil_r. reflexivity.
  - destruct f as [|f]; [lia|]. cbn [List.length] in Hf.
    destruct Hc as [Hc|Hc]; [discriminate Hc|].
    unfold has_non_op in Hc. cbn [existsb] in Hc. unfold is_op in Hc.
    (* after an operator token the list goes on (Hc), so adv moves *)
    assert (Hrec : tx t "-" || tx t "!" = true -> forall b,
              unary_ops f (adv (t :: ts')) (acc ++ [b]) = Some (acc ++ b :: fst (ops_prefix ts'), snd (ops_prefix ts'))).
    { intros Hop b. rewrite Hop in Hc. destruct ts' as [|t' ts'']; [discriminate Hc|]. cbn [adv].
      rewrite (IH (acc ++ [b]) f) by (lia || (right; exact Hc)). rewrite <- app_assoc. reflexivity. }
    cbn [unary_ops ops_prefix peek]. cbv zeta.
    destruct (tx t "-"); [apply Hrec; reflexivity|]. destruct (tx t "!"); [apply Hrec; reflexivity|].
    cbn [fst snd]. rewrite app_nil_r. reflexivity.
Qed.

Lemma no_non_op_all_ops : forall ts, has_non_op ts = false -> forallb is_op ts = true.
Proof.
  induction ts as [|t ts' IH]; intros H; [reflexivity|].
  unfold has_non_op in H. cbn [existsb] in H. apply orb_false_iff in H. destruct H as [H1 H2].
  cbn [forallb]. rewrite (IH H2). destruct (is_op t); [reflexivity | discriminate H1].
Qed.

(* the exact condition under which the loop bound used by p_unary suffices *)
Theorem unary_ops_some_iff : forall ts,
  unary_ops (S (List.length ts)) ts [] <> None <-> (ts = [] \/ has_non_op ts = true).
Proof.
  intros ts. split.
  - intros H. destruct ts as [|t ts']; [left; reflexivity|]. right.
    destruct (has_non_op (t :: ts')) eqn:E; [reflexivity|]. exfalso. apply H.
    apply unary_ops_spin; [discriminate | apply no_non_op_all_ops; exact E].
  - intros Hc. rewrite (unary_ops_result ts [] (S (List.length ts)) (Nat.lt_succ_diag_r _) Hc). discriminate.
Qed.

(* ... and then no fuel helps: None with fuel S (List.length ts) means None with every fuel *)
Theorem unary_ops_none_forever : forall ts, unary_ops (S (List.length ts)) ts [] = None -> forall f acc, unary_ops f ts acc = None.
Proof.
  intros ts H f acc.
  destruct ts as [|t ts']; [discriminate H|].
  destruct (has_non_op (t :: ts')) eqn:E.
  - exfalso. revert H. apply unary_ops_some_iff. right. exact E.
  - apply unary_ops_spin; [discriminate | apply no_non_op_all_ops; exact E].
Qed.

Lemma last_non_op : forall ts d, ts <> [] -> is_op (last ts d) = false -> has_non_op ts = true.
Proof.
  induction ts as [|t ts' IH]; intros d Hne Hl; [congruence|].
  unfold has_non_op. cbn [existsb].
  destruct ts' as [|t' ts''].
  - cbn [last] in Hl. rewrite Hl. reflexivity.
  - change (last (t :: t' :: ts'') d) with (last (t' :: ts'') d) in Hl.
    fold (has_non_op (t' :: ts'')). rewrite (IH d ltac:(discriminate) Hl). apply orb_true_r.
Qed.

(* real token lists end with the EOF token, whose text is empty: the loop of p_unary always terminates on them *)
Theorem unary_ops_eof_terminated : forall ts,
  t_text (last ts eof_token) = [] -> unary_ops (S (List.length ts)) ts [] <> None.
Proof.
  intros ts H. apply unary_ops_some_iff.
  destruct ts as [|t ts']; [left; reflexivity|]. right.
  apply (last_non_op (t :: ts') eof_token); [discriminate|]. apply is_op_empty_text. exact H.
Qed.

(* consequence for p_unary: on a nonempty all-operator token list it is PFuel for EVERY fuel *)
Theorem p_unary_spin : forall f ts, ts <> [] -> forallb is_op ts = true -> p_unary f ts = PFuel.
Proof.
  intros f ts Hne Hall. destruct f as [|f]; [reflexivity|].
  rewrite p_unary_S. rewrite (unary_ops_spin _ ts [] Hne Hall). reflexivity.
Qed.

(* concrete witness: the one-token list ["-"] (no EOF token behind it) *)
Definition minus_token : token := {| t_type := TOperator; t_off := 0; t_line := 1; t_col := 1; t_text := [45%Z] |}.

Example unary_ops_minus_none : unary_ops (S (List.length [minus_token])) [minus_token] [] = None.
Proof. reflexivity. Qed.

Example unary_ops_minus_none_any_fuel : forall f acc, unary_ops f [minus_token] acc = None.
Proof. intros f acc. apply unary_ops_spin; [discriminate | reflexivity]. Qed.

Example p_expression_minus_never_settles : forall f, p_expression f [minus_token] = PFuel.
Proof.
  intros f.
  destruct f as [|f]; [reflexivity|]. rewrite p_expression_S.
  replace (tx (peek [minus_token]) "if") with false by reflexivity.
  destruct f as [|f]; [reflexivity|]. rewrite p_or_S.
  destruct f as [|f]; [reflexivity|]. rewrite p_and_S.
  destruct f as [|f]; [reflexivity|]. rewrite p_relation_S.
  destruct f as [|f]; [reflexivity|]. rewrite p_add_S.
  destruct f as [|f]; [reflexivity|]. rewrite p_mult_S.
  rewrite (p_unary_spin f [minus_token]); [reflexivity | discriminate | reflexivity].
Qed.

(* with the EOF token behind it the loop stops (and the parse is an error, not PFuel) *)
Example unary_ops_minus_eof : unary_ops (S (List.length [minus_token; eof_token])) [minus_token; eof_token] [] = Some ([true], [eof_token]).
Proof. reflexivity. Qed.

Print Assumptions entity_rest_mono.
Print Assumptions p_entity_mono.
Print Assumptions path_rest_mono.
Print Assumptions p_path_mono.
Print Assumptions p_entlist_mono.
Print Assumptions p_scope_pr_mono.
Print Assumptions p_scope_action_mono.
Print Assumptions unary_ops_mono.
Print Assumptions expr_block_mono.
Print Assumptions p_expression_mono.
Print Assumptions p_record_mono.
Print Assumptions p_annotations_mono.
Print Assumptions p_conditions_mono.
Print Assumptions p_policy_mono.
Print Assumptions p_policies_mono.
Print Assumptions p_policies_agree.
Print Assumptions unary_ops_some_iff.
Print Assumptions unary_ops_none_forever.
Print Assumptions unary_ops_eof_terminated.
Print Assumptions p_unary_spin.
Print Assumptions p_expression_minus_never_settles.
