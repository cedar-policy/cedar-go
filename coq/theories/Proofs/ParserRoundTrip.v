(* The parser reads back every rendering:  parse (tokens (print e)) = norm e.

   The idea.  Every token has a class "cont": the level of the operator loop of the parser that would consume it
   (0 for a token no loop consumes).  "Ev P v r" says that with enough fuel P returns POk v r.  "Beh L X v" says that
   the level-L parser run on X ++ R, where the first token of R has class at most L (at most 2 at level 3: a relation
   does not iterate), behaves as the level-L loop started on the value v with R ahead.  A rendering of level L has
   Beh L by one big-step rule of the parser, and Beh L gives Beh L' for every L' <= L (lift) because the loops between
   the two levels stop at once on such an R; a child is a rendering or a parenthesised one, so it has Beh at the level
   its parent asks for.  Prefix operators are the one level where the parser looks ahead over several tokens
   (unary_ops), hence a statement of their own (UN).

   Outside any section: the value printers are plain ASCII, integer literals, the class of a token, Ev and the big-step
   rules, the levels PL / LoopL / Beh and lift, paths, identifiers.  Section RT: token lists of the renderings, the first
   token of a rendering, the unary prefix, children and parentheses, expression lists and records, values, the main
   induction, parse_print_expr.  Section POL: entities, scopes, annotations, conditions, parse_print_policy,
   parse_print_policies. *)
From Coq Require Import ZArith List Bool String Lia Arith.
Import ListNotations.
From Cedar Require Import Base.Int64 Base.Utf8 Base.Utf8Enc Lang.Value Impl.Like Lang.Expr Impl.Eval Impl.Text Impl.Decimal Impl.Duration Impl.Datetime
  Impl.Scanner Impl.Tokenizer Impl.Quote Impl.Parser Impl.Printer Lang.RoundTrip Generated.Tables.
From Cedar Require Import Proofs.ValueProofs Proofs.QuoteProofs Proofs.ParserFuel Proofs.DecimalProofs.

(* plain strings: what string_value_plain wants *)
Definition plain (c : Z) : Prop := (32 <= c < 127 /\ c <> 34 /\ c <> 92)%Z.

Lemma digits_plain : forall s, Forall (fun c => is_digit c = true) s -> Forall plain s.
Proof.
  intros s H. eapply Forall_impl; [|exact H]. intros c Hc. cbv beta in Hc.
  apply is_digit_range in Hc. unfold plain. lia.
Qed.


Lemma print_nat_plain : forall z, Forall plain (print_nat z).
Proof. intros z. apply digits_plain, print_nat_all_digits. Qed.

Lemma repeat_plain : forall n, Forall plain (repeat 48%Z n).
Proof. induction n as [|n IH]; cbn [repeat]; constructor; [unfold plain; lia | exact IH]. Qed.

Lemma print_padded_plain : forall w z, Forall plain (print_padded w z).
Proof. intros w z. unfold print_padded. apply Forall_app. split; [apply repeat_plain | apply print_nat_plain]. Qed.

Lemma match48 : forall (A : Type) (Q : A -> Prop) (c : Z) (x y : A), Q x -> Q y -> Q (match c with 48%Z => x | _ => y end).
Proof.
  intros A Q c x y Hx Hy. destruct c as [|p|p]; auto.
  do 6 (try (destruct p as [p|p|]; auto)).
Qed.

Lemma trim_zeros_Forall : forall (P : Z -> Prop) n rs, Forall P rs -> Forall P (trim_zeros n rs).
Proof.
  intros P. induction n as [|n IH]; intros rs H; [destruct rs; exact H|].
  destruct rs as [|c rs']; [exact H|]. cbn [trim_zeros].
  apply match48; [|exact H]. apply IH. inversion H; assumption.
Qed.

Lemma plain_cons : forall c l, plain c -> Forall plain l -> Forall plain (c :: l).
Proof. intros; constructor; assumption. Qed.

Lemma print_decimal_plain : forall z, Forall plain (print_decimal z).
Proof.
  intros z. unfold print_decimal. apply Forall_rev, trim_zeros_Forall, Forall_rev.
  destruct (z <? 0)%Z.
  - apply plain_cons; [unfold plain; lia|]. apply Forall_app. split; [apply print_nat_plain|].
    apply plain_cons; [unfold plain; lia | apply print_padded_plain].
  - apply Forall_app. split; [apply print_nat_plain|].
    apply plain_cons; [unfold plain; lia | apply print_padded_plain].
Qed.

Lemma print_duration_plain : forall z, Forall plain (print_duration z).
Proof.
  intros z. unfold print_duration.
  destruct (z =? 0)%Z; [repeat (apply plain_cons; [unfold plain; lia|]); constructor|].
  cbv zeta.
  assert (Hpart : forall q suffix, Forall plain suffix -> Forall plain (if (q >? 0)%Z then print_nat q ++ suffix else [])).
  { intros q suffix Hs. destruct (q >? 0)%Z; [|constructor]. apply Forall_app. split; [apply print_nat_plain | exact Hs]. }
  repeat (apply Forall_app; split);
    [destruct (z <? 0)%Z; [apply plain_cons; [unfold plain; lia|]|]; constructor
    | apply Hpart; repeat (apply plain_cons; [unfold plain; lia|]); constructor ..].
Qed.

Lemma print_datetime_plain : forall z, Forall plain (print_datetime z).
Proof.
  intros z. unfold print_datetime. cbv zeta.
  destruct (civil_from_days (z / MillisPerDay)) as [[y m] d].
  apply Forall_app. split.
  - destruct ((0 <=? y)%Z && (y <=? 9999)%Z); [apply print_padded_plain|].
    apply plain_cons; [destruct (y <? 0)%Z; unfold plain; lia | apply print_padded_plain].
  - repeat (first [ apply plain_cons; [unfold plain; lia|]
                  | apply Forall_app; split; [apply print_padded_plain|]
                  | constructor ]).
Qed.

Lemma digits_val_acc_fold : forall s acc v, digits_val_acc s acc = Some v ->
  fold_left (fun a c => (a * 10 + (c - 48))%Z) s acc = v.
Proof.
  induction s as [|c s IH]; intros acc v H; cbn [digits_val_acc fold_left] in *.
  - congruence.
  - destruct (is_digit c); [|discriminate]. apply IH. exact H.
Qed.

Lemma digits_val_print_nat : forall z, (0 <= z < 10 ^ 40)%Z -> digits_val (print_nat z) = z.
Proof.
  intros z Hz. unfold digits_val. apply digits_val_acc_fold.
  destruct (parse_digits_some _ _ (parse_print_nat z Hz)) as [_ H]. exact H.
Qed.

Lemma in64_small : forall z, in64b z = true -> (- 10 ^ 40 < z < 10 ^ 40)%Z.
Proof.
  intros z H. apply in64b_spec in H. unfold in64, min64, max64, two63 in H.
  assert (9223372036854775808 < 10 ^ 40)%Z by reflexivity. lia.
Qed.

Lemma int_value_pos : forall z, (0 <= z)%Z -> in64b z = true -> int_value false (print_nat z) = Some z.
Proof.
  intros z Hz Hi. unfold int_value. pose proof (in64_small z Hi).
  rewrite digits_val_print_nat by lia. rewrite Hi. reflexivity.
Qed.

Lemma int_value_neg : forall z, (z < 0)%Z -> in64b z = true -> int_value true (print_nat (- z)) = Some z.
Proof.
  intros z Hz Hi. unfold int_value. pose proof (in64_small z Hi).
  rewrite digits_val_print_nat by lia. rewrite Z.opp_involutive, Hi. reflexivity.
Qed.

Definition O (s : string) : token := mk (TOperator, s_of s).
Definition K (s : string) : token := mk (TReserved, s_of s).
Definition I (s : string) : token := mk (TIdent, s_of s).
Definition Id (s : str) : token := mk (TIdent, s).
Definition St (s : str) : token := mk (TString, s).
Definition Nt (s : str) : token := mk (TInt, s).

Lemma toks_of_app : forall a b, toks_of (a ++ b) = toks_of a ++ toks_of b.
Proof. intros a b. unfold toks_of, toks. rewrite flat_map_app, map_app. reflexivity. Qed.
Lemma toks_of_nil : toks_of [] = [].
Proof. reflexivity. Qed.
Lemma toks_of_T : forall ty s l, toks_of (T ty s :: l) = mk (ty, s) :: toks_of l.
Proof. reflexivity. Qed.
Lemma toks_of_Sp : forall s l, toks_of (Sp s :: l) = toks_of l.
Proof. reflexivity. Qed.
Lemma toks_of_op : forall s l, toks_of (op s :: l) = O s :: toks_of l.
Proof. reflexivity. Qed.
Lemma toks_of_kw : forall s l, toks_of (kw s :: l) = K s :: toks_of l.
Proof. reflexivity. Qed.
Lemma toks_of_idt : forall s l, toks_of (idt s :: l) = I s :: toks_of l.
Proof. reflexivity. Qed.
Lemma toks_of_sp : forall l, toks_of (sp :: l) = toks_of l.
Proof. reflexivity. Qed.
Lemma toks_of_nl : forall l, toks_of (nl :: l) = toks_of l.
Proof. reflexivity. Qed.
Lemma toks_of_indent : forall l, toks_of (indent :: l) = toks_of l.
Proof. reflexivity. Qed.

Lemma adv_cons : forall t l, l <> [] -> adv (t :: l) = l.
Proof. intros t l H. destruct l; [congruence | reflexivity]. Qed.
Lemma peek_cons : forall t l, peek (t :: l) = t.
Proof. reflexivity. Qed.
Lemma app_ne_r : forall (A : Type) (a b : list A), b <> [] -> a ++ b <> [].
Proof. intros A a b H E. apply app_eq_nil in E. destruct E; contradiction. Qed.
Lemma cons_ne : forall (A : Type) (x : A) l, x :: l <> [].
Proof. intros; discriminate. Qed.

Ltac ne := solve [ repeat first [ assumption | apply cons_ne | apply app_ne_r ] ].

Lemma exact_cons : forall t l s, tx t s = true -> l <> [] -> exact (t :: l) s = Some l.
Proof. intros t l s H Hl. unfold exact. cbn [peek]. rewrite H, adv_cons by exact Hl. reflexivity. Qed.

Lemma tx_eq : forall t s, tx t s = true -> t_text t = s_of s.
Proof. intros t s H. unfold tx in H. apply str_eqb_eq in H. symmetry. exact H. Qed.

(* continuation class of a token: which operator loop of the parser consumes it (0 = none).  The table restates, loop by loop,
   the texts that p_or_loop, p_and_loop, the relation tail, p_add_loop, p_mult_loop, p_access_loop and p_primary /
   p_entity_or_extfun test for (Impl/Parser.v); loop_stop below is the lemma that holds it to the parser: a loop of level L
   returns at once on a token of class below L. *)
Definition cont_table : list (string * nat) :=
  [("||", 1); ("&&", 2); ("<", 3); ("<=", 3); (">", 3); (">=", 3); ("!=", 3); ("==", 3); ("in", 3); ("has", 3); ("like", 3); ("is", 3);
   ("+", 4); ("-", 4); ("*", 5); (".", 7); ("[", 7); ("(", 9); ("::", 9)]%string.

Definition contx (text : str) : nat :=
  match find (fun e => str_eqb (s_of (fst e)) text) cont_table with Some e => snd e | None => 0 end.
Definition cont (t : token) : nat := contx (t_text t).

Lemma cont_tx : forall t s, tx t s = true -> cont t = contx (s_of s).
Proof. intros t s H. unfold cont. rewrite (tx_eq _ _ H). reflexivity. Qed.

Lemma stop_cont : forall t, stop_tok t = true -> cont t = 0.
Proof.
  intros t H. unfold stop_tok in H. apply negb_true_iff in H.
  unfold cont, contx, cont_table. cbn [existsb] in H. unfold tx in H.
  cbn [find fst snd].
  repeat (apply orb_false_iff in H; destruct H as [H0 H]; rewrite H0; clear H0).
  reflexivity.
Qed.

Lemma tx_low : forall t s n, cont t < n -> Nat.leb n (contx (s_of s)) = true -> tx t s = false.
Proof.
  intros t s n H Hn. destruct (tx t s) eqn:E; [|reflexivity]. apply cont_tx in E. apply Nat.leb_le in Hn. lia.
Qed.

(* tx t s = false from a bound on cont t in the context *)
Ltac txf :=
  match goal with
  | |- tx ?t ?s = false =>
    let n := eval vm_compute in (contx (s_of s)) in apply (tx_low t s n); [lia | reflexivity]
  end.

(* cont of a closed token *)
Ltac contc :=
  cbn [peek];
  repeat match goal with
         | |- context [cont ?t] => let n := eval vm_compute in (cont t) in
                                   lazymatch n with 0%nat => idtac | S _ => idtac end; change (cont t) with n
         end;
  lia.

(* "with enough fuel, P returns POk v r" *)
Definition Ev {A : Type} (P : nat -> pres A) (v : A) (r : list token) : Prop :=
  exists f0 : nat, forall f : nat, f0 <= f -> P f = POk v r.

Lemma ev_ret : forall (A : Type) (v : A) r, Ev (fun _ => POk v r) v r.
Proof. intros A v r. exists 0. intros f _. reflexivity. Qed.

Lemma ev_det : forall (A : Type) (P : nat -> pres A) v r v' r', Ev P v r -> Ev P v' r' -> v = v' /\ r = r'.
Proof.
  intros A P v r v' r' [f1 H1] [f2 H2].
  specialize (H1 (f1 + f2) ltac:(lia)). specialize (H2 (f1 + f2) ltac:(lia)).
  rewrite H1 in H2. inversion H2. split; reflexivity.
Qed.

Lemma ev_ret_inv : forall (A : Type) (v w : A) r r', Ev (fun _ => POk v r) w r' -> v = w /\ r = r'.
Proof. intros A v w r r' H. apply (ev_det _ (fun _ => POk v r)); [apply ev_ret | exact H]. Qed.

Lemma ev_ext : forall (A : Type) (P Q : nat -> pres A) v r, (forall f, P f = Q f) -> Ev P v r -> Ev Q v r.
Proof. intros A P Q v r H [f0 H0]. exists f0. intros f Hf. rewrite <- H. apply H0. exact Hf. Qed.

(* open all Ev hypotheses, choose a fuel above all of them plus one, and expose one constructor of the fuel *)
Ltac ev_go :=
  let rec collect acc :=
    lazymatch goal with
    | H : Ev _ _ _ |- _ => let f := fresh "f0" in destruct H as [f H]; collect (acc + f)%nat
    | _ => exists (S acc)
    end in
  collect 0%nat;
  let f := fresh "f" in let Hf := fresh "Hf" in
  intros f Hf; destruct f as [|f]; [exfalso; lia|].

Ltac tx_eval :=
  repeat match goal with
         | |- context [tx ?t ?k] =>
           let b := eval vm_compute in (tx t k) in
           lazymatch b with true => idtac | false => idtac end;
           change (tx t k) with b
         end.

Lemma is_int_Id s : is_int (Id s) = false. Proof. reflexivity. Qed.
Lemma is_string_Id s : is_string (Id s) = false. Proof. reflexivity. Qed.
Lemma is_ident_Id s : is_ident (Id s) = true. Proof. reflexivity. Qed.
Lemma t_text_Id s : t_text (Id s) = s. Proof. reflexivity. Qed.
Lemma is_int_St s : is_int (St s) = false. Proof. reflexivity. Qed.
Lemma is_string_St s : is_string (St s) = true. Proof. reflexivity. Qed.
Lemma is_ident_St s : is_ident (St s) = false. Proof. reflexivity. Qed.
Lemma t_text_St s : t_text (St s) = s. Proof. reflexivity. Qed.
Lemma is_int_Nt s : is_int (Nt s) = true. Proof. reflexivity. Qed.
Lemma is_string_Nt s : is_string (Nt s) = false. Proof. reflexivity. Qed.
Lemma is_ident_Nt s : is_ident (Nt s) = false. Proof. reflexivity. Qed.
Lemma t_text_Nt s : t_text (Nt s) = s. Proof. reflexivity. Qed.
Lemma is_int_O s : is_int (O s) = false. Proof. reflexivity. Qed.
Lemma is_string_O s : is_string (O s) = false. Proof. reflexivity. Qed.
Lemma is_ident_O s : is_ident (O s) = false. Proof. reflexivity. Qed.
Lemma is_int_K s : is_int (K s) = false. Proof. reflexivity. Qed.
Lemma is_string_K s : is_string (K s) = false. Proof. reflexivity. Qed.
Lemma is_ident_K s : is_ident (K s) = false. Proof. reflexivity. Qed.
Lemma is_int_I s : is_int (I s) = false. Proof. reflexivity. Qed.
Lemma is_string_I s : is_string (I s) = false. Proof. reflexivity. Qed.
Lemma is_ident_I s : is_ident (I s) = true. Proof. reflexivity. Qed.
Lemma t_text_I s : t_text (I s) = s_of s. Proof. reflexivity. Qed.
#[export] Hint Rewrite is_int_Id is_string_Id is_ident_Id t_text_Id is_int_St is_string_St is_ident_St t_text_St
  is_int_Nt is_string_Nt is_ident_Nt t_text_Nt is_int_O is_string_O is_ident_O is_int_K is_string_K is_ident_K
  is_int_I is_string_I is_ident_I t_text_I : tokty.

Ltac tok_eval := cbv zeta; cbn [peek]; tx_eval; autorewrite with tokty; cbn [negb orb andb].

(* the relation tail and the unary tail as functions of their own, so that rules can be stated about them *)
Definition rel_tail (f : nat) (lhs : expr) (r : list token) : pres expr :=
  let t := peek r in
  if tx t "has" then
    let r1 := adv r in
    let t1 := peek r1 in
    if is_ident t1 then p_has_chain f (EHas lhs (t_text t1)) (EAccess lhs (t_text t1)) (adv r1)
    else if is_string t1 then match string_value (t_text t1) with Some s => POk (EHas lhs s) (adv r1) | None => PErr end
    else PErr
  else if tx t "like" then
    let r1 := adv r in
    let t1 := peek r1 in
    if is_string t1 then match parse_pattern (trim_quotes (t_text t1)) with Some p => POk (ELike lhs p) (adv r1) | None => PErr end
    else PErr
  else if tx t "is" then
    match p_path f (adv r) with
    | POk ty r2 =>
      if tx (peek r2) "in" then
        match p_add f (adv r2) with POk b r3 => POk (EIsIn lhs ty b) r3 | PErr => PErr | PFuel => PFuel end
      else POk (EIs lhs ty) r2
    | PErr => PErr | PFuel => PFuel
    end
  else match relop t with
       | Some op => match p_add f (adv r) with POk rhs r2 => POk (op lhs rhs) r2 | PErr => PErr | PFuel => PFuel end
       | None => POk lhs r
       end.

(* p_relation_S and p_unary_S of ParserFuel with the tail named *)
Lemma p_relation_tail : forall f ts,
  p_relation (S f) ts = match p_add f ts with POk lhs r => rel_tail f lhs r | PErr => PErr | PFuel => PFuel end.
Proof. reflexivity. Qed.

Definition unary_tail (f : nat) (ops : list bool) (r : list token) : pres expr :=
  let tok := peek r in
  match rev ops with
  | true :: ops_rev' =>
    if is_int tok then
      match int_value true (t_text tok) with
      | Some i => POk (apply_ops (rev ops_rev') (ELit (VLong i))) (adv r)
      | None => PErr
      end
    else match p_member f r with POk e r2 => POk (apply_ops ops e) r2 | PErr => PErr | PFuel => PFuel end
  | _ => match p_member f r with POk e r2 => POk (apply_ops ops e) r2 | PErr => PErr | PFuel => PFuel end
  end.

Lemma p_unary_tail : forall f ts,
  p_unary (S f) ts = match unary_ops (S (List.length ts)) ts [] with None => PFuel | Some (ops, r) => unary_tail f ops r end.
Proof. reflexivity. Qed.

Lemma p_unary_prefix : forall f ts, has_non_op ts = true ->
  p_unary (S f) ts = unary_tail f (fst (ops_prefix ts)) (snd (ops_prefix ts)).
Proof.
  intros f ts H. rewrite p_unary_tail.
  rewrite (unary_ops_result ts [] (S (List.length ts))); [reflexivity | lia | right; exact H].
Qed.

(* The parser of level L and its loop.  The levels are Impl/Printer.v's prec_n (lev e = prec_n (prec_of e)): 0 if, 1 or, 2 and,
   3 relation, 4 add, 5 mult, 6 unary, 7 member access, 8 primary. *)
Definition PL (L : nat) : nat -> list token -> pres expr :=
  match L with
  | 0 => p_expression | 1 => p_or | 2 => p_and | 3 => p_relation | 4 => p_add | 5 => p_mult | 6 => p_unary | 7 => p_member
  | _ => p_primary
  end.
Definition LoopL (L : nat) : nat -> expr -> list token -> pres expr :=
  match L with
  | 1 => p_or_loop | 2 => p_and_loop | 3 => rel_tail | 4 => p_add_loop | 5 => p_mult_loop | 7 => p_access_loop
  | _ => fun _ v r => POk v r
  end.
Definition bnd (L : nat) : nat := match L with 3 => 2 | _ => L end.

Definition Beh (L : nat) (X : list token) (v : expr) : Prop :=
  forall R w r, R <> [] -> cont (peek R) <= bnd L ->
    Ev (fun g => LoopL L g v R) w r -> Ev (fun f => PL L f (X ++ R)) w r.

(* a loop stops at a token of lower class: every token it tests for has class L *)
Lemma loop_stop : forall L v R, cont (peek R) < L \/ L = 0 -> Ev (fun g => LoopL L g v R) v R.
Proof.
  intros L v R H.
  destruct L as [|[|[|[|[|[|[|[|L]]]]]]]]; cbn [LoopL]; try apply ev_ret; (destruct H as [H|H]; [|discriminate H]);
    exists 1; intros [|f] Hf; try lia;
    rewrite ?p_or_loop_S, ?p_and_loop_S, ?p_add_loop_S, ?p_mult_loop_S, ?p_access_loop_S; unfold rel_tail, relop; cbv zeta;
    rewrite !(tx_low _ _ _ H) by reflexivity; reflexivity.
Qed.

(* one level down: p_L = p_{L+1} followed by the level-L loop *)
Lemma ev_level : forall L ts v R w r, L <= 7 ->
  (L = 0 -> tx (peek ts) "if" = false) ->
  (L = 6 -> is_op (peek ts) = false) ->
  Ev (fun f => PL (S L) f ts) v R -> Ev (fun g => LoopL L g v R) w r -> Ev (fun f => PL L f ts) w r.
Proof.
  intros L ts v R w r HL Hif Hop H1 H2.
  destruct L as [|[|[|[|[|[|[|[|L]]]]]]]]; [| | | | | | | |lia]; cbn [PL LoopL] in *.
  (* the levels with a loop: p_L calls p_{L+1} and hands over to the loop *)
  all: try (ev_go; rewrite ?p_or_S, ?p_and_S, ?p_relation_tail, ?p_add_S, ?p_mult_S, ?p_member_S; rewrite H1 by lia; apply H2; lia).
  - apply ev_ret_inv in H2. destruct H2 as [-> ->]. destruct H1 as [f1 H1].
    exists (S f1). intros f Hf. destruct f as [|f]; [lia|]. rewrite p_expression_S.
    rewrite (Hif eq_refl). apply H1. lia.
  - apply ev_ret_inv in H2. destruct H2 as [-> ->]. destruct H1 as [f1 H1].
    exists (S f1). intros f Hf. destruct f as [|f]; [lia|]. rewrite p_unary_tail.
    specialize (Hop eq_refl). unfold is_op in Hop. apply orb_false_iff in Hop. destruct Hop as [Hm Hb].
    cbn [unary_ops]. cbv zeta. rewrite Hm, Hb. unfold unary_tail. cbn [rev]. rewrite H1 by lia. reflexivity.
Qed.

(* behaviour at a level gives behaviour at every lower level: the loops in between stop at once *)
Lemma lift : forall L' L X h tl v, L <= L' -> L' <= 8 -> X = h :: tl ->
  (L = 0 -> L < L' -> tx h "if" = false) -> (L <= 6 -> 6 < L' -> is_op h = false) ->
  Beh L' X v -> Beh L X v.
Proof.
  intros L' L X h tl v HL. induction HL as [|L' HL IH]; intros H8 -> Hif Hop HB; [exact HB|].
  apply IH; [lia | reflexivity | intros; apply Hif; lia | intros; apply Hop; lia |].
  intros R w r HR Hc Hloop.
  assert (Hb : bnd L' <= L' /\ L' <= bnd (S L')) by (destruct L' as [|[|[|[|L']]]]; cbn [bnd]; lia).
  eapply ev_level; [lia | intros ->; apply Hif; lia | intros ->; apply Hop; lia | | exact Hloop].
  apply HB; [exact HR | lia |]. apply loop_stop. left. lia.
Qed.

Lemma beh_val : forall L X v R, Beh L X v -> R <> [] -> cont (peek R) <= bnd L ->
  (cont (peek R) < L \/ L = 0 \/ L = 6 \/ 8 <= L) -> Ev (fun f => PL L f (X ++ R)) v R.
Proof.
  intros L X v R HB HR Hc Hs. apply HB; [exact HR | exact Hc |].
  destruct Hs as [Hs|[Hs|[Hs|Hs]]].
  - apply loop_stop. left. exact Hs.
  - apply loop_stop. right. exact Hs.
  - subst L. apply ev_ret.
  - do 8 (destruct L as [|L]; [lia|]). apply ev_ret.
Qed.

(* at the levels whose "loop" is no loop, behaviour is the value form *)
Lemma beh_of_val : forall L X v, (L = 0 \/ L = 3 \/ L = 6 \/ 8 <= L) ->
  (forall R, R <> [] -> cont (peek R) <= bnd L -> Ev (fun f => PL L f (X ++ R)) v R) -> Beh L X v.
Proof.
  intros L X v HL H R w r HR Hc Hloop.
  assert (Hst : Ev (fun g => LoopL L g v R) v R).
  { destruct HL as [HL|[HL|[HL|HL]]].
    - apply loop_stop. right. exact HL.
    - subst L. apply loop_stop. left. cbn [bnd] in Hc. lia.
    - subst L. apply ev_ret.
    - do 8 (destruct L as [|L]; [lia|]). apply ev_ret. }
  destruct (ev_det _ _ _ _ _ _ Hst Hloop) as [<- <-]. apply H; assumption.
Qed.

Lemma ev_expression_if : forall l c r1 r2 a r3 r4 b r5, l <> [] ->
  Ev (fun f => p_expression f l) c r1 -> exact r1 "then" = Some r2 ->
  Ev (fun f => p_expression f r2) a r3 -> exact r3 "else" = Some r4 ->
  Ev (fun f => p_expression f r4) b r5 ->
  Ev (fun f => p_expression f (K "if" :: l)) (EIf c a b) r5.
Proof.
  intros l c r1 r2 a r3 r4 b r5 Hl H1 E1 H2 E2 H3. ev_go.
  rewrite p_expression_S. tok_eval. rewrite adv_cons by exact Hl.
  rewrite H1 by lia. rewrite E1. rewrite H2 by lia. rewrite E2. rewrite H3 by lia. reflexivity.
Qed.

(* the left-associative levels: which constructor the operator token t stands for at level L *)
Definition binop_at (L : nat) (t : token) : option (expr -> expr -> expr) :=
  match L with
  | 1 => if tx t "||" then Some EOr else None
  | 2 => if tx t "&&" then Some EAnd else None
  | 4 => if tx t "+" then Some EAdd else if tx t "-" then Some ESub else None
  | 5 => if tx t "*" then Some EMul else None
  | _ => None
  end.

Lemma ev_binop_loop : forall L t mk l rhs r1 lhs w r, binop_at L t = Some mk -> l <> [] ->
  Ev (fun f => PL (S L) f l) rhs r1 -> Ev (fun f => LoopL L f (mk lhs rhs) r1) w r ->
  Ev (fun f => LoopL L f lhs (t :: l)) w r.
Proof.
  intros L t mk l rhs r1 lhs w r Hb Hl H1 H2.
  destruct L as [|[|[|[|[|[|L]]]]]]; try discriminate Hb; cbn [binop_at PL LoopL] in *; ev_go;
    rewrite ?p_or_loop_S, ?p_and_loop_S, ?p_add_loop_S, ?p_mult_loop_S; cbv zeta; cbn [peek];
    repeat (destruct (tx t _); [injection Hb as <-; rewrite adv_cons by exact Hl; rewrite H1 by lia; apply H2; lia|]);
    discriminate Hb.
Qed.

Lemma ev_rel_op : forall t l opf lhs rhs r2,
  relop t = Some opf -> tx t "has" = false -> tx t "like" = false -> tx t "is" = false -> l <> [] ->
  Ev (fun f => p_add f l) rhs r2 -> Ev (fun f => rel_tail f lhs (t :: l)) (opf lhs rhs) r2.
Proof.
  intros t l opf lhs rhs r2 Hop H1 H2 H3 Hl H. ev_go. unfold rel_tail. cbv zeta. cbn [peek].
  rewrite H1, H2, H3, Hop. rewrite adv_cons by exact Hl. rewrite H by lia. reflexivity.
Qed.

Lemma ev_rel_has_ident : forall k R lhs, R <> [] -> tx (peek R) "." = false ->
  Ev (fun f => rel_tail f lhs (K "has" :: Id k :: R)) (EHas lhs k) R.
Proof.
  intros k R lhs HR Hdot. ev_go.
  unfold rel_tail. tok_eval. rewrite adv_cons by ne. tok_eval. rewrite adv_cons by exact HR.
  rewrite p_has_chain_S. rewrite Hdot. reflexivity.
Qed.

Lemma ev_rel_has_str : forall s k R lhs, string_value s = Some k -> R <> [] ->
  Ev (fun f => rel_tail f lhs (K "has" :: St s :: R)) (EHas lhs k) R.
Proof.
  intros s k R lhs Hs HR. exists 0. intros f Hf.
  unfold rel_tail. tok_eval. rewrite adv_cons by ne. tok_eval. rewrite adv_cons by exact HR.
  rewrite Hs. reflexivity.
Qed.

Lemma ev_rel_like : forall s p R lhs, parse_pattern (trim_quotes s) = Some p -> R <> [] ->
  Ev (fun f => rel_tail f lhs (K "like" :: St s :: R)) (ELike lhs p) R.
Proof.
  intros s p R lhs Hs HR. exists 0. intros f Hf.
  unfold rel_tail. tok_eval. rewrite adv_cons by ne. tok_eval. rewrite adv_cons by exact HR.
  rewrite Hs. reflexivity.
Qed.

Lemma ev_rel_is : forall l ty r2 lhs, l <> [] -> Ev (fun f => p_path f l) ty r2 -> tx (peek r2) "in" = false ->
  Ev (fun f => rel_tail f lhs (K "is" :: l)) (EIs lhs ty) r2.
Proof.
  intros l ty r2 lhs Hl H Hin. destruct H as [f0 H]. exists f0. intros f Hf.
  unfold rel_tail. tok_eval. rewrite adv_cons by exact Hl. rewrite H by lia. rewrite Hin. reflexivity.
Qed.

Lemma ev_rel_isin : forall l ty l2 b r3 lhs, l <> [] -> Ev (fun f => p_path f l) ty (K "in" :: l2) -> l2 <> [] ->
  Ev (fun f => p_add f l2) b r3 ->
  Ev (fun f => rel_tail f lhs (K "is" :: l)) (EIsIn lhs ty b) r3.
Proof.
  intros l ty l2 b r3 lhs Hl H Hl2 H2. destruct H as [f0 H]. destruct H2 as [f1 H2]. exists (f0 + f1). intros f Hf.
  unfold rel_tail. tok_eval. rewrite adv_cons by exact Hl. rewrite H by lia. tok_eval.
  rewrite adv_cons by exact Hl2. rewrite H2 by lia. reflexivity.
Qed.

Lemma ev_access_field : forall k R lhs w r, R <> [] -> tx (peek R) "(" = false ->
  Ev (fun f => p_access_loop f (EAccess lhs k) R) w r ->
  Ev (fun f => p_access_loop f lhs (O "." :: Id k :: R)) w r.
Proof.
  intros k R lhs w r HR Hp H. ev_go. rewrite p_access_loop_S. tok_eval.
  rewrite adv_cons by ne. tok_eval. rewrite adv_cons by exact HR. rewrite Hp. apply H. lia.
Qed.

Lemma ev_access_index : forall s k R lhs w r, string_value s = Some k -> R <> [] ->
  Ev (fun f => p_access_loop f (EAccess lhs k) R) w r ->
  Ev (fun f => p_access_loop f lhs (O "[" :: St s :: O "]" :: R)) w r.
Proof.
  intros s k R lhs w r Hs HR H. ev_go. rewrite p_access_loop_S. tok_eval.
  rewrite adv_cons by ne. tok_eval. rewrite Hs. rewrite adv_cons by ne.
  rewrite exact_cons by (reflexivity || exact HR). apply H. lia.
Qed.

Lemma ev_access_method : forall n l args R e lhs w r, l <> [] ->
  Ev (fun f => p_expressions f ")" l []) args (O ")" :: R) -> R <> [] ->
  method_call n lhs args = Some e ->
  Ev (fun f => p_access_loop f e R) w r ->
  Ev (fun f => p_access_loop f lhs (O "." :: Id n :: O "(" :: l)) w r.
Proof.
  intros n l args R e lhs w r Hl H1 HR Hm H2. ev_go. rewrite p_access_loop_S. tok_eval.
  rewrite adv_cons by ne. tok_eval. rewrite adv_cons by ne. tok_eval. rewrite adv_cons by exact Hl.
  rewrite H1 by lia. rewrite Hm. rewrite adv_cons by exact HR. apply H2. lia.
Qed.

Lemma ev_primary_int : forall s z R, int_value false s = Some z -> R <> [] ->
  Ev (fun f => p_primary f (Nt s :: R)) (ELit (VLong z)) R.
Proof.
  intros s z R Hs HR. ev_go.
  rewrite p_primary_S. tok_eval. rewrite Hs, adv_cons by exact HR. reflexivity.
Qed.

Lemma ev_primary_str : forall s k R, string_value s = Some k -> R <> [] ->
  Ev (fun f => p_primary f (St s :: R)) (ELit (VString k)) R.
Proof.
  intros s k R Hs HR. ev_go.
  rewrite p_primary_S. tok_eval. rewrite Hs, adv_cons by exact HR. reflexivity.
Qed.

Lemma ev_primary_bool : forall (b : bool) R, R <> [] ->
  Ev (fun f => p_primary f (K (if b then "true" else "false")%string :: R)) (ELit (VBool b)) R.
Proof.
  intros b R HR. ev_go.
  rewrite p_primary_S. destruct b; tok_eval; rewrite adv_cons by exact HR; reflexivity.
Qed.

Definition var_tok (x : var) : token :=
  match x with VPrincipal => I "principal" | VAction => I "action" | VResource => I "resource" | VContext => I "context" end.

Lemma ev_primary_var : forall x R, R <> [] -> tx (peek R) "::" = false -> tx (peek R) "(" = false ->
  Ev (fun f => p_primary f (var_tok x :: R)) (EVar x) R.
Proof.
  intros x R HR H1 H2. ev_go.
  rewrite p_primary_S. destruct x; cbn [var_tok]; tok_eval; rewrite adv_cons by exact HR; rewrite H1, H2; reflexivity.
Qed.

Lemma ev_primary_ident : forall s R w r, tx (Id s) "true" = false -> tx (Id s) "false" = false ->
  tx (peek R) "::" || tx (peek R) "(" = true -> R <> [] ->
  Ev (fun f => p_entity_or_extfun f s R) w r -> Ev (fun f => p_primary f (Id s :: R)) w r.
Proof.
  intros s R w r H1 H2 H3 HR H. ev_go. rewrite p_primary_S. tok_eval.
  rewrite H1, H2. rewrite adv_cons by exact HR. rewrite H3. apply H. lia.
Qed.

Lemma ev_primary_paren : forall l e r1 r2, l <> [] -> Ev (fun f => p_expression f l) e r1 -> exact r1 ")" = Some r2 ->
  Ev (fun f => p_primary f (O "(" :: l)) e r2.
Proof.
  intros l e r1 r2 Hl H E. ev_go. rewrite p_primary_S. tok_eval. rewrite adv_cons by exact Hl.
  rewrite H by lia. rewrite E. reflexivity.
Qed.

Lemma ev_primary_set : forall l es R, l <> [] -> Ev (fun f => p_expressions f "]" l []) es (O "]" :: R) -> R <> [] ->
  Ev (fun f => p_primary f (O "[" :: l)) (ESet es) R.
Proof.
  intros l es R Hl H HR. ev_go. rewrite p_primary_S. tok_eval. rewrite adv_cons by exact Hl.
  rewrite H by lia. rewrite adv_cons by exact HR. reflexivity.
Qed.

Lemma ev_primary_record : forall l w r, l <> [] -> Ev (fun f => p_record f l []) w r ->
  Ev (fun f => p_primary f (O "{" :: l)) w r.
Proof.
  intros l w r Hl H. ev_go. rewrite p_primary_S. tok_eval. rewrite adv_cons by exact Hl. apply H. lia.
Qed.

Lemma ev_eoe_call : forall pre l args R ar, ext_lookup pre = Some (ar, false) -> l <> [] ->
  Ev (fun f => p_expressions f ")" l []) args (O ")" :: R) -> R <> [] ->
  Ev (fun f => p_entity_or_extfun f pre (O "(" :: l)) (ECall pre args) R.
Proof.
  intros pre l args R ar He Hl H HR. ev_go. rewrite p_entity_or_extfun_S. tok_eval. rewrite He.
  rewrite adv_cons by exact Hl. rewrite H by lia. rewrite adv_cons by exact HR. reflexivity.
Qed.

(* after an item of a comma-separated list: a comma is consumed, the closing token is left for the next round *)
Definition after_item (close : string) (r : list token) : option (list token) :=
  if tx (peek r) "," then Some (adv r) else if tx (peek r) close then Some r else None.

Lemma ev_exprs_item : forall close ts e r1 r2 acc w r, tx (peek ts) close = false ->
  Ev (fun f => p_expression f ts) e r1 -> after_item close r1 = Some r2 ->
  Ev (fun f => p_expressions f close r2 (acc ++ [e])) w r ->
  Ev (fun f => p_expressions f close ts acc) w r.
Proof.
  intros close ts e r1 r2 acc w r Hc H1 Ha H2. ev_go. rewrite p_expressions_S, Hc. rewrite H1 by lia. unfold after_item in Ha.
  destruct (tx (peek r1) ","); [|destruct (tx (peek r1) close); [|discriminate Ha]]; injection Ha as <-; apply H2; lia.
Qed.

Lemma ev_record_item : forall s k l v r1 r2 acc w r, tx (St s) "}" = false -> string_value s = Some k -> l <> [] ->
  Ev (fun f => p_expression f l) v r1 -> key_mem k acc = false -> after_item "}" r1 = Some r2 ->
  Ev (fun f => p_record f r2 (acc ++ [(k, v)])) w r ->
  Ev (fun f => p_record f (St s :: O ":" :: l) acc) w r.
Proof.
  intros s k l v r1 r2 acc w r Hb Hs Hl H1 Hk Ha H2. ev_go. rewrite p_record_S. cbv zeta. cbn [peek]. rewrite Hb.
  autorewrite with tokty. rewrite Hs. rewrite adv_cons by ne. rewrite exact_cons by (reflexivity || exact Hl).
  rewrite H1 by lia. rewrite Hk. unfold after_item in Ha.
  destruct (tx (peek r1) ","); [|destruct (tx (peek r1) "}"); [|discriminate Ha]]; injection Ha as <-; apply H2; lia.
Qed.

Lemma ev_utail_member : forall ops r e r2,
  (forall ops', rev ops = true :: ops' -> is_int (peek r) = false) ->
  Ev (fun f => p_member f r) e r2 -> Ev (fun f => unary_tail f ops r) (apply_ops ops e) r2.
Proof.
  intros ops r e r2 Hc H. destruct H as [f0 H]. exists f0. intros f Hf. unfold unary_tail. cbv zeta.
  destruct (rev ops) as [|[|] ops'] eqn:E.
  - rewrite H by lia. reflexivity.
  - rewrite (Hc ops' eq_refl). rewrite H by lia. reflexivity.
  - rewrite H by lia. reflexivity.
Qed.

Lemma ev_utail_lit : forall pre s z R, int_value true s = Some z -> R <> [] ->
  Ev (fun f => unary_tail f (pre ++ [true]) (Nt s :: R)) (apply_ops pre (ELit (VLong z))) R.
Proof.
  intros pre s z R Hs HR. exists 0. intros f Hf. unfold unary_tail. cbv zeta. rewrite rev_app_distr. cbn [rev app].
  cbn [peek]. autorewrite with tokty. rewrite Hs. rewrite rev_involutive. rewrite adv_cons by exact HR. reflexivity.
Qed.

Lemma split_path_acc_cons : forall c r cur,
  split_path_acc (c :: r) cur =
  if (c =? 58)%Z then
    match r with
    | c2 :: r' => if (c2 =? 58)%Z then cur :: split_path_acc r' [] else split_path_acc r (cur ++ [c])
    | [] => split_path_acc r (cur ++ [c])
    end
  else split_path_acc r (cur ++ [c]).
Proof.
  intros c r cur. cbn [split_path_acc].
  destruct c as [|p|p]; try reflexivity.
  do 6 (destruct p as [p|p|]; try reflexivity).
  destruct r as [|c2 r']; [reflexivity|].
  destruct c2 as [|p|p]; try reflexivity.
  do 6 (destruct p as [p|p|]; try reflexivity).
Qed.

Lemma split_path_acc_ne : forall s cur, split_path_acc s cur <> [].
Proof.
  assert (H : forall s, (forall cur, split_path_acc s cur <> []) /\ (forall c cur, split_path_acc (c :: s) cur <> [])).
  { induction s as [|c s [IH1 IH2]].
    - split; [intros cur; discriminate|]. intros c cur. rewrite split_path_acc_cons. destruct (c =? 58)%Z; discriminate.
    - split; [intros cur; apply IH2|]. intros c' cur. rewrite split_path_acc_cons.
      destruct (c' =? 58)%Z; [|apply IH2]. destruct (c =? 58)%Z; [discriminate | apply IH2]. }
  intros s. apply H.
Qed.

Fixpoint join_path (cs : list str) : str :=
  match cs with
  | [] => []
  | c :: r => match r with [] => c | _ => c ++ path_sep ++ join_path r end
  end.

Lemma join_split_acc : forall s cur, join_path (split_path_acc s cur) = cur ++ s.
Proof.
  assert (H : forall s, (forall cur, join_path (split_path_acc s cur) = cur ++ s) /\
                        (forall c cur, join_path (split_path_acc (c :: s) cur) = cur ++ c :: s)).
  { induction s as [|c s [IH1 IH2]].
    - split; [intros cur; cbn; rewrite app_nil_r; reflexivity|]. intros c cur. rewrite split_path_acc_cons.
      destruct (c =? 58)%Z; reflexivity.
    - split; [intros cur; apply IH2|]. intros c' cur. rewrite split_path_acc_cons.
      destruct (Z.eqb_spec c' 58) as [->|N1].
      + destruct (Z.eqb_spec c 58) as [->|N2].
        * cbn [join_path]. destruct (split_path_acc s []) eqn:E; [exfalso; exact (split_path_acc_ne s [] E)|].
          rewrite <- E. rewrite IH1. reflexivity.
        * rewrite IH2. rewrite <- app_assoc. reflexivity.
      + rewrite IH2. rewrite <- app_assoc. reflexivity. }
  intros s. apply H.
Qed.

Lemma join_split : forall ty, join_path (split_path ty) = ty.
Proof. intros ty. unfold split_path. apply join_split_acc. Qed.

Lemma split_path_plain : forall s cur, Forall (fun c => c <> 58%Z) s -> split_path_acc s cur = [cur ++ s].
Proof.
  induction s as [|c s IH]; intros cur H.
  - cbn. rewrite app_nil_r. reflexivity.
  - inversion H as [|c' s' Hc Hs]; subst. rewrite split_path_acc_cons.
    destruct (Z.eqb_spec c 58) as [E|N]; [contradiction|]. rewrite IH by exact Hs. rewrite <- app_assoc. reflexivity.
Qed.

Definition jf (a c : str) : str := a ++ path_sep ++ c.

Lemma fold_jf_pre : forall r pre a, fold_left jf r (pre ++ a) = pre ++ fold_left jf r a.
Proof.
  induction r as [|c r IH]; intros pre a; [reflexivity|].
  cbn [fold_left]. unfold jf at 2 4. rewrite <- app_assoc. apply IH.
Qed.

Lemma fold_jf_join : forall r c, fold_left jf r c = join_path (c :: r).
Proof.
  induction r as [|c2 r IH]; intros c; [reflexivity|].
  cbn [fold_left]. change (jf c c2) with (c ++ (path_sep ++ c2)). rewrite !fold_jf_pre. rewrite IH. reflexivity.
Qed.

Fixpoint sep_toks (cs : list str) : list token :=
  match cs with [] => [] | c :: r => O "::" :: Id c :: sep_toks r end.

Lemma toks_path_items_of : forall r c, toks_of (path_items_of (c :: r)) = Id c :: sep_toks r.
Proof.
  induction r as [|c2 r IH]; intros c; [reflexivity|].
  change (path_items_of (c :: c2 :: r)) with (T TIdent c :: op "::" :: path_items_of (c2 :: r)).
  rewrite toks_of_T, toks_of_op, IH. reflexivity.
Qed.

Lemma ev_path_rest : forall r acc R, R <> [] -> tx (peek R) "::" = false ->
  Ev (fun f => path_rest f acc (sep_toks r ++ R)) (fold_left jf r acc) R.
Proof.
  induction r as [|c r IH]; intros acc R HR Hc.
  - ev_go. cbn [sep_toks app path_rest fold_left]. rewrite Hc. reflexivity.
  - destruct (IH (jf acc c) R HR Hc) as [f0 H]. exists (S f0). intros f Hf. destruct f as [|f]; [lia|].
    cbn [sep_toks app path_rest fold_left]. tok_eval. rewrite adv_cons by ne. tok_eval. rewrite adv_cons by ne.
    apply H. lia.
Qed.

Lemma ev_eoe_path : forall r pre s id R, string_value s = Some id -> R <> [] ->
  Ev (fun f => p_entity_or_extfun f pre (sep_toks r ++ O "::" :: St s :: R)) (ELit (VEntity (fold_left jf r pre) id)) R.
Proof.
  induction r as [|c r IH]; intros pre s id R Hs HR.
  - cbn [sep_toks app fold_left]. ev_go. rewrite p_entity_or_extfun_S. tok_eval. rewrite adv_cons by ne. tok_eval.
    rewrite Hs. rewrite adv_cons by exact HR. reflexivity.
  - cbn [sep_toks app fold_left]. pose proof (IH (jf pre c) s id R Hs HR) as H. ev_go.
    rewrite p_entity_or_extfun_S. tok_eval. rewrite adv_cons by ne. tok_eval. rewrite adv_cons by ne. apply H. lia.
Qed.

Lemma can_ident_inv : forall s, can_ident s = true ->
  exists c r, s = c :: r /\ is_reserved s = false /\ is_ident_rune c true = true /\ forallb (fun x => is_ident_rune x false) r = true.
Proof.
  intros s H. destruct s as [|c r]; [discriminate|]. cbn [can_ident] in H.
  apply andb_true_iff in H. destruct H as [H H3]. apply andb_true_iff in H. destruct H as [H1 H2].
  apply negb_true_iff in H1. exists c, r. repeat split; assumption.
Qed.

Lemma ident_rune_not_colon : forall c b, is_ident_rune c b = true -> c <> 58%Z.
Proof.
  intros c b H E. subst c. destruct b; discriminate H.
Qed.

Lemma can_ident_no_colon : forall s, can_ident s = true -> Forall (fun c => c <> 58%Z) s.
Proof.
  intros s H. destruct (can_ident_inv s H) as (c & r & -> & _ & Hc & Hr).
  constructor; [eapply ident_rune_not_colon; exact Hc|].
  rewrite forallb_forall in Hr. apply Forall_forall. intros x Hx. eapply ident_rune_not_colon. apply Hr. exact Hx.
Qed.

Lemma split_path_ident : forall s, can_ident s = true -> split_path s = [s].
Proof. intros s H. unfold split_path. rewrite split_path_plain by (apply can_ident_no_colon; exact H). reflexivity. Qed.

(* an identifier token is none of the fixed tokens the parser tests for, unless that token is itself an
   identifier-shaped non-reserved word *)
Lemma tx_ident_first : forall s k, can_ident s = true ->
  match s_of k with c0 :: _ => is_ident_rune c0 true | [] => false end = false -> tx (Id s) k = false.
Proof.
  intros s k H Hk. destruct (can_ident_inv s H) as (c & r & -> & _ & Hc1 & _).
  unfold tx. rewrite t_text_Id. destruct (s_of k) as [|c0 k']; [reflexivity|]. cbn [str_eqb].
  destruct (Z.eqb_spec c0 c) as [->|N]; [congruence | reflexivity].
Qed.

Lemma tx_ident_reserved : forall s k, can_ident s = true -> is_reserved (s_of k) = true -> tx (Id s) k = false.
Proof.
  intros s k H Hk. destruct (can_ident_inv s H) as (c & r & E & Hr & _ & _).
  unfold tx. rewrite t_text_Id. destruct (str_eqb (s_of k) s) eqn:Eq; [|reflexivity].
  apply str_eqb_eq in Eq. rewrite Eq in Hk. congruence.
Qed.

Lemma tx_string_tok : forall b k c0 k', s_of k = c0 :: k' -> c0 <> 34%Z -> tx (St (34%Z :: b)) k = false.
Proof.
  intros b k c0 k' Hk Hc. unfold tx. rewrite t_text_St, Hk. cbn [str_eqb].
  destruct (Z.eqb_spec c0 34) as [->|N]; [congruence | reflexivity].
Qed.

Lemma tx_nat_tok : forall z k, match s_of k with c0 :: _ => is_digit c0 | [] => false end = false -> tx (Nt (print_nat z)) k = false.
Proof.
  intros z k Hk. pose proof (print_nat_nonempty z) as Hne. pose proof (print_nat_all_digits z) as Hd.
  destruct (print_nat z) as [|c r]; [congruence|]. inversion Hd as [|c' r' Hc' Hr']; subst.
  unfold tx. rewrite t_text_Nt. destruct (s_of k) as [|c0 k']; [reflexivity|]. cbn [str_eqb].
  destruct (Z.eqb_spec c0 c) as [->|N]; [congruence | reflexivity].
Qed.

Lemma is_op_int : forall z, is_op (Nt (print_nat z)) = false.
Proof. intros z. unfold is_op. rewrite !tx_nat_tok by reflexivity. reflexivity. Qed.

Lemma ext_lookup_decimal : ext_lookup (s_of "decimal") = Some (1%Z, false). Proof. vm_compute. reflexivity. Qed.
Lemma ext_lookup_datetime : ext_lookup (s_of "datetime") = Some (1%Z, false). Proof. vm_compute. reflexivity. Qed.
Lemma ext_lookup_duration : ext_lookup (s_of "duration") = Some (1%Z, false). Proof. vm_compute. reflexivity. Qed.
Lemma ext_lookup_ip : ext_lookup (s_of "ip") = Some (1%Z, false). Proof. vm_compute. reflexivity. Qed.

Ltac contb := cbn [bnd]; contc.

Fixpoint tcommas (l : list (list token)) : list token :=
  match l with
  | [] => []
  | x :: r => match r with [] => x | _ => x ++ O "," :: tcommas r end
  end.

(* the first item of a comma-separated list, and what follows it *)
Lemma tcommas_step : forall (A : Type) (tk : A -> list token) close a l R,
  tx (O close) "," = false -> tx (O close) close = true -> cont (O close) = 0 ->
  exists r1, tcommas (map tk (a :: l)) ++ O close :: R = tk a ++ r1 /\ r1 <> [] /\ cont (peek r1) = 0 /\
             after_item close r1 = Some (tcommas (map tk l) ++ O close :: R).
Proof.
  intros A tk close a l R H1 H2 H3. destruct l as [|a2 l'].
  - exists (O close :: R). cbn [map tcommas app]. unfold after_item. cbn [peek]. rewrite H1, H2.
    repeat split; [discriminate | exact H3].
  - exists (O "," :: tcommas (map tk (a2 :: l')) ++ O close :: R). split; [|split; [discriminate | split; [reflexivity|]]].
    + change (tcommas (map tk (a :: a2 :: l'))) with (tk a ++ O "," :: tcommas (map tk (a2 :: l'))).
      rewrite <- app_assoc. reflexivity.
    + unfold after_item. cbn [peek]. change (tx (O ",") ",") with true. cbv iota. rewrite adv_cons by ne. reflexivity.
Qed.

Section RT.
  Variables (is_printable is_gext : Z -> bool) (set_order : list value -> list nat) (print_ip : bool -> Z -> Z -> str) (extra : expr -> bool).
  Hypothesis print_ip_plain : forall v6 a p, Forall (fun c => 32 <= c < 127 /\ c <> 34 /\ c <> 92)%Z (print_ip v6 a p).

  Notation EI := (expr_items is_printable is_gext set_order print_ip extra).
  Notation VI := (value_items is_printable is_gext set_order print_ip).
  Definition TE (e : expr) : list token := toks_of (EI e).
  Definition TV (v : value) : list token := toks_of (VI v).
  Definition lev (e : expr) : nat := prec_n (prec_of e).
  Definition TC (this : prec) (c : expr) : list token := toks_of (child extra this c (EI c)).
  Definition Sq (s : str) : token := St (quote_string is_printable is_gext s).
  Definition TP (ty : str) : list token := toks_of (path_items ty).

  Lemma toks_commas : forall l, toks_of (commas l) = tcommas (map toks_of l).
  Proof.
    induction l as [|x r IH]; [reflexivity|].
    destruct r as [|y r']; [reflexivity|].
    change (commas (x :: y :: r')) with (x ++ [op ","; sp] ++ commas (y :: r')).
    rewrite toks_of_app, toks_of_app, IH. reflexivity.
  Qed.

  Lemma TC_eq : forall this c,
    TC this c = if Nat.ltb (lev c) (prec_n this) || extra c then O "(" :: TE c ++ [O ")"] else TE c.
  Proof.
    intros this c. unfold TC, child, lev. destruct (Nat.ltb _ _ || extra c); [|reflexivity].
    unfold parens. rewrite !toks_of_app. reflexivity.
  Qed.

  (* a child is its rendering, or that in parentheses *)
  Lemma TC_cases : forall this c, TC this c = O "(" :: TE c ++ [O ")"] \/ (prec_n this <= lev c /\ TC this c = TE c).
  Proof.
    intros this c. rewrite TC_eq. destruct (Nat.ltb_spec (lev c) (prec_n this)); cbn [orb]; [left; reflexivity|].
    destruct (extra c); [left | right; split; [assumption|]]; reflexivity.
  Qed.

  Definition TA (k : str) : list token := if can_ident k then [O "."; Id k] else [O "["; Sq k; O "]"].

  Lemma TE_lit v : TE (ELit v) = TV v. Proof. reflexivity. Qed.
  Lemma TE_var x : TE (EVar x) = [var_tok x]. Proof. destruct x; reflexivity. Qed.
  Lemma TE_not a : TE (ENot a) = O "!" :: TC PUnary a. Proof. reflexivity. Qed.
  Lemma TE_neg a : TE (ENeg a) = O "-" :: (if starts_with_int a then TC PAbovePrimary a else TC PUnary a).
  Proof. unfold TE. cbn [expr_items]. rewrite toks_of_app. destruct (starts_with_int a); reflexivity. Qed.
  Lemma TE_access a k : TE (EAccess a k) = TC PAccess a ++ TA k.
  Proof. unfold TE. cbn [expr_items]. rewrite toks_of_app. unfold TA, attr_items. destruct (can_ident k); reflexivity. Qed.

  Ltac teq := unfold TE, TC, TP; cbn [expr_items]; unfold infix; repeat (rewrite ?toks_of_app, ?toks_of_op, ?toks_of_kw, ?toks_of_sp, ?toks_of_idt, ?toks_of_T); try reflexivity.

  Lemma TE_infix e lp rp o a b : EI e = infix extra lp rp o a b (EI a) (EI b) -> TE e = TC lp a ++ toks_of [o] ++ TC rp b.
  Proof. intros E. unfold TE. rewrite E. unfold infix, TC. rewrite !toks_of_app. reflexivity. Qed.
  Lemma TE_has a k : TE (EHas a k) = TC PAdd a ++ K "has" :: (if can_ident k then [Id k] else [Sq k]).
  Proof. teq. destruct (can_ident k); reflexivity. Qed.
  Lemma TE_is a ty : TE (EIs a ty) = TC PAdd a ++ K "is" :: TP ty. Proof. teq. Qed.
  Lemma TE_isin a ty b : TE (EIsIn a ty b) = TC PAdd a ++ K "is" :: TP ty ++ K "in" :: TC PAdd b. Proof. teq. Qed.
  Lemma TE_like a p : TE (ELike a p) = TC PAdd a ++ [K "like"; St (quote_pattern is_printable is_gext p)]. Proof. teq. Qed.
  Lemma TE_if c t f : TE (EIf c t f) = K "if" :: TC PIf c ++ K "then" :: TC PIf t ++ K "else" :: TC PIf f. Proof. teq. Qed.
  Lemma TE_isEmpty a : TE (EIsEmpty a) = TC PAccess a ++ [O "."; I "isEmpty"; O "("; O ")"]. Proof. teq. Qed.

  Lemma args_items_map : forall this l,
    (fix go (this : prec) (l : list expr) {struct l} : list (list item) :=
       match l with [] => [] | x :: r => child extra this x (EI x) :: go this r end) this l
    = map (fun x => child extra this x (EI x)) l.
  Proof. intros this. induction l as [|x r IH]; [reflexivity|]. cbn [map]. rewrite <- IH. reflexivity. Qed.

  Lemma TE_set es : TE (ESet es) = O "[" :: tcommas (map (TC PUnary) es) ++ [O "]"].
  Proof. teq. rewrite args_items_map. rewrite toks_commas, map_map. reflexivity. Qed.

  Lemma TE_call_fn n args : is_method n = false ->
    TE (ECall n args) = TP n ++ O "(" :: tcommas (map (TC PAccess) args) ++ [O ")"].
  Proof. intros H. teq. rewrite H. teq. rewrite args_items_map. rewrite toks_commas, map_map. reflexivity. Qed.

  Lemma TE_call_method n a rest : is_method n = true ->
    TE (ECall n (a :: rest)) = TC PAccess a ++ O "." :: Id n :: O "(" :: tcommas (map (TC PAccess) rest) ++ [O ")"].
  Proof. intros H. teq. rewrite H. teq. rewrite args_items_map. rewrite toks_commas, map_map. reflexivity. Qed.

  Lemma rec_items_map : forall l,
    (fix go (l : list (str * expr)) : list (list item) :=
       match l with [] => [] | (k, x) :: r => ([str_item is_printable is_gext k; op ":"] ++ child extra PUnary x (EI x)) :: go r end) l
    = map (fun kv => [str_item is_printable is_gext (fst kv); op ":"] ++ child extra PUnary (snd kv) (EI (snd kv))) l.
  Proof. induction l as [|[k x] r IH]; [reflexivity|]. cbn [map fst snd]. rewrite <- IH. reflexivity. Qed.

  Lemma TE_record kvs : TE (ERecord kvs) = O "{" :: tcommas (map (fun kv => Sq (fst kv) :: O ":" :: TC PUnary (snd kv)) kvs) ++ [O "}"].
  Proof. teq. rewrite rec_items_map. rewrite toks_commas, map_map. reflexivity. Qed.

  Lemma value_set_items_map : forall l,
    (fix go (l : list value) : list (list item) := match l with [] => [] | x :: r => VI x :: go r end) l = map VI l.
  Proof. induction l as [|x r IH]; [reflexivity|]. cbn [map]. rewrite <- IH. reflexivity. Qed.

  Lemma value_rec_items_map : forall l,
    (fix go (l : list (str * value)) : list (list item) :=
       match l with [] => [] | (k, x) :: r => ([str_item is_printable is_gext k; op ":"] ++ VI x) :: go r end) l
    = map (fun kv => [str_item is_printable is_gext (fst kv); op ":"] ++ VI (snd kv)) l.
  Proof. induction l as [|[k x] r IH]; [reflexivity|]. cbn [map fst snd]. rewrite <- IH. reflexivity. Qed.

  Lemma TV_true : TV (VBool true) = [K "true"]. Proof. reflexivity. Qed.
  Lemma TV_false : TV (VBool false) = [K "false"]. Proof. reflexivity. Qed.
  Lemma TV_long z : TV (VLong z) = if (z <? 0)%Z then [O "-"; Nt (print_nat (- z))] else [Nt (print_nat z)].
  Proof. unfold TV. cbn [value_items]. destruct (z <? 0)%Z; reflexivity. Qed.
  Lemma TV_string s : TV (VString s) = [Sq s]. Proof. reflexivity. Qed.
  Lemma TV_entity ty id : TV (VEntity ty id) = TP ty ++ [O "::"; Sq id].
  Proof. unfold TV, TP. cbn [value_items]. rewrite toks_of_app. reflexivity. Qed.
  Lemma TV_set l : TV (VSet l) = O "[" :: tcommas (map (fun i => nth i (map TV l) []) (set_order l)) ++ [O "]"].
  Proof.
    unfold TV. cbn [value_items]. rewrite value_set_items_map.
    rewrite !toks_of_app, toks_of_op, toks_commas, map_map.
    assert (E : map (fun x => toks_of (nth x (map VI l) [])) (set_order l) = map (fun i => nth i (map TV l) []) (set_order l)).
    { apply map_ext. intros i. change (@nil token) with (toks_of []). rewrite <- (map_map VI toks_of). rewrite map_nth. reflexivity. }
    rewrite E. reflexivity.
  Qed.
  Lemma TV_record kvs : TV (VRecord kvs) = O "{" :: tcommas (map (fun kv => Sq (fst kv) :: O ":" :: TV (snd kv)) kvs) ++ [O "}"].
  Proof.
    unfold TV. cbn [value_items]. rewrite value_rec_items_map.
    rewrite !toks_of_app, toks_of_op, toks_commas, map_map. reflexivity.
  Qed.
  Definition ext_toks (fn : string) (arg : str) : list token := [I fn; O "("; St ([34%Z] ++ arg ++ [34%Z]); O ")"].
  Lemma TV_decimal z : TV (VDecimal z) = ext_toks "decimal" (print_decimal z). Proof. reflexivity. Qed.
  Lemma TV_datetime z : TV (VDatetime z) = ext_toks "datetime" (print_datetime z). Proof. reflexivity. Qed.
  Lemma TV_duration z : TV (VDuration z) = ext_toks "duration" (print_duration z). Proof. reflexivity. Qed.
  Lemma TV_ip v6 a p : TV (VIP v6 a p) = ext_toks "ip" (print_ip v6 a p). Proof. reflexivity. Qed.

  Notation nv := (norm_value set_order print_ip).
  Notation nm := (norm set_order print_ip).
  Notation eok := (expr_ok set_order).
  Notation vok := (value_ok set_order).

  Lemma norm_value_set l : nv (VSet l) = ESet (map (fun i => nth i (map nv l) (ELit (VBool false))) (set_order l)).
  Proof.
    cbn [norm_value].
    assert (E : (fix go (l : list value) : list expr := match l with [] => [] | x :: r => nv x :: go r end) l = map nv l).
    { induction l as [|x r IH]; [reflexivity|]. cbn [map]. rewrite <- IH. reflexivity. }
    rewrite E. reflexivity.
  Qed.
  Lemma norm_value_record kvs : nv (VRecord kvs) = ERecord (map (fun kv => (fst kv, nv (snd kv))) kvs).
  Proof.
    cbn [norm_value]. f_equal. induction kvs as [|[k x] r IH]; [reflexivity|]. cbn [map fst snd]. rewrite <- IH. reflexivity.
  Qed.
  Lemma norm_set es : nm (ESet es) = ESet (map nm es).
  Proof. reflexivity. Qed.
  Lemma norm_call n args : nm (ECall n args) = ECall n (map nm args).
  Proof. reflexivity. Qed.
  Lemma norm_record kvs : nm (ERecord kvs) = ERecord (map (fun kv => (fst kv, nm (snd kv))) kvs).
  Proof. cbn [norm]. f_equal. induction kvs as [|[k x] r IH]; [reflexivity|]. cbn [map fst snd]. rewrite <- IH. reflexivity. Qed.

  Lemma value_ok_set l : vok (VSet l) = order_ok set_order l && forallb vok l.
  Proof. reflexivity. Qed.
  Lemma value_ok_record kvs : vok (VRecord kvs) =
    distinct_keys kvs && forallb (fun kv : str * value => str_ok2 (fst kv)) kvs && forallb (fun kv => vok (snd kv)) kvs.
  Proof. cbn [value_ok]. f_equal. induction kvs as [|[k x] r IH]; [reflexivity|]. cbn [forallb snd]. rewrite <- IH. reflexivity. Qed.
  Lemma expr_ok_list : forall l,
    (fix go (l : list expr) : bool := match l with [] => true | x :: r => eok x && go r end) l = forallb eok l.
  Proof. reflexivity. Qed.
  Lemma expr_ok_set es : eok (ESet es) = forallb eok es.
  Proof. cbn [expr_ok]. apply expr_ok_list. Qed.
  Lemma expr_ok_record kvs : eok (ERecord kvs) =
    distinct_keys kvs && forallb (fun kv : str * expr => str_ok2 (fst kv)) kvs && forallb (fun kv => eok (snd kv)) kvs.
  Proof. cbn [expr_ok]. f_equal. induction kvs as [|[k x] r IH]; [reflexivity|]. cbn [forallb snd]. rewrite <- IH. reflexivity. Qed.
  Lemma expr_ok_call n args : eok (ECall n args) =
    match ext_lookup n with
    | Some (_, true) => negb (builtin_method n) && can_ident n && (match args with [] => false | _ => true end) && forallb eok args
    | Some (_, false) => can_ident n && forallb eok args
    | None => false
    end.
  Proof. cbn [expr_ok]. rewrite expr_ok_list. reflexivity. Qed.

  Lemma TP_shape : forall ty, exists c r, split_path ty = c :: r /\ TP ty = Id c :: sep_toks r.
  Proof.
    intros ty. unfold TP, path_items. destruct (split_path ty) as [|c r] eqn:E; [exfalso; exact (split_path_acc_ne ty [] E)|].
    exists c, r. split; [reflexivity | apply toks_path_items_of].
  Qed.

  (* what is used of the first token h of the rendering of e: it closes no list; it is "if" only at level 0 and, from level 7
     up, no prefix operator (the side conditions of lift), and there an integer only if starts_with_int e (the printer's test
     in TE_neg) *)
  Definition HG (e : expr) (h : token) : Prop :=
    tx h ")" = false /\ tx h "]" = false /\ (1 <= lev e -> tx h "if" = false) /\
    (7 <= lev e -> is_op h = false /\ (is_int h = true -> starts_with_int e = true)).
  Definition Hd (e : expr) : Prop := exists h tl, TE e = h :: tl /\ HG e h.

  Ltac hg_split := unfold HG; split; [|split; [|split; [intros ?|intros ?; split; [|intros ?]]]].
  Ltac hg_closed :=
    unfold HG; repeat split; intros;
    try (vm_compute; reflexivity);
    try (match goal with H : is_int _ = true |- _ => vm_compute in H; discriminate H end).

  Lemma HG_ident : forall e c, can_ident c = true -> HG e (Id c).
  Proof.
    intros e c H. hg_split.
    - apply tx_ident_first; [exact H | reflexivity].
    - apply tx_ident_first; [exact H | reflexivity].
    - apply tx_ident_reserved; [exact H | reflexivity].
    - unfold is_op. rewrite !tx_ident_first by (exact H || reflexivity). reflexivity.
    - match goal with Hi : is_int _ = true |- _ => rewrite is_int_Id in Hi; discriminate Hi end.
  Qed.

  Lemma HG_string : forall e s, HG e (Sq s).
  Proof.
    intros e s. unfold Sq, quote_string. cbn [app]. hg_split.
    - reflexivity.
    - reflexivity.
    - reflexivity.
    - reflexivity.
    - match goal with Hi : is_int _ = true |- _ => rewrite is_int_St in Hi; discriminate Hi end.
  Qed.

  Lemma HG_int : forall e z, (7 <= lev e -> starts_with_int e = true) -> HG e (Nt (print_nat z)).
  Proof.
    intros e z Hs. hg_split; [apply tx_nat_tok; reflexivity .. | apply is_op_int | apply Hs; assumption].
  Qed.

  Lemma head_child : forall this a, Hd a ->
    exists h tl, TC this a = h :: tl /\ (h = O "(" \/ (prec_n this <= lev a /\ HG a h)).
  Proof.
    intros this a (h & tl & E & HGa). destruct (TC_cases this a) as [-> | [Hle ->]].
    - exists (O "("), (TE a ++ [O ")"]). split; [reflexivity | left; reflexivity].
    - exists h, tl. split; [exact E | right; split; assumption].
  Qed.

  Lemma HG_from_child : forall e a this h, (h = O "(" \/ (prec_n this <= lev a /\ HG a h)) -> 1 <= prec_n this ->
    (7 <= lev e -> 7 <= prec_n this /\ starts_with_int e = starts_with_int a) -> HG e h.
  Proof.
    intros e a this h [->|[Hle (H1 & H2 & H3 & H4)]] Hthis He; [hg_closed|].
    unfold HG. split; [exact H1|]. split; [exact H2|]. split.
    - intros _. apply H3. lia.
    - intros H7. destruct (He H7) as [Ht Es]. destruct (H4 ltac:(lia)) as [Hop Hint]. split; [exact Hop|].
      intros Hi. rewrite Es. apply Hint. exact Hi.
  Qed.

  Lemma Hd_child : forall e a this rest, TE e = TC this a ++ rest -> Hd a -> 1 <= prec_n this ->
    (7 <= lev e -> 7 <= prec_n this /\ starts_with_int e = starts_with_int a) -> Hd e.
  Proof.
    intros e a this rest E Ha Hthis He. destruct (head_child this a Ha) as (h & tl & E2 & Hh).
    exists h, (tl ++ rest). split; [rewrite E, E2; reflexivity|]. eapply HG_from_child; eassumption.
  Qed.

  Ltac okd := repeat match goal with H : _ && _ = true |- _ => apply andb_true_iff in H; destruct H end.

  Lemma head_expr : forall e, eok e = true -> Hd e.
  Proof.
    induction e using expr_ind'; intros Hok; cbn [expr_ok] in Hok; okd.
    (* a rendering that begins with its left operand begins as that operand does *)
    all: try (eapply Hd_child;
              [solve [teq] | auto | cbn [prec_n]; lia
               | unfold lev; cbn [prec_of prec_n starts_with_int]; intros; first [lia | split; [lia | reflexivity]]]).
    - (* ELit *)
      unfold Hd. destruct v as [[|]|z|s|ty id|l|kvs|z|z|z|v6 a p].
      3: { rewrite TE_lit, TV_long. destruct (z <? 0)%Z eqn:Ez.
           - exists (O "-"), [Nt (print_nat (- z))]. split; [reflexivity|].
             unfold HG, lev. cbn [prec_of]. rewrite Ez. cbn [prec_n]. repeat split; intros; try (vm_compute; reflexivity); lia.
           - exists (Nt (print_nat z)), []. split; [reflexivity|]. apply HG_int. intros _. cbn [starts_with_int].
             apply Z.leb_le. apply Z.ltb_ge in Ez. exact Ez. }
      3: { exists (Sq s), []. split; [reflexivity | apply HG_string]. }
      3: { rewrite TE_lit, TV_entity. cbn [value_ok] in Hok. okd.
           destruct (TP_shape ty) as (c & r & Es & ->). exists (Id c), (sep_toks r ++ [O "::"; Sq id]). split; [reflexivity|].
           apply HG_ident.
           match goal with Hp : path_ok ty = true |- _ => unfold path_ok in Hp; rewrite Es in Hp; cbn [forallb] in Hp; okd; assumption end. }
      (* the other literals begin with a fixed token *)
      all: eexists _, _; (split; [reflexivity | hg_closed]).
    - (* EVar *) destruct x; eexists _, []; (split; [reflexivity | hg_closed]).
    - (* ENot *) eexists (O "!"), _. split; [apply TE_not | hg_closed; unfold lev in *; cbn in *; lia].
    - (* ENeg *) eexists (O "-"), _. split; [apply TE_neg | hg_closed; unfold lev in *; cbn in *; lia].
    - (* EIf *) eexists (K "if"), _. split; [apply TE_if | hg_closed; unfold lev in *; cbn in *; lia].
    - (* ESet *) eexists (O "["), _. split; [apply TE_set | hg_closed].
    - (* ERecord *) eexists (O "{"), _. split; [apply TE_record | hg_closed].
    - (* ECall *)
      destruct (ext_lookup n) as [[ar [|]]|] eqn:El; [| |discriminate Hok].
      + okd. assert (Hm : is_method n = true) by (unfold is_method; rewrite El; reflexivity).
        destruct args as [|a rest]; [discriminate|].
        inversion H as [|a' rest' IHa IHrest]; subst. cbn [forallb] in *. okd.
        eapply (Hd_child _ a PAccess); [apply TE_call_method; exact Hm | apply IHa; assumption | cbn; lia |].
        unfold lev; cbn [prec_of prec_n starts_with_int]. rewrite Hm. intros; split; [lia | reflexivity].
      + okd. assert (Hm : is_method n = false) by (unfold is_method; rewrite El; reflexivity).
        exists (Id n), (O "(" :: tcommas (map (TC PAccess) args) ++ [O ")"]). split.
        * rewrite TE_call_fn by exact Hm. unfold TP, path_items. rewrite split_path_ident by assumption. reflexivity.
        * apply HG_ident. assumption.
    - (* EPartialError *) discriminate Hok.
  Qed.

  Lemma byte_str_nonneg : forall s, byte_str s = true -> nonneg s.
  Proof.
    intros s H. unfold byte_str in H. rewrite forallb_forall in H. apply Forall_forall. intros b Hb.
    specialize (H b Hb). apply andb_true_iff in H. destruct H as [H _]. apply Z.leb_le in H. exact H.
  Qed.

  Lemma sv_quote : forall s, str_ok2 s = true -> string_value (quote_string is_printable is_gext s) = Some s.
  Proof.
    intros s H. unfold str_ok2 in H. apply andb_true_iff in H. destruct H as [H1 H2].
    apply string_value_quote; [apply byte_str_nonneg; exact H1 | exact H2].
  Qed.

  Lemma pp_quote : forall p, pat_ok2 p = true -> parse_pattern (trim_quotes (quote_pattern is_printable is_gext p)) = Some p.
  Proof.
    intros p H. unfold pat_ok2 in H. apply andb_true_iff in H. destruct H as [H1 H2].
    apply parse_pattern_quote; [|exact H2]. unfold lits_nonneg. rewrite forallb_forall in H1.
    apply Forall_forall. intros c Hc. apply byte_str_nonneg. apply H1. exact Hc.
  Qed.

  (* X ++ R begins with a chain of prefix operators ops that unary_ops reads at once; whatever operators pre were read before
     it, the rest of p_unary returns v under pre - quantifying over pre is what lets a chain be extended in front (un_op) *)
  Definition UN (X : list token) (v : expr) : Prop :=
    forall R, R <> [] -> cont (peek R) <= 6 ->
      has_non_op (X ++ R) = true /\
      exists ops r, ops_prefix (X ++ R) = (ops, r) /\
        forall pre, Ev (fun f => unary_tail f (pre ++ ops) r) (apply_ops pre v) R.

  Lemma un_beh6 : forall X v, UN X v -> Beh 6 X v.
  Proof.
    intros X v H. apply beh_of_val; [right; right; left; reflexivity|]. intros R HR Hc. cbn [bnd] in Hc.
    destruct (H R HR Hc) as (Hn & ops & r & E & Hev). destruct (Hev []) as [f0 Hf0].
    exists (S f0). intros f Hf. destruct f as [|f]; [lia|]. cbn [PL]. rewrite p_unary_prefix by exact Hn.
    rewrite E. cbn [fst snd]. apply Hf0. lia.
  Qed.

  Lemma apply_ops_snoc : forall pre b v, apply_ops (pre ++ [b]) v = apply_ops pre (if b then ENeg v else ENot v).
  Proof. intros pre b v. unfold apply_ops. rewrite fold_right_app. reflexivity. Qed.

  Definition optok (neg : bool) : token := if neg then O "-" else O "!".
  Definition opcon (neg : bool) (v : expr) : expr := if neg then ENeg v else ENot v.

  Lemma ops_prefix_op : forall neg l, ops_prefix (optok neg :: l) = (neg :: fst (ops_prefix l), snd (ops_prefix l)).
  Proof. intros neg l. destruct neg; reflexivity. Qed.
  Lemma has_non_op_op : forall neg l, has_non_op (optok neg :: l) = has_non_op l.
  Proof. intros neg l. destruct neg; reflexivity. Qed.

  Lemma un_op : forall neg X v, UN X v -> UN (optok neg :: X) (opcon neg v).
  Proof.
    intros neg X v H R HR Hc. destruct (H R HR Hc) as (Hn & ops & r & E & Hev).
    cbn [app]. rewrite has_non_op_op, ops_prefix_op, E. cbn [fst snd]. split; [exact Hn|].
    exists (neg :: ops), r. split; [reflexivity|]. intros pre.
    replace (pre ++ neg :: ops) with ((pre ++ [neg]) ++ ops) by (rewrite <- app_assoc; reflexivity).
    unfold opcon. rewrite <- apply_ops_snoc. apply Hev.
  Qed.

  Lemma ops_prefix_stop : forall h l, is_op h = false -> has_non_op (h :: l) = true /\ ops_prefix (h :: l) = ([], h :: l).
  Proof.
    intros h l H. split; [unfold has_non_op; cbn [existsb]; rewrite H; reflexivity|].
    cbn [ops_prefix]. unfold is_op in H. apply orb_false_iff in H. destruct H as [-> ->]. reflexivity.
  Qed.

  Lemma un_base : forall neg X h tl v, Beh 7 X v -> X = h :: tl -> is_op h = false -> (neg = true -> is_int h = false) ->
    UN (optok neg :: X) (opcon neg v).
  Proof.
    intros neg X h tl v HB -> Hop Hint R HR Hc. destruct (ops_prefix_stop h (tl ++ R) Hop) as [Hn E].
    cbn [app]. rewrite has_non_op_op, ops_prefix_op, E. split; [exact Hn|].
    exists [neg], (h :: tl ++ R). split; [reflexivity|]. intros pre. unfold opcon. rewrite <- apply_ops_snoc.
    apply ev_utail_member.
    - intros ops' Hr. rewrite rev_app_distr in Hr. cbn [rev app] in Hr. inversion Hr; subst. apply Hint. reflexivity.
    - apply (beh_val 7 (h :: tl) v R HB HR); [cbn [bnd]; lia | left; lia].
  Qed.

  Lemma un_neglit : forall z, (z < 0)%Z -> in64b z = true -> UN [O "-"; Nt (print_nat (- z))] (ELit (VLong z)).
  Proof.
    intros z Hz Hi R HR Hc. destruct (ops_prefix_stop _ R (is_op_int (- z))) as [Hn E].
    cbn [app]. change (O "-") with (optok true). rewrite has_non_op_op, ops_prefix_op, E. split; [exact Hn|].
    exists [true], (Nt (print_nat (- z)) :: R). split; [reflexivity|].
    intros pre. apply ev_utail_lit; [apply int_value_neg; assumption | exact HR].
  Qed.

  Lemma lev_le8 : forall e, lev e <= 8.
  Proof.
    intros e. unfold lev. destruct e; cbn [prec_of prec_n]; try lia.
    destruct v; cbn [prec_n]; try lia. destruct (z <? 0)%Z; cbn [prec_n]; lia.
  Qed.

  (* the statement main_expr proves by induction on e *)
  Definition M (e : expr) : Prop := Beh (lev e) (TE e) (nm e) /\ (lev e = 6 -> UN (TE e) (nm e)).

  Lemma M_un : forall e, lev e = 6 -> UN (TE e) (nm e) -> M e.
  Proof. intros e E HU. split; [rewrite E; apply un_beh6; exact HU | intros _; exact HU]. Qed.

  Lemma beh_down : forall e L, eok e = true -> L <= lev e -> Beh (lev e) (TE e) (nm e) -> Beh L (TE e) (nm e).
  Proof.
    intros e L Hok HL HB. destruct (head_expr e Hok) as (h & tl & E & (_ & _ & Hif & Hop)).
    apply (lift (lev e) L (TE e) h tl); [exact HL | apply lev_le8 | exact E | | | exact HB].
    - intros _ Hd0. apply Hif. lia.
    - intros H6 H7. apply Hop. lia.
  Qed.

  Lemma paren_down : forall X v L, L <= 8 -> Beh 0 X v -> Beh L (O "(" :: X ++ [O ")"]) v.
  Proof.
    intros X v L HL H. apply (lift 8 L _ (O "(") (X ++ [O ")"])); [exact HL | lia | reflexivity | reflexivity .. |].
    apply beh_of_val; [right; right; right; lia|]. intros R HR _. cbn [PL].
    rewrite <- app_comm_cons, <- app_assoc. cbn [app].
    apply (ev_primary_paren _ v (O ")" :: R) R); [ne | | apply exact_cons; [reflexivity | exact HR]].
    apply (beh_val 0 X v (O ")" :: R) H); [ne | contb | right; left; reflexivity].
  Qed.

  Lemma child_beh : forall a this L, eok a = true -> M a -> L <= prec_n this -> L <= 8 -> Beh L (TC this a) (nm a).
  Proof.
    intros a this L Hok [HB _] HL H8. destruct (TC_cases this a) as [-> | [Hle ->]].
    - apply paren_down; [exact H8|]. apply beh_down; [exact Hok | lia | exact HB].
    - apply beh_down; [exact Hok | lia | exact HB].
  Qed.

  Lemma child_val : forall a this L R, eok a = true -> M a -> L <= prec_n this -> L <= 8 -> R <> [] ->
    cont (peek R) <= bnd L -> (cont (peek R) < L \/ L = 0 \/ L = 6 \/ 8 <= L) ->
    Ev (fun f => PL L f (TC this a ++ R)) (nm a) R.
  Proof. intros a this L R Hok HM HL H8 HR Hc Hs. apply beh_val; [apply child_beh; assumption | exact HR | exact Hc | exact Hs]. Qed.

  Lemma child_unary : forall a this neg, eok a = true -> M a ->
    (this = PAbovePrimary \/ (this = PUnary /\ (neg = true -> starts_with_int a = false))) ->
    UN (optok neg :: TC this a) (opcon neg (nm a)).
  Proof.
    intros a this neg Hok [HB HU] Hthis. destruct (TC_cases this a) as [-> | [E1 ->]].
    { apply (un_base neg _ (O "(") (TE a ++ [O ")"])); [|reflexivity|reflexivity|intros; reflexivity].
      apply paren_down; [lia|]. apply beh_down; [exact Hok | lia | exact HB]. }
    pose proof (lev_le8 a) as H8.
    destruct Hthis as [->|[-> Hs]]; [cbn [prec_n] in E1; lia|]. cbn [prec_n] in E1.
    destruct (Nat.eq_dec (lev a) 6) as [E6|N6].
    - apply un_op. apply HU. exact E6.
    - destruct (head_expr a Hok) as (h & tl & E & (_ & _ & _ & Hop)). destruct (Hop ltac:(lia)) as [Hop1 Hop2].
      apply (un_base neg _ h tl); [apply beh_down; [exact Hok | lia | exact HB] | exact E | exact Hop1 |].
      intros Hn. destruct (is_int h) eqn:Ei; [|reflexivity]. rewrite (Hop2 eq_refl) in Hs. specialize (Hs Hn). discriminate Hs.
  Qed.

  Definition good_item (close : string) (X : list token) (v : expr) : Prop :=
    Beh 0 X v /\ exists h tl, X = h :: tl /\ tx h close = false.

  Lemma ev_exprs_list : forall (A : Type) (tk : A -> list token) (vl : A -> expr) close l acc R,
    close = ")"%string \/ close = "]"%string -> Forall (fun a => good_item close (tk a) (vl a)) l ->
    Ev (fun f => p_expressions f close (tcommas (map tk l) ++ O close :: R) acc) (acc ++ map vl l) (O close :: R).
  Proof.
    intros A tk vl close l acc R Hcl H.
    assert (Hc : tx (O close) close = true /\ cont (O close) = 0 /\ tx (O close) "," = false)
      by (destruct Hcl as [->| ->]; repeat split).
    destruct Hc as (Hc1 & Hc2 & Hc3). revert acc.
    induction H as [|a l [HB (h & tl & EX & Hh)] Hrest IH]; intros acc.
    - cbn [map tcommas app]. rewrite app_nil_r. ev_go. rewrite p_expressions_S. cbn [peek]. rewrite Hc1. reflexivity.
    - destruct (tcommas_step _ tk close a l R Hc3 Hc1 Hc2) as (r1 & -> & Hne & Hc0 & Haft).
      eapply ev_exprs_item.
      + rewrite EX. exact Hh.
      + apply (beh_val 0 _ _ _ HB Hne); [cbn [bnd]; lia | right; left; reflexivity].
      + exact Haft.
      + specialize (IH (acc ++ [vl a])). rewrite <- app_assoc in IH. exact IH.
  Qed.

  Fixpoint fresh_keys (ks : list str) (seen : list str) : bool :=
    match ks with [] => true | k :: r => negb (existsb (str_eqb k) seen) && fresh_keys r (k :: seen) end.

  Lemma distinct_keys_fresh : forall (A : Type) (kvs : list (str * A)), distinct_keys kvs = fresh_keys (map fst kvs) [].
  Proof.
    intros A kvs. unfold distinct_keys. generalize (@nil str) as seen.
    induction kvs as [|[k x] r IH]; intros seen; [reflexivity|]. cbn [map fst fresh_keys]. rewrite <- IH. reflexivity.
  Qed.


  Lemma ev_record_list : forall (A : Type) (key : A -> str) (tk : A -> list token) (vl : A -> expr) l acc seen R, R <> [] ->
    Forall (fun a => str_ok2 (key a) = true /\ Beh 0 (tk a) (vl a)) l -> fresh_keys (map key l) seen = true ->
    (forall k, key_mem k acc = existsb (str_eqb k) seen) ->
    Ev (fun f => p_record f (tcommas (map (fun a => Sq (key a) :: O ":" :: tk a) l) ++ O "}" :: R) acc)
       (ERecord (acc ++ map (fun a => (key a, vl a)) l)) R.
  Proof.
    intros A key tk vl l acc seen R HR H. revert acc seen. induction H as [|a l [Hk HB] Hrest IH]; intros acc seen Hf Hinv.
    - cbn [map tcommas app]. rewrite app_nil_r. ev_go. rewrite p_record_S. tok_eval. rewrite adv_cons by exact HR. reflexivity.
    - cbn [map fresh_keys] in Hf. apply andb_true_iff in Hf. destruct Hf as [Hf1 Hf2]. apply negb_true_iff in Hf1.
      assert (Hinv' : forall k0, key_mem k0 (acc ++ [(key a, vl a)]) = existsb (str_eqb k0) (key a :: seen)).
      { intros k0. unfold key_mem. rewrite existsb_app. cbn [existsb fst]. fold (key_mem k0 acc). rewrite Hinv.
        rewrite orb_false_r, orb_comm, (str_eqb_sym (key a) k0). reflexivity. }
      rewrite <- Hinv in Hf1.
      destruct (tcommas_step _ (fun a => Sq (key a) :: O ":" :: tk a) "}" a l R eq_refl eq_refl eq_refl) as (r1 & -> & Hne & Hc0 & Haft).
      cbn [app].
      eapply (ev_record_item _ (key a)); [reflexivity | apply sv_quote; exact Hk | ne | | exact Hf1 | exact Haft |].
      + apply (beh_val 0 _ _ _ HB Hne); [cbn [bnd]; lia | right; left; reflexivity].
      + specialize (IH (acc ++ [(key a, vl a)]) (key a :: seen) Hf2 Hinv'). rewrite <- app_assoc in IH. exact IH.
  Qed.

  Lemma bnd_S : forall L, L <= bnd (S L).
  Proof. intros L. destruct L as [|[|[|L]]]; cbn [bnd]; lia. Qed.

  Lemma beh_binop : forall L tokop mkop, binop_at L tokop = Some mkop -> bnd L = L -> cont tokop = L ->
    forall A B na nb, Beh L A na -> Beh (S L) B nb -> Beh L (A ++ tokop :: B) (mkop na nb).
  Proof.
    intros L tokop mkop Hop Hb1 Hct A B na nb HA HB R w r HR Hc Hloop. pose proof (bnd_S L) as Hb2.
    rewrite <- app_assoc. cbn [app]. apply HA; [ne | cbn [peek]; rewrite Hct, Hb1; lia |].
    apply (ev_binop_loop L tokop mkop _ nb R); [exact Hop | ne | | exact Hloop].
    apply (beh_val (S L) B nb R HB HR); [lia | left; lia].
  Qed.

  (* after the left operand (at level PAdd), a relation tail that leaves R *)
  Lemma beh_reltail : forall A na t tl w, Beh 4 A na -> cont t = 3 ->
    (forall R, R <> [] -> cont (peek R) <= 2 -> Ev (fun f => rel_tail f na (t :: tl ++ R)) w R) ->
    Beh 3 (A ++ t :: tl) w.
  Proof.
    intros A na t tl w HA Hct Ht. apply beh_of_val; [right; left; reflexivity|]. intros R HR Hc. cbn [bnd] in Hc.
    rewrite <- app_assoc. cbn [app].
    apply (ev_level 3 _ na (t :: tl ++ R)); [lia | discriminate | discriminate | | exact (Ht R HR Hc)].
    apply (beh_val 4 A na _ HA); [ne | cbn [peek bnd]; lia | left; cbn [peek]; lia].
  Qed.

  Lemma beh_relop : forall tokop opf A B na nb,
    relop tokop = Some opf -> tx tokop "has" = false -> tx tokop "like" = false -> tx tokop "is" = false -> cont tokop = 3 ->
    Beh 4 A na -> Beh 4 B nb -> Beh 3 (A ++ tokop :: B) (opf na nb).
  Proof.
    intros tokop opf A B na nb Hop H1 H2 H3 Hct HA HB. apply (beh_reltail A na tokop B _ HA Hct). intros R HR Hc.
    apply ev_rel_op; [exact Hop | exact H1 | exact H2 | exact H3 | ne |].
    apply (beh_val 4 B nb R HB HR); [cbn [bnd]; lia | left; lia].
  Qed.

  Lemma beh_access : forall A na t tl e', Beh 7 A na -> cont t = 7 ->
    (forall R w r, R <> [] -> cont (peek R) <= 7 -> Ev (fun f => p_access_loop f e' R) w r ->
       Ev (fun f => p_access_loop f na (t :: tl ++ R)) w r) ->
    Beh 7 (A ++ t :: tl) e'.
  Proof.
    intros A na t tl e' HA Hct Ht R w r HR Hc Hloop. cbn [bnd LoopL] in *.
    rewrite <- app_assoc. cbn [app]. apply HA; [ne | cbn [peek bnd]; lia | exact (Ht R w r HR Hc Hloop)].
  Qed.

  Lemma beh_method : forall (T : Type) (tk : T -> list token) (vl : T -> expr) A na n l e',
    Beh 7 A na -> Forall (fun a => good_item ")" (tk a) (vl a)) l -> method_call n na (map vl l) = Some e' ->
    Beh 7 (A ++ O "." :: Id n :: O "(" :: tcommas (map tk l) ++ [O ")"]) e'.
  Proof.
    intros T tk vl A na n l e' HA Hit Hm. apply (beh_access A na _ _ e' HA); [reflexivity|]. intros R w r HR Hc Hloop.
    cbn [app]. rewrite <- app_assoc. cbn [app].
    apply (ev_access_method n _ (map vl l) R e'); [ne | | exact HR | exact Hm | exact Hloop].
    apply (ev_exprs_list _ tk vl ")" l [] R); [left; reflexivity | exact Hit].
  Qed.

  Lemma ev_TP : forall ty R, R <> [] -> tx (peek R) "::" = false -> Ev (fun f => p_path f (TP ty ++ R)) ty R.
  Proof.
    intros ty R HR Hc. destruct (TP_shape ty) as (c & r & Es & Et). rewrite Et. cbn [app].
    destruct (ev_path_rest r c R HR Hc) as [f0 H]. exists f0. intros f Hf.
    unfold p_path. tok_eval. rewrite adv_cons by ne. rewrite (H f Hf), fold_jf_join, <- Es, join_split. reflexivity.
  Qed.

  Lemma good_child : forall close this a, eok a = true -> M a -> (close = ")"%string \/ close = "]"%string) ->
    good_item close (TC this a) (nm a).
  Proof.
    intros close this a Hok HM Hcl. split.
    - apply child_beh; [exact Hok | exact HM | lia | lia].
    - destruct (head_child this a (head_expr a Hok)) as (h & tl & E & [->|[_ (H1 & H2 & _)]]); eexists _, _; (split; [exact E|]);
        destruct Hcl as [->| ->]; first [reflexivity | assumption].
  Qed.

  Lemma good_children : forall close this l, (close = ")"%string \/ close = "]"%string) ->
    Forall (fun a => eok a = true -> M a) l -> forallb eok l = true ->
    Forall (fun a => good_item close (TC this a) (nm a)) l.
  Proof.
    intros close this l Hcl H Hok. rewrite forallb_forall in Hok. rewrite Forall_forall in *.
    intros a Ha. apply good_child; auto.
  Qed.

  Lemma M_non6 : forall e, lev e <> 6 -> Beh (lev e) (TE e) (nm e) -> M e.
  Proof. intros e H HB. split; [exact HB | intros E; contradiction]. Qed.

  (* a call of an extension function by name *)
  Lemma beh_call : forall (T : Type) (tk : T -> list token) (vl : T -> expr) n l ar, ext_lookup n = Some (ar, false) ->
    tx (Id n) "true" = false -> tx (Id n) "false" = false -> Forall (fun a => good_item ")" (tk a) (vl a)) l ->
    Beh 7 (Id n :: O "(" :: tcommas (map tk l) ++ [O ")"]) (ECall n (map vl l)).
  Proof.
    intros T tk vl n l ar He H1 H2 Hit R w r HR Hct Hloop. cbn [LoopL PL bnd] in *.
    apply (ev_level 7 _ (ECall n (map vl l)) R); [lia | discriminate | discriminate | | exact Hloop]. cbn [PL].
    rewrite <- !app_comm_cons, <- app_assoc. cbn [app].
    apply ev_primary_ident; [exact H1 | exact H2 | reflexivity | ne |].
    apply (ev_eoe_call n _ (map vl l) R ar); [exact He | ne | | exact HR].
    apply (ev_exprs_list _ tk vl ")" l [] R); [left; reflexivity | exact Hit].
  Qed.

  Lemma beh_ext : forall fn arg ar, ext_lookup (s_of fn) = Some (ar, false) ->
    tx (I fn) "true" = false -> tx (I fn) "false" = false -> Forall plain arg ->
    Beh 7 (ext_toks fn arg) (ext1 fn arg).
  Proof.
    intros fn arg ar He H1 H2 Hp.
    apply (beh_call _ (fun a => [St ([34%Z] ++ a ++ [34%Z])]) (fun a => ELit (VString a)) (s_of fn) [arg] ar He H1 H2).
    constructor; [|constructor]. split; [|eexists _, _; split; reflexivity].
    eapply (lift 8 0); [lia | lia | reflexivity | reflexivity .. |].
    apply beh_of_val; [right; right; right; lia|]. intros R HR _.
    apply ev_primary_str; [apply string_value_plain; exact Hp | exact HR].
  Qed.

  Lemma nth_map_lt : forall (A B : Type) (f : A -> B) l i d d', i < List.length l -> nth i (map f l) d' = f (nth i l d).
  Proof.
    intros A B f l i d d' H. rewrite (nth_indep (map f l) d' (f d)) by (rewrite map_length; exact H). apply map_nth.
  Qed.

  Lemma lit_item : forall x, vok x = true -> M (ELit x) -> good_item "]" (TV x) (nv x).
  Proof.
    intros x Hok [HB _]. split.
    - apply (beh_down (ELit x) 0); [exact Hok | lia | exact HB].
    - destruct (head_expr (ELit x) Hok) as (h & tl & E & (_ & H2 & _)). exists h, tl. split; [exact E | exact H2].
  Qed.

  Lemma main_value : forall v, vok v = true -> M (ELit v).
  Proof.
    induction v using value_ind'; intros Hok; cbn [value_ok] in Hok.
    (* every literal but an integer has a fixed level, 8 (a primary) or 7 (an extension call) *)
    all: try (apply M_non6; [discriminate|]; unfold lev; cbn [prec_of prec_n]; rewrite TE_lit;
              try (apply beh_of_val; [right; right; right; lia|]; intros R HR _; cbn [PL])).
    - (* bool *) destruct b; [apply (ev_primary_bool true) | apply (ev_primary_bool false)]; exact HR.
    - (* long *)
      destruct (z <? 0)%Z eqn:Ez.
      + apply M_un; [unfold lev; cbn [prec_of]; rewrite Ez; reflexivity|]. rewrite TE_lit, TV_long, Ez.
        apply Z.ltb_lt in Ez. apply (un_neglit z Ez Hok).
      + apply M_non6; [unfold lev; cbn [prec_of]; rewrite Ez; discriminate|]. unfold lev. cbn [prec_of]. rewrite TE_lit, TV_long, Ez. cbn [prec_n].
        apply beh_of_val; [right; right; right; lia|]. intros R HR _.
        apply Z.ltb_ge in Ez. apply ev_primary_int; [apply int_value_pos; assumption | exact HR].
    - (* string *) apply ev_primary_str; [apply sv_quote; exact Hok | exact HR].
    - (* entity *)
      apply andb_true_iff in Hok. destruct Hok as [Hp Hid]. rewrite TV_entity.
      destruct (TP_shape t) as (c & r & Es & Et). rewrite Et. rewrite <- app_assoc. cbn [app].
      assert (Hc : can_ident c = true).
      { unfold path_ok in Hp. rewrite Es in Hp. cbn [forallb] in Hp. apply andb_true_iff in Hp. destruct Hp as [Hp _]. exact Hp. }
      apply ev_primary_ident; [apply tx_ident_reserved; [exact Hc | reflexivity] | apply tx_ident_reserved; [exact Hc | reflexivity]
                              | destruct r; reflexivity | ne |].
      change (nm (ELit (VEntity t i))) with (ELit (VEntity t i)). rewrite <- (join_split t) at 1. rewrite Es, <- fold_jf_join.
      apply ev_eoe_path; [apply sv_quote; exact Hid | exact HR].
    - (* set *)
      change (vok (VSet l) = true) in Hok. rewrite value_ok_set in Hok. apply andb_true_iff in Hok. destruct Hok as [Ho Hl].
      rewrite TV_set. change (nm (ELit (VSet l))) with (nv (VSet l)). rewrite norm_value_set.
      rewrite <- app_comm_cons, <- app_assoc. cbn [app].
      apply ev_primary_set; [ne | | exact HR].
      apply (ev_exprs_list _ (fun i => nth i (map TV l) []) (fun i => nth i (map nv l) (ELit (VBool false))) "]" (set_order l) [] R);
        [right; reflexivity|].
      apply Forall_forall. intros i Hi.
      unfold order_ok in Ho. apply andb_true_iff in Ho. destruct Ho as [_ Ho]. rewrite forallb_forall in Ho.
      specialize (Ho i Hi). apply Nat.ltb_lt in Ho.
      rewrite (nth_map_lt _ _ TV l i (VBool false)) by exact Ho. rewrite (nth_map_lt _ _ nv l i (VBool false)) by exact Ho.
      pose proof (nth_In l (VBool false) Ho) as Hin.
      rewrite forallb_forall in Hl. rewrite Forall_forall in H. apply lit_item; [apply Hl; exact Hin | apply H; [exact Hin | apply Hl; exact Hin]].
    - (* record *)
      change (vok (VRecord l) = true) in Hok. rewrite value_ok_record in Hok. apply andb_true_iff in Hok. destruct Hok as [Hok Hvs].
      apply andb_true_iff in Hok. destruct Hok as [Hd Hks].
      rewrite TV_record. change (nm (ELit (VRecord l))) with (nv (VRecord l)). rewrite norm_value_record.
      rewrite <- app_comm_cons, <- app_assoc. cbn [app].
      apply ev_primary_record; [ne|].
      apply (ev_record_list _ fst (fun kv => TV (snd kv)) (fun kv => nv (snd kv)) l [] [] R HR).
      + rewrite forallb_forall in Hks, Hvs. rewrite Forall_forall in *. intros kv Hkv.
        split; [apply Hks; exact Hkv|].
        destruct (lit_item (snd kv) (Hvs kv Hkv) (H kv Hkv (Hvs kv Hkv))) as [HB _]. exact HB.
      + rewrite <- distinct_keys_fresh. exact Hd.
      + intros k. reflexivity.
    - (* decimal *) apply (beh_ext "decimal" _ 1%Z); try reflexivity. apply print_decimal_plain.
    - (* datetime *) apply (beh_ext "datetime" _ 1%Z); try reflexivity. apply print_datetime_plain.
    - (* duration *) apply (beh_ext "duration" _ 1%Z); try reflexivity. apply print_duration_plain.
    - (* ip *) apply (beh_ext "ip" _ 1%Z); try reflexivity. apply print_ip_plain.
  Qed.

  Ltac chb := apply child_beh; [assumption | auto | cbn [prec_n]; lia | lia].

  Lemma method_call_ext : forall n lhs args ar, builtin_method n = false -> ext_lookup n = Some (ar, true) ->
    method_call n lhs args = Some (ECall n (lhs :: args)).
  Proof.
    intros n lhs args ar Hb He. unfold builtin_method in Hb. cbn [existsb] in Hb.
    repeat (apply orb_false_iff in Hb; destruct Hb as [?H Hb]).
    unfold method_call. rewrite H, H0, H1, H2, H3, H4, He. reflexivity.
  Qed.

  Lemma beh_method1 : forall name a b e,
    TE e = TC PAccess a ++ O "." :: I name :: O "(" :: TC PAccess b ++ [O ")"] ->
    method_call (s_of name) (nm a) [nm b] = Some (nm e) ->
    eok a = true -> eok b = true -> M a -> M b -> Beh 7 (TE e) (nm e).
  Proof.
    intros name a b e E Hm Ha Hb Ma Mb. rewrite E.
    apply (beh_method _ (TC PAccess) nm _ (nm a) (s_of name) [b]); [chb | constructor; [apply good_child; auto | constructor] | exact Hm].
  Qed.

  Lemma main_expr : forall e, eok e = true -> M e.
  Proof.
    induction e using expr_ind'; intros Hok; cbn [expr_ok] in Hok; okd.
    (* every constructor but literals, ! and - has a level of its own, and it is not 6;
       an infix one renders as left child, operator, right child *)
    all: try (apply M_non6; [discriminate|]; unfold lev; cbn [prec_of prec_n]; try (erewrite TE_infix by reflexivity)).
    - (* ELit *) apply (main_value v Hok).
    - (* EVar *)
      rewrite TE_var. apply beh_of_val; [right; right; right; lia|]. intros R HR Hc. cbn [bnd] in Hc.
      apply ev_primary_var; [exact HR | txf | txf].
    - (* EAnd *) apply (beh_binop 2 (O "&&") EAnd); try reflexivity; chb.
    - (* EOr *) apply (beh_binop 1 (O "||") EOr); try reflexivity; chb.
    - (* ENot *)
      apply M_un; [reflexivity|]. rewrite TE_not.
      apply (child_unary e PUnary false); [assumption | auto | right; split; [reflexivity | discriminate]].
    - (* ENeg *)
      apply M_un; [reflexivity|]. rewrite TE_neg. destruct (starts_with_int e) eqn:Es.
      + apply (child_unary e PAbovePrimary true); [assumption | auto | left; reflexivity].
      + apply (child_unary e PUnary true); [assumption | auto | right; split; [reflexivity | intros _; exact Es]].
    - (* EAdd *) apply (beh_binop 4 (O "+") EAdd); try reflexivity; chb.
    - (* ESub *) apply (beh_binop 4 (O "-") ESub); try reflexivity; chb.
    - (* EMul *) apply (beh_binop 5 (O "*") EMul); try reflexivity; chb.
    - (* EEq *) apply (beh_relop (O "==") EEq); try reflexivity; chb.
    - (* ENe *) apply (beh_relop (O "!=") ENe); try reflexivity; chb.
    - (* ELt *) apply (beh_relop (O "<") ELt); try reflexivity; chb.
    - (* ELe *) apply (beh_relop (O "<=") ELe); try reflexivity; chb.
    - (* EGt *) apply (beh_relop (O ">") EGt); try reflexivity; chb.
    - (* EGe *) apply (beh_relop (O ">=") EGe); try reflexivity; chb.
    - (* EIn *) apply (beh_relop (K "in") EIn); try reflexivity; chb.
    - (* EContains *) apply (beh_method1 "contains" e1 e2); auto; teq.
    - (* EContainsAll *) apply (beh_method1 "containsAll" e1 e2); auto; teq.
    - (* EContainsAny *) apply (beh_method1 "containsAny" e1 e2); auto; teq.
    - (* EIsEmpty *)
      rewrite TE_isEmpty. apply (beh_method _ (TC PAccess) nm _ (nm e) (s_of "isEmpty") []); [chb | constructor | reflexivity].
    - (* EAccess *)
      rewrite TE_access. unfold TA.
      destruct (can_ident k); apply (beh_access _ (nm e)); try reflexivity; try chb; intros R w r HR Hc Hloop; cbn [app].
      + apply ev_access_field; [exact HR | txf | exact Hloop].
      + apply (ev_access_index _ k); [apply sv_quote; assumption | exact HR | exact Hloop].
    - (* EHas *)
      rewrite TE_has. destruct (can_ident k); apply (beh_reltail _ (nm e)); try reflexivity; try chb; intros R HR Hc; cbn [app].
      + apply ev_rel_has_ident; [exact HR | txf].
      + apply ev_rel_has_str; [apply sv_quote; assumption | exact HR].
    - (* EGetTag *) apply (beh_method1 "getTag" e1 e2); auto; teq.
    - (* EHasTag *) apply (beh_method1 "hasTag" e1 e2); auto; teq.
    - (* ELike *)
      rewrite TE_like. apply (beh_reltail _ (nm e)); [chb | reflexivity|]. intros R HR Hc. cbn [app].
      apply ev_rel_like; [apply pp_quote; assumption | exact HR].
    - (* EIs *)
      rewrite TE_is. apply (beh_reltail _ (nm e)); [chb | reflexivity|]. intros R HR Hc.
      apply ev_rel_is; [ne | apply ev_TP; [exact HR | txf] | txf].
    - (* EIsIn *)
      rewrite TE_isin. apply (beh_reltail _ (nm e1)); [chb | reflexivity|]. intros R HR Hc. rewrite <- app_assoc. cbn [app].
      apply (ev_rel_isin _ ty (TC PAdd e2 ++ R)); [ne | apply ev_TP; [ne | reflexivity] | ne |].
      apply (child_val e2 PAdd 4 R); [assumption | auto | cbn [prec_n]; lia | lia | exact HR | cbn [bnd]; lia | left; lia].
    - (* EIf *)
      rewrite TE_if. apply beh_of_val; [left; reflexivity|]. intros R HR Hc. cbn [PL app]. rewrite <- !app_assoc. cbn [app]. rewrite <- !app_assoc. cbn [app].
      eapply ev_expression_if.
      + ne.
      + apply (child_val e1 PIf 0); [assumption | auto | cbn [prec_n]; lia | lia | ne | contb | right; left; reflexivity].
      + apply exact_cons; [reflexivity | ne].
      + apply (child_val e2 PIf 0); [assumption | auto | cbn [prec_n]; lia | lia | ne | contb | right; left; reflexivity].
      + apply exact_cons; [reflexivity | ne].
      + apply (child_val e3 PIf 0); [assumption | auto | cbn [prec_n]; lia | lia | exact HR | exact Hc | right; left; reflexivity].
    - (* ESet *)
      rewrite TE_set, norm_set. apply beh_of_val; [right; right; right; lia|]. intros R HR _. cbn [PL].
      rewrite <- app_comm_cons, <- app_assoc. cbn [app].
      apply ev_primary_set; [ne | | exact HR].
      apply (ev_exprs_list _ (TC PUnary) nm "]" es [] R); [right; reflexivity|].
      apply good_children; [right; reflexivity | exact H | exact Hok].
    - (* ERecord *)
      assert (Hall : eok (ERecord kvs) = true) by (cbn [expr_ok]; repeat (apply andb_true_iff; split); assumption).
      rewrite expr_ok_record in Hall. apply andb_true_iff in Hall. destruct Hall as [Hall Hvs].
      apply andb_true_iff in Hall. destruct Hall as [Hd Hks].
      rewrite TE_record, norm_record. apply beh_of_val; [right; right; right; lia|]. intros R HR _. cbn [PL].
      rewrite <- app_comm_cons, <- app_assoc. cbn [app].
      apply ev_primary_record; [ne|].
      apply (ev_record_list _ fst (fun kv => TC PUnary (snd kv)) (fun kv => nm (snd kv)) kvs [] [] R HR).
      + rewrite forallb_forall in Hks, Hvs. rewrite Forall_forall in *. intros kv Hkv.
        split; [apply Hks; exact Hkv|].
        apply child_beh; [apply Hvs; exact Hkv | apply H; [exact Hkv | apply Hvs; exact Hkv] | lia | lia].
      + rewrite <- distinct_keys_fresh. exact Hd.
      + intros k. reflexivity.
    - (* ECall *)
      change (eok (ECall n args) = true) in Hok. rewrite expr_ok_call in Hok.
      destruct (ext_lookup n) as [[ar [|]]|] eqn:El; [| |discriminate Hok].
      + okd. assert (Hm : is_method n = true) by (unfold is_method; rewrite El; reflexivity).
        destruct args as [|a rest]; [discriminate|].
        inversion H as [|a' rest' IHa IHrest]; subst. cbn [forallb] in *. okd.
        rewrite (TE_call_method n a rest Hm), norm_call. cbn [map].
        apply (beh_method _ (TC PAccess) nm _ (nm a) n rest); [chb | apply good_children; [left; reflexivity | assumption | assumption] |].
        apply (method_call_ext n _ _ ar); [apply negb_true_iff; assumption | exact El].
      + okd. assert (Hm : is_method n = false) by (unfold is_method; rewrite El; reflexivity).
        rewrite (TE_call_fn n args Hm), norm_call. unfold TP, path_items. rewrite split_path_ident by assumption.
        cbn [path_items_of]. rewrite toks_of_T, toks_of_nil. cbn [app]. fold (Id n).
        apply (beh_call _ (TC PAccess) nm n args ar El); [apply tx_ident_reserved; [assumption | reflexivity] .. |].
        apply good_children; [left; reflexivity | assumption | assumption].
    - (* EPartialError *) discriminate Hok.
  Qed.

  Theorem parse_print_expr : forall e rest,
      expr_ok set_order e = true -> rest <> [] -> stop_tok (peek rest) = true ->
      exists f0, forall f, (f0 <= f)%nat ->
        p_expression f (toks_of (expr_items is_printable is_gext set_order print_ip extra e) ++ rest) = POk (norm set_order print_ip e) rest.
  Proof.
    intros e rest Hok Hr Hs. destruct (main_expr e Hok) as [HB _].
    pose proof (beh_down e 0 Hok ltac:(lia) HB) as H0.
    apply (beh_val 0 (TE e) (nm e) rest H0 Hr); [rewrite (stop_cont _ Hs); cbn [bnd]; lia | right; left; reflexivity].
  Qed.
End RT.

Lemma ev_entity_rest : forall r acc s id R, string_value s = Some id -> R <> [] ->
  Ev (fun f => entity_rest f acc (sep_toks r ++ O "::" :: St s :: R)) (fold_left jf r acc, id) R.
Proof.
  induction r as [|c r IH]; intros acc s id R Hs HR.
  - ev_go. cbn [sep_toks app entity_rest fold_left].
    rewrite exact_cons by (reflexivity || ne). tok_eval. rewrite Hs, adv_cons by exact HR. reflexivity.
  - destruct (IH (jf acc c) s id R Hs HR) as [f0 H]. exists (S f0). intros f Hf. destruct f as [|f]; [lia|].
    cbn [sep_toks app entity_rest fold_left]. rewrite exact_cons by (reflexivity || ne). tok_eval.
    rewrite adv_cons by ne. apply H. lia.
Qed.

Lemma ev_entlist : forall (tk : uid -> list token) l acc R,
  Forall (fun u => (forall R, R <> [] -> Ev (fun f => p_entity f (tk u ++ R)) u R) /\ exists h tl, tk u = h :: tl /\ tx h "]" = false) l ->
  Ev (fun f => p_entlist f (tcommas (map tk l) ++ O "]" :: R) acc) (acc ++ l) (O "]" :: R).
Proof.
  intros tk l acc R H. revert acc. induction H as [|u l [HE (h & tl & EX & Hh)] Hrest IH]; intros acc.
  - cbn [map tcommas app]. rewrite app_nil_r. ev_go.
    cbn [p_entlist]. tok_eval. reflexivity.
  - destruct (tcommas_step _ tk "]" u l R eq_refl eq_refl eq_refl) as (r1 & -> & Hne & _ & Haft).
    destruct (HE r1 Hne) as [f0 H0]. destruct (IH (acc ++ [u])) as [f1 H1]. rewrite <- app_assoc in H1.
    exists (S (f0 + f1)). intros f Hf. destruct f as [|f]; [lia|]. cbn [p_entlist].
    rewrite EX in *. cbn [app peek]. rewrite Hh. rewrite H0 by lia. unfold after_item in Haft.
    destruct (tx (peek r1) ","); [|destruct (tx (peek r1) "]"); [|discriminate Haft]]; injection Haft as ->; apply H1; lia.
Qed.

Lemma ev_scope_pr_all : forall ts, tx (peek ts) "==" = false -> tx (peek ts) "is" = false -> tx (peek ts) "in" = false ->
  Ev (fun f => p_scope_pr f ts) SAll ts.
Proof. intros ts H1 H2 H3. exists 0. intros f _. unfold p_scope_pr. cbv zeta. rewrite H1, H2, H3. reflexivity. Qed.

Lemma ev_scope_pr_eq : forall l u R, l <> [] -> Ev (fun f => p_entity f l) u R -> Ev (fun f => p_scope_pr f (O "==" :: l)) (SEq u) R.
Proof.
  intros l u R Hl [f0 H]. exists f0. intros f Hf. unfold p_scope_pr. tok_eval. rewrite adv_cons by exact Hl.
  rewrite H by exact Hf. reflexivity.
Qed.

Lemma ev_scope_pr_in : forall l u R, l <> [] -> Ev (fun f => p_entity f l) u R -> Ev (fun f => p_scope_pr f (K "in" :: l)) (SIn u) R.
Proof.
  intros l u R Hl [f0 H]. exists f0. intros f Hf. unfold p_scope_pr. tok_eval. rewrite adv_cons by exact Hl.
  rewrite H by exact Hf. reflexivity.
Qed.

Lemma ev_scope_pr_is : forall l ty R, l <> [] -> Ev (fun f => p_path f l) ty R -> tx (peek R) "in" = false ->
  Ev (fun f => p_scope_pr f (K "is" :: l)) (SIs ty) R.
Proof.
  intros l ty R Hl [f0 H] Hin. exists f0. intros f Hf. unfold p_scope_pr. tok_eval. rewrite adv_cons by exact Hl.
  rewrite H by exact Hf. rewrite Hin. reflexivity.
Qed.

Lemma ev_scope_pr_isin : forall l ty l2 u R, l <> [] -> Ev (fun f => p_path f l) ty (K "in" :: l2) -> l2 <> [] ->
  Ev (fun f => p_entity f l2) u R -> Ev (fun f => p_scope_pr f (K "is" :: l)) (SIsIn ty u) R.
Proof.
  intros l ty l2 u R Hl [f0 H] Hl2 [f1 H1]. exists (f0 + f1). intros f Hf. unfold p_scope_pr. tok_eval.
  rewrite adv_cons by exact Hl. rewrite H by lia. tok_eval. rewrite adv_cons by exact Hl2. rewrite H1 by lia. reflexivity.
Qed.

Lemma ev_scope_act_all : forall ts, tx (peek ts) "==" = false -> tx (peek ts) "in" = false ->
  Ev (fun f => p_scope_action f ts) SAll ts.
Proof. intros ts H1 H3. exists 0. intros f _. unfold p_scope_action. cbv zeta. rewrite H1, H3. reflexivity. Qed.

Lemma ev_scope_act_eq : forall l u R, l <> [] -> Ev (fun f => p_entity f l) u R -> Ev (fun f => p_scope_action f (O "==" :: l)) (SEq u) R.
Proof.
  intros l u R Hl [f0 H]. exists f0. intros f Hf. unfold p_scope_action. tok_eval. rewrite adv_cons by exact Hl.
  rewrite H by exact Hf. reflexivity.
Qed.

Lemma ev_scope_act_in : forall l u R, l <> [] -> tx (peek l) "[" = false -> Ev (fun f => p_entity f l) u R ->
  Ev (fun f => p_scope_action f (K "in" :: l)) (SIn u) R.
Proof.
  intros l u R Hl Hb [f0 H]. exists f0. intros f Hf. unfold p_scope_action. tok_eval. rewrite adv_cons by exact Hl.
  rewrite Hb. rewrite H by exact Hf. reflexivity.
Qed.

Lemma ev_scope_act_inset : forall l es R, l <> [] -> Ev (fun f => p_entlist f l []) es (O "]" :: R) -> R <> [] ->
  Ev (fun f => p_scope_action f (K "in" :: O "[" :: l)) (SInSet es) R.
Proof.
  intros l es R Hl [f0 H] HR. exists f0. intros f Hf. unfold p_scope_action. tok_eval. rewrite adv_cons by ne. tok_eval.
  rewrite adv_cons by exact Hl. rewrite H by exact Hf. rewrite adv_cons by exact HR. reflexivity.
Qed.

(* annotations: kt k is the token of the key k (an identifier; or, as the tokenizer reports a key that is a reserved
   word, a reserved token), q the quoting of the value *)
Lemma ev_annots : forall (kt : str -> token) (q : str -> str) l acc seen R,
  (forall k, is_ident (kt k) || is_reserved_tok (kt k) = true) -> (forall k, t_text (kt k) = k) ->
  R <> [] -> tx (peek R) "@" = false ->
  Forall (fun kv : str * str => string_value (q (snd kv)) = Some (snd kv)) l ->
  fresh_keys (map fst l) seen = true ->
  (forall k, existsb (fun kv : str * str => str_eqb (fst kv) k) acc = existsb (str_eqb k) seen) ->
  Ev (fun f => p_annotations f (flat_map (fun kv => [O "@"; kt (fst kv); O "("; St (q (snd kv)); O ")"]) l ++ R) acc) (acc ++ l) R.
Proof.
  intros kt q l acc seen R Hkey Htext HR Hat H. revert acc seen. induction H as [|[k v] l Hs Hrest IH]; intros acc seen Hf Hinv.
  - cbn [flat_map app]. rewrite app_nil_r. ev_go.
    cbn [p_annotations]. rewrite Hat. reflexivity.
  - cbn [fst snd] in Hs. cbn [map fresh_keys fst] in Hf. apply andb_true_iff in Hf. destruct Hf as [Hf1 Hf2].
    apply negb_true_iff in Hf1.
    assert (Hinv' : forall k0, existsb (fun kv : str * str => str_eqb (fst kv) k0) (acc ++ [(k, v)]) = existsb (str_eqb k0) (k :: seen)).
    { intros k0. rewrite existsb_app. cbn [existsb fst]. rewrite Hinv.
      rewrite orb_false_r, orb_comm, (str_eqb_sym k k0). reflexivity. }
    destruct (IH (acc ++ [(k, v)]) (k :: seen) Hf2 Hinv') as [f0 H0].
    exists (S f0). intros f Hf0. destruct f as [|f]; [lia|].
    cbn [flat_map fst snd app]. cbn [p_annotations]. tok_eval.
    rewrite adv_cons by ne. cbv zeta. cbn [peek]. rewrite Hkey, !Htext. cbn [negb].
    rewrite adv_cons by ne. rewrite exact_cons by (reflexivity || ne).
    rewrite Hinv, Hf1. tok_eval. rewrite Hs. rewrite adv_cons by ne. rewrite exact_cons by (reflexivity || ne).
    rewrite <- app_assoc in H0. apply H0. lia.
Qed.

(* conditions: tk c are the tokens of the body c and vl c is what they parse to *)
Lemma ev_conds : forall (tk : expr -> list token) (vl : expr -> expr) l acc R,
  R <> [] -> tx (peek R) "when" = false -> tx (peek R) "unless" = false ->
  Forall (fun c : bool * expr => forall R, Ev (fun f => p_expression f (tk (snd c) ++ O "}" :: R)) (vl (snd c)) (O "}" :: R)) l ->
  Ev (fun f => p_conditions f (flat_map (fun c : bool * expr => I (if fst c then "when" else "unless") :: O "{" :: tk (snd c) ++ [O "}"]) l ++ R) acc)
     (acc ++ map (fun c => (fst c, vl (snd c))) l) R.
Proof.
  intros tk vl l acc R HR H1 H2 H. set (ct := fun c : bool * expr => _ :: _). revert acc.
  induction H as [|[k c] l Hg Hrest IH]; intros acc.
  - cbn [flat_map map app]. rewrite app_nil_r. ev_go.
    cbn [p_conditions]. cbv zeta. rewrite H1, H2. reflexivity.
  - cbn [snd] in Hg. destruct (IH (acc ++ [(k, vl c)])) as [f0 H0]. destruct (Hg (flat_map ct l ++ R)) as [f1 Hg1].
    exists (S (f0 + f1)). intros f Hf0. destruct f as [|f]; [lia|].
    cbn [flat_map map]. unfold ct at 1. cbn [fst snd]. rewrite <- !app_comm_cons. rewrite <- !app_assoc. cbn [app].
    cbn [p_conditions]. destruct k; tok_eval; rewrite adv_cons by ne; rewrite exact_cons by (reflexivity || ne);
      rewrite Hg1 by lia; rewrite exact_cons by (reflexivity || ne); rewrite <- app_assoc in H0; apply H0; lia.
Qed.

Lemma toks_of_flat_map : forall (A : Type) (f : A -> list item) l, toks_of (flat_map f l) = flat_map (fun x => toks_of (f x)) l.
Proof. intros A f l. induction l as [|x l IH]; [reflexivity|]. cbn [flat_map]. rewrite toks_of_app, IH. reflexivity. Qed.

Section POL.
  Variables (is_printable is_gext : Z -> bool) (set_order : list value -> list nat) (print_ip : bool -> Z -> Z -> str) (extra : expr -> bool).
  Hypothesis print_ip_plain : forall v6 a p, Forall (fun c => 32 <= c < 127 /\ c <> 34 /\ c <> 92)%Z (print_ip v6 a p).

  Notation Sq' := (Sq is_printable is_gext).
  Notation TEx := (TE is_printable is_gext set_order print_ip).
  Notation TCx := (TC is_printable is_gext set_order print_ip).
  Notation nm := (norm set_order print_ip).

  Definition TU (u : uid) : list token := TP (fst u) ++ [O "::"; Sq' (snd u)].

  Definition STail (s : scope) : list token :=
    match s with
    | SAll => []
    | SEq u => O "==" :: TU u
    | SIn u => K "in" :: TU u
    | SInSet us => K "in" :: O "[" :: tcommas (map TU us) ++ [O "]"]
    | SIs ty => K "is" :: TP ty
    | SIsIn ty u => K "is" :: TP ty ++ K "in" :: TU u
    end.

  Lemma TC_prim_noextra : forall this e, prec_n this <= lev e -> TCx no_extra this e = TEx no_extra e.
  Proof.
    intros this e H. rewrite TC_eq. unfold no_extra. rewrite orb_false_r.
    destruct (Nat.ltb_spec (lev e) (prec_n this)) as [Hlt|Hge]; [lia | reflexivity].
  Qed.

  Definition ent (u : uid) : expr := ELit (VEntity (fst u) (snd u)).

  Lemma TE_ent : forall ex u, TEx ex (ent u) = TU u.
  Proof. intros ex u. unfold ent. rewrite TE_lit, TV_entity. reflexivity. Qed.

  (* the operands of a scope expression are primaries: none is parenthesised *)
  Lemma scope_toks : forall x s, toks_of (scope_items is_printable is_gext set_order print_ip x s) = var_tok x :: STail s.
  Proof.
    intros x s. unfold scope_items.
    destruct s as [|u|u|us|ty|ty u]; cbn [scope_expr STail]; [destruct x; reflexivity|..];
      (etransitivity; [first [apply TE_infix; reflexivity | apply TE_is | apply TE_isin]|]);
      rewrite !TC_prim_noextra by (unfold lev; cbn [prec_of prec_n]; lia); rewrite TE_var, ?(TE_ent _ u); try reflexivity.
    rewrite TE_set, map_map. rewrite (map_ext _ TU); [reflexivity|].
    intros u. rewrite TC_prim_noextra by (unfold lev; cbn [prec_of prec_n]; lia). apply TE_ent.
  Qed.

  Lemma uid_ok_inv : forall u, uid_ok u = true ->
    exists c r, split_path (fst u) = c :: r /\ can_ident c = true /\ TU u = Id c :: sep_toks r ++ [O "::"; Sq' (snd u)] /\
                string_value (quote_string is_printable is_gext (snd u)) = Some (snd u).
  Proof.
    intros u H. unfold uid_ok in H. apply andb_true_iff in H. destruct H as [Hp Hid].
    destruct (TP_shape (fst u)) as (c & r & Es & Et). exists c, r. split; [exact Es|]. split.
    - unfold path_ok in Hp. rewrite Es in Hp. cbn [forallb] in Hp. apply andb_true_iff in Hp. destruct Hp as [Hp _]. exact Hp.
    - split; [unfold TU; rewrite Et; reflexivity | apply sv_quote; exact Hid].
  Qed.

  Lemma ev_TU : forall u R, uid_ok u = true -> R <> [] -> Ev (fun f => p_entity f (TU u ++ R)) u R.
  Proof.
    intros u R H HR. destruct (uid_ok_inv u H) as (c & r & Es & Hc & Et & Hs). rewrite Et.
    rewrite <- app_comm_cons, <- app_assoc. cbn [app].
    destruct (ev_entity_rest r c _ (snd u) R Hs HR) as [f0 H0]. exists f0. intros f Hf.
    unfold p_entity, Sq. tok_eval. rewrite adv_cons by ne. rewrite (H0 f Hf), fold_jf_join, <- Es, join_split. destruct u; reflexivity.
  Qed.

  Lemma TU_head : forall u, uid_ok u = true -> exists h tl, TU u = h :: tl /\ tx h "]" = false /\ tx h "[" = false.
  Proof.
    intros u H. destruct (uid_ok_inv u H) as (c & r & Es & Hc & Et & Hs). rewrite Et. eexists _, _. split; [reflexivity|]. split.
    - apply tx_ident_first; [exact Hc | reflexivity].
    - apply tx_ident_first; [exact Hc | reflexivity].
  Qed.

  Lemma ev_scope_pr_tail : forall s R, principal_scope_ok s = true -> R <> [] -> cont (peek R) <= 0 ->
    Ev (fun f => p_scope_pr f (STail s ++ R)) s R.
  Proof.
    intros s R Hok HR Hc. destruct s as [|u|u|us|ty|ty u]; cbn [principal_scope_ok scope_ok STail] in *.
    - cbn [app]. apply ev_scope_pr_all; txf.
    - cbn [app]. apply ev_scope_pr_eq; [destruct (TU_head u Hok) as (h & tl & -> & _); discriminate | apply ev_TU; assumption].
    - cbn [app]. apply ev_scope_pr_in; [destruct (TU_head u Hok) as (h & tl & -> & _); discriminate | apply ev_TU; assumption].
    - discriminate Hok.
    - cbn [app]. apply ev_scope_pr_is; [ne | apply ev_TP; [exact HR | txf] | txf].
    - apply andb_true_iff in Hok. destruct Hok as [Hty Hu]. cbn [app]. rewrite <- app_assoc. cbn [app].
      apply (ev_scope_pr_isin _ ty (TU u ++ R)); [ne | apply ev_TP; [ne | reflexivity] | ne | apply ev_TU; assumption].
  Qed.

  Lemma ev_scope_act_tail : forall s R, action_scope_ok s = true -> R <> [] -> cont (peek R) <= 0 ->
    Ev (fun f => p_scope_action f (STail s ++ R)) s R.
  Proof.
    intros s R Hok HR Hc. destruct s as [|u|u|us|ty|ty u]; cbn [action_scope_ok scope_ok STail] in *.
    - cbn [app]. apply ev_scope_act_all; txf.
    - cbn [app]. apply ev_scope_act_eq; [destruct (TU_head u Hok) as (h & tl & -> & _); discriminate | apply ev_TU; assumption].
    - cbn [app]. destruct (TU_head u Hok) as (h & tl & E & _ & Hb).
      apply ev_scope_act_in; [rewrite E; discriminate | rewrite E; exact Hb | apply ev_TU; assumption].
    - cbn [app]. rewrite <- app_assoc. cbn [app].
      apply ev_scope_act_inset; [ne | | exact HR].
      apply (ev_entlist TU us [] R). rewrite forallb_forall in Hok. apply Forall_forall. intros u Hu. specialize (Hok u Hu). split.
      + intros R' HR'. apply ev_TU; assumption.
      + destruct (TU_head u Hok) as (h & tl & E & Hb & _). exists h, tl. split; assumption.
    - discriminate Hok.
    - discriminate Hok.
  Qed.

  Definition AT (annots : list (str * str)) : list token :=
    flat_map (fun kv => [O "@"; Id (fst kv); O "("; Sq' (snd kv); O ")"]) annots.
  Definition CT (conds : list (bool * expr)) : list token :=
    flat_map (fun c : bool * expr => I (if fst c then "when" else "unless") :: O "{" :: TEx extra (snd c) ++ [O "}"]) conds.
  Definition PT (annots : list (str * str)) (p : policy) (rest : list token) : list token :=
    AT annots ++ I (if p_effect p then "permit" else "forbid") :: O "(" :: var_tok VPrincipal :: STail (p_principal p) ++
    O "," :: var_tok VAction :: STail (p_action p) ++ O "," :: var_tok VResource :: STail (p_resource p) ++
    O ")" :: CT (p_conds p) ++ O ";" :: rest.

  Notation SIx := (scope_items is_printable is_gext set_order print_ip).

  Lemma policy_toks : forall annots p rest,
    toks_of (policy_items is_printable is_gext set_order print_ip extra annots p) ++ rest = PT annots p rest.
  Proof.
    intros annots p rest. destruct p as [eff s1 s2 s3 conds]. unfold policy_items, PT.
    cbn [p_effect p_principal p_action p_resource p_conds]. rewrite !toks_of_app.
    match goal with
    | |- (_ ++ (_ ++ (toks_of ?m ++ _))) ++ _ = _ =>
      assert (ES : toks_of m = O "(" :: var_tok VPrincipal :: STail s1 ++ O "," :: var_tok VAction :: STail s2 ++ O "," :: var_tok VResource :: STail s3 ++ [O ")"])
    end.
    { destruct s1; [destruct s2; [destruct s3; [reflexivity|..]|..]|..]; cbv zeta; rewrite !toks_of_app, !scope_toks; reflexivity. }
    rewrite ES. clear ES.
    rewrite !toks_of_flat_map.
    assert (EC : flat_map (fun x : bool * expr => toks_of ([nl; idt (if fst x then "when" else "unless"); sp; op "{"; sp]
                    ++ expr_items is_printable is_gext set_order print_ip extra (snd x) ++ [sp; op "}"])) conds
                 = CT conds).
    { apply flat_map_ext. intros c. rewrite !toks_of_app. destruct (fst c); reflexivity. }
    rewrite EC. repeat first [rewrite <- app_assoc | progress cbn [app]].
    destruct eff; reflexivity.
  Qed.

  (* a whole document: several policies followed by the EOF token *)
  Definition doc_toks (ps : list (list (str * str) * policy)) : list token :=
    flat_map (fun ap => toks_of (policy_items is_printable is_gext set_order print_ip extra (fst ap) (snd ap))) ps ++ [eof_token].
  Definition doc_result (ap : list (str * str) * policy) : ppolicy :=
    {| pp_annots := fst ap; pp_pos := (0, 0, 0)%Z; pp_policy := norm_policy set_order print_ip (snd ap) |}.

  Notation PIx := (policy_items is_printable is_gext set_order print_ip extra).

  (* The parser takes an annotation key from any identifier or reserved token: the theorems are proved for an arbitrary key
     token kt k; the printer's token is Id k. *)
  Section KT.
    Variable kt : str -> token.
    Hypothesis kt_key : forall k, is_ident (kt k) || is_reserved_tok (kt k) = true.
    Hypothesis kt_text : forall k, t_text (kt k) = k.

    Definition ATk (annots : list (str * str)) : list token :=
      flat_map (fun kv => [O "@"; kt (fst kv); O "("; Sq' (snd kv); O ")"]) annots.

    (* The tokens of a rendering are made by mk and carry no position, hence pp_pos = (0, 0, 0) in the theorems below;
       positions of tokenized text are the matter of LexRender. *)
    Lemma first_pos : forall annots t l,
      let first := peek (ATk annots ++ mk t :: l) in (t_off first, t_line first, t_col first) = (0, 0, 0)%Z.
    Proof. intros annots t l. destruct annots as [|kv annots]; reflexivity. Qed.

    Theorem parse_print_policy_kt : forall annots p rest,
        policy_ok set_order annots p = true -> rest <> [] ->
        Ev (fun f => p_policy f (ATk annots ++ toks_of (PIx [] p) ++ rest))
           {| pp_annots := annots; pp_pos := (0, 0, 0)%Z; pp_policy := norm_policy set_order print_ip p |} rest.
    Proof.
      intros annots p rest Hok Hrest. rewrite (policy_toks [] p rest). destruct p as [eff s1 s2 s3 conds].
      unfold policy_ok in Hok. cbn [p_effect p_principal p_action p_resource p_conds] in Hok.
      apply andb_true_iff in Hok. destruct Hok as [Hok Hconds]. apply andb_true_iff in Hok. destruct Hok as [Hok Hs3].
      apply andb_true_iff in Hok. destruct Hok as [Hok Hs2]. apply andb_true_iff in Hok. destruct Hok as [Han Hs1].
      unfold annots_ok in Han. apply andb_true_iff in Han. destruct Han as [Hdist Hvals].
      unfold PT, norm_policy. cbn [AT flat_map app p_effect p_principal p_action p_resource p_conds].
      set (rc := CT conds ++ O ";" :: rest).
      set (r3 := STail s3 ++ O ")" :: rc).
      set (r2 := STail s2 ++ O "," :: var_tok VResource :: r3).
      set (r1 := STail s1 ++ O "," :: var_tok VAction :: r2).
      set (tk := I (if eff then "permit" else "forbid")).
      assert (Nrc : rc <> []) by (unfold rc; ne).
      assert (N3 : r3 <> []) by (unfold r3; ne).
      assert (N2 : r2 <> []) by (unfold r2; ne).
      assert (N1 : r1 <> []) by (unfold r1; ne).
      assert (HA : Ev (fun f => p_annotations f (ATk annots ++ tk :: O "(" :: var_tok VPrincipal :: r1) []) annots
                      (tk :: O "(" :: var_tok VPrincipal :: r1)).
      { apply (ev_annots kt (quote_string is_printable is_gext) annots [] [] _ kt_key kt_text);
          [ne | destruct eff; reflexivity | | rewrite <- distinct_keys_fresh; exact Hdist | intros k; reflexivity].
        rewrite forallb_forall in Hvals. apply Forall_forall. intros kv Hkv.
        specialize (Hvals kv Hkv). apply andb_true_iff in Hvals. apply sv_quote. apply Hvals. }
      assert (HS1 : Ev (fun f => p_scope_pr f r1) s1 (O "," :: var_tok VAction :: r2)).
      { unfold r1. apply ev_scope_pr_tail; [exact Hs1 | ne | contc]. }
      assert (HS2 : Ev (fun f => p_scope_action f r2) s2 (O "," :: var_tok VResource :: r3)).
      { unfold r2. apply ev_scope_act_tail; [exact Hs2 | ne | contc]. }
      assert (HS3 : Ev (fun f => p_scope_pr f r3) s3 (O ")" :: rc)).
      { unfold r3. apply ev_scope_pr_tail; [exact Hs3 | ne | contc]. }
      assert (HC : Ev (fun f => p_conditions f rc []) (map (fun c : bool * expr => (fst c, nm (snd c))) conds) (O ";" :: rest)).
      { apply (ev_conds (TEx extra) nm conds [] (O ";" :: rest)); [ne | reflexivity | reflexivity |].
        rewrite forallb_forall in Hconds. apply Forall_forall. intros c Hc R.
        apply (parse_print_expr is_printable is_gext set_order print_ip extra print_ip_plain (snd c) (O "}" :: R) (Hconds c Hc));
          [discriminate | reflexivity]. }
      ev_go. unfold p_policy, bind, bexact.
      rewrite HA by lia. cbv beta zeta. cbn [peek].
      assert (Etk : (if tx tk "permit" then Some true else if tx tk "forbid" then Some false else None) = Some eff).
      { unfold tk. destruct eff; reflexivity. }
      rewrite Etk. rewrite adv_cons by ne. rewrite exact_cons by (reflexivity || ne).
      rewrite exact_cons by (reflexivity || exact N1). rewrite HS1 by lia.
      rewrite exact_cons by (reflexivity || ne). rewrite exact_cons by (reflexivity || exact N2). rewrite HS2 by lia.
      rewrite exact_cons by (reflexivity || ne). rewrite exact_cons by (reflexivity || exact N3). rewrite HS3 by lia.
      tok_eval. rewrite exact_cons by (reflexivity || exact Nrc). rewrite HC by lia.
      rewrite exact_cons by (reflexivity || exact Hrest).
      unfold tk. change (I (if eff then "permit"%string else "forbid"%string)) with (mk (TIdent, s_of (if eff then "permit"%string else "forbid"%string))).
      rewrite first_pos. reflexivity.
    Qed.

    Lemma parse_print_policies_kt : forall ps acc,
      Forall (fun ap => policy_ok set_order (fst ap) (snd ap) = true) ps ->
      Ev (fun f => p_policies f (flat_map (fun ap => ATk (fst ap) ++ toks_of (PIx [] (snd ap))) ps ++ [eof_token]) acc)
         (acc ++ map doc_result ps) [eof_token].
    Proof.
      induction ps as [|[an p] ps IH]; intros acc Hok.
      - ev_go. cbn [map]. rewrite app_nil_r. reflexivity.
      - inversion Hok as [|ap ps' Hp Hps]; subst. cbn [fst snd] in Hp.
        cbn [flat_map fst snd]. rewrite <- !app_assoc.
        set (R := flat_map _ ps ++ [eof_token]) in *.
        assert (Hne : R <> []) by (unfold R; ne).
        assert (Hhd : t_type (peek (ATk an ++ toks_of (PIx [] p) ++ R)) = TOperator
                      \/ t_type (peek (ATk an ++ toks_of (PIx [] p) ++ R)) = TIdent).
        { rewrite (policy_toks [] p R). unfold PT. destruct an as [|kv an]; [right|left]; reflexivity. }
        pose proof (parse_print_policy_kt an p R Hp Hne) as H1.
        pose proof (IH (acc ++ [doc_result (an, p)]) Hps) as H2. rewrite <- app_assoc in H2. cbn [app] in H2.
        ev_go. cbn [p_policies]. unfold bind. rewrite H1 by lia. cbn [map].
        destruct Hhd as [-> | ->]; apply H2; lia.
    Qed.
  End KT.

  Theorem parse_print_policy : forall annots p rest,
      policy_ok set_order annots p = true -> rest <> [] ->
      exists f0, forall f, (f0 <= f)%nat ->
        p_policy f (toks_of (policy_items is_printable is_gext set_order print_ip extra annots p) ++ rest)
        = POk {| pp_annots := annots; pp_pos := (0, 0, 0)%Z; pp_policy := norm_policy set_order print_ip p |} rest.
  Proof.
    intros annots p rest Hok Hrest. rewrite policy_toks.
    change (PT annots p rest) with (ATk Id annots ++ PT [] p rest). rewrite <- (policy_toks [] p rest).
    apply (parse_print_policy_kt Id); [reflexivity | reflexivity | exact Hok | exact Hrest].
  Qed.

  Lemma policy_toks_annots : forall annots p, toks_of (PIx annots p) = ATk Id annots ++ toks_of (PIx [] p).
  Proof. intros annots p. unfold policy_items. rewrite toks_of_app, toks_of_flat_map. reflexivity. Qed.

  Theorem parse_print_policies : forall ps,
    Forall (fun ap => policy_ok set_order (fst ap) (snd ap) = true) ps ->
    exists f0, forall f, (f0 <= f)%nat -> p_policies f (doc_toks ps) [] = POk (map doc_result ps) [eof_token].
  Proof.
    intros ps H. unfold doc_toks.
    rewrite (flat_map_ext _ (fun ap => ATk Id (fst ap) ++ toks_of (PIx [] (snd ap)))) by (intros ap; apply policy_toks_annots).
    apply (parse_print_policies_kt Id (fun _ => eq_refl) (fun _ => eq_refl) ps [] H).
  Qed.
End POL.

Print Assumptions parse_print_expr.
Print Assumptions parse_print_policy.
Print Assumptions parse_print_policies.
