(* The ignore clause of C06 (internal/eval/partial.go, model Impl/Partial.v):

     "When a request part is marked as ignored instead, a permit policy is kept and its residual is satisfied
      whenever the original is satisfied for at least one value of the ignored part (ignoring only ever widens
      what permits allow)."

   Setting.  A request part, or a value nested in the context, may be the variable marker
   `VEntity variable_type name` (an unknown, replaced by a substitution [s], see Proofs/PartialProofs.v) or the
   ignore marker `VEntity ignore_type _`.  [fills okf v v'] says that v' is v with every ignore marker replaced
   by some value satisfying [okf] (different occurrences may get different values), and identical elsewhere.
   A completed environment [en'] is one whose four request parts fill the substituted parts of [en]
   ([fills_env (subst_env s en) en']).

   Main results:
   - [completion_fills]                 "substitute, then fill" is a completion relation, so the invariant proved in
                                        Proofs/PartialProofs.v ([partial_sound_res], [partial_policy_sound_env]) holds
                                        against every completed environment;
   - [partial_expr_ignore]              the expression-level statement;
   - [partial_policy_ignore_widens_gen] / [partial_policy_ignore_widens]   the ignore clause for permits;
   - [partial_policy_ignore_dropped]    a permit that is dropped is satisfied for NO value of the ignored parts;
   - [forbid_ignore_kept_sound]         a kept forbid: its conditions never depended on an ignored part;
   - [widening_strict]                  the converse of the permit clause fails (vm_compute example);
   - [forbid_scope_counterexample]      `sat en' r = sat en' p` fails for a kept forbid whose SCOPE constrains an
                                        ignored part (vm_compute example).

   Remarks on the statements.
   1. [partial_policy_ignore_widens] states the clause for a total substitution and canonical, marker-free filling
      values.  Its hypotheses `completes s en`, `env_wf en'`, "the parts of en' are marker-free" and the side
      condition [val_ok] on the filling values are NOT used: [partial_policy_ignore_widens_gen] holds for every
      substitution and for arbitrary filling values (the evaluator never inspects markers).  In particular the
      filled sets need not be canonical.
   2. No environment "en with the ignore markers filled" is constructed (un-substituting through the [mk_set] of
      [subst_val] is awkward); the invariant speaks of the completed environment directly, with values related
      by `fills okf (subst_val s v) v'`.
   3. FORBID: `sat en' r = sat en' p` for a kept forbid is false of the model because of scopes (see
      [forbid_ignore_kept_sound] for what holds).  *)
From Coq Require Import ZArith List Bool Lia Arith String.
Import ListNotations.
From Cedar Require Import Base.Int64 Lang.Value Lang.Expr Impl.Like Impl.InSearch Impl.Eval Impl.Partial
  Proofs.ValueProofs Proofs.InSearchProofs Proofs.PartialProofs.

(* [okf] is the side condition on the values put in place of an ignore marker *)
Inductive fills (okf : value -> Prop) : value -> value -> Prop :=
| fl_ignore t i w : str_eqb t ignore_type = true -> okf w -> fills okf (VEntity t i) w
| fl_entity t i : str_eqb t ignore_type = false -> fills okf (VEntity t i) (VEntity t i)
| fl_set l l' : Forall2 (fills okf) l l' -> fills okf (VSet l) (VSet l')
| fl_record l l' :
    Forall2 (fun kv kv' : str * value => fst kv = fst kv' /\ fills okf (snd kv) (snd kv')) l l' ->
    fills okf (VRecord l) (VRecord l')
| fl_plain v : plain v -> fills okf v v.

Definition fills_env (okf : value -> Prop) (en en' : env) : Prop :=
  e_store en' = e_store en /\
  fills okf (e_principal en) (e_principal en') /\
  fills okf (e_action en) (e_action en') /\
  fills okf (e_resource en) (e_resource en') /\
  fills okf (e_context en) (e_context en').

Lemma Forall2_eq_l {A} (P : A -> A -> Prop) l l' :
  Forall (fun x => forall y, P x y -> y = x) l -> Forall2 P l l' -> l' = l.
Proof.
  intros HF H. induction H as [|x y l l' Hxy _ IH]; [reflexivity|].
  inversion HF as [|? ? Hx Hl]; subst. rewrite (Hx y Hxy), (IH Hl). reflexivity.
Qed.

(* a value without ignore marker is filled by itself only *)
Lemma fills_noign okf : forall v, has_marker is_ignore v = false -> forall v', fills okf v v' -> v' = v.
Proof.
  apply (value_ind' (fun v => has_marker is_ignore v = false -> forall v', fills okf v v' -> v' = v));
    try (intros; match goal with H : fills _ _ _ |- _ => inversion H; subst; reflexivity end).
  - intros t i Hm v' H. cbn [has_marker is_ignore] in Hm. inversion H; subst; try reflexivity. congruence.
  - intros l IH Hm v' H. rewrite has_marker_set, existsb_false_Forall in Hm.
    inversion H as [| |l0 l' HF| |v0 Hp]; subst; [|destruct Hp]. f_equal.
    apply (Forall2_eq_l (fills okf)); [|exact HF].
    rewrite Forall_forall in *. intros x Hx y Hy. apply IH; auto.
  - intros l IH Hm v' H. rewrite has_marker_record, existsb_false_Forall in Hm.
    inversion H as [| | |l0 l' HF|v0 Hp]; subst; [|destruct Hp]. f_equal.
    apply (Forall2_eq_l (fun kv kv' : str * value => fst kv = fst kv' /\ fills okf (snd kv) (snd kv'))); [|exact HF].
    rewrite Forall_forall in *. intros [k x] Hx [k' y] [Hk Hy]. cbn [fst snd] in *. subst k'. f_equal.
    apply (IH (k, x) Hx (Hm (k, x) Hx)). exact Hy.
Qed.

Lemma fills_refl_noign okf : forall v, has_marker is_ignore v = false -> fills okf v v.
Proof.
  apply (value_ind' (fun v => has_marker is_ignore v = false -> fills okf v v));
    try (intros; apply fl_plain; exact I).
  - intros t i Hm. cbn [has_marker is_ignore] in Hm. apply fl_entity. exact Hm.
  - intros l IH Hm. rewrite has_marker_set, existsb_false_Forall in Hm. apply fl_set.
    apply Forall2_refl_Forall. rewrite Forall_forall in *. intros x Hx. apply IH; auto.
  - intros l IH Hm. rewrite has_marker_record, existsb_false_Forall in Hm. apply fl_record.
    apply (Forall2_refl_Forall (fun kv kv' : str * value => fst kv = fst kv' /\ fills okf (snd kv) (snd kv'))).
    rewrite Forall_forall in *. intros [k x] Hx. split; [reflexivity|]. exact (IH (k, x) Hx (Hm (k, x) Hx)).
Qed.

(* "substitute the unknowns, then fill the ignore markers" is a completion in the sense of Proofs/PartialProofs.v *)
Lemma completion_fills okf s : completion (fun v v' => fills okf (subst_val s v) v').
Proof.
  split.
  - intros v v' HQ. rewrite (Q3_subst s v HQ). destruct HQ as [[_ Hig] _]. split.
    + apply fills_noign. exact Hig.
    + intros ->. apply fills_refl_noign. exact Hig.
  - intros v v' Hv Hi H.
    destruct v; cbn [subst_val] in H;
      try (inversion H; subst; reflexivity).
    + cbn [is_variable] in Hv. rewrite Hv in H. cbn [is_ignore] in Hi.
      inversion H as [t i w Ht| | | |v0 Hp]; subst; try reflexivity. congruence.
    + unfold mk_set in H. inversion H as [| |l0 l' HF| |v0 Hp]; subst; [eauto | destruct Hp].
    + inversion H as [| | |l0 l' HF|v0 Hp]; subst; [|destruct Hp].
      exists l'. split; [reflexivity|].
      apply (Forall2_map_l (fun kv kv' : str * value => fst kv = fst kv' /\ fills okf (snd kv) (snd kv'))
               (fun kv : str * value => (fst kv, subst_val s (snd kv)))). exact HF.
Qed.

(* a completed environment, in the form Section Sound of Proofs/PartialProofs.v takes it *)
Lemma fills_env_inv okf s en en' : fills_env okf (subst_env s en) en' ->
  exists p' a' r' c',
    let ec := {| e_store := e_store en; e_principal := p'; e_action := a'; e_resource := r'; e_context := c' |} in
    en' = ec /\ forall x, fills okf (subst_val s (var_value en x)) (var_value ec x).
Proof.
  destruct en' as [st' p' a' r' c']. intros (H0 & H1 & H2 & H3 & H4). cbn [e_store] in H0. subst st'.
  exists p', a', r', c'. split; [reflexivity|]. intros x. destruct x; assumption.
Qed.

(* expressions: whatever is put in place of the ignore markers (and of the unknowns),
   - a literal result v: the expression evaluates to a completion of v (v itself when v holds no marker);
   - a residual evaluates like the expression (up to the error kind, [req]); an error result means that
     evaluation fails;
   - PIgnore claims nothing. *)
Theorem partial_expr_ignore : forall okf en s e en',
  store_clean en -> env_wf en -> expr_clean e -> fills_env okf (subst_env s en) en' ->
  match partial en e with
  | PNode (ELit v) => exists v', eval en' e = Ok v' /\ fills okf (subst_val s v) v'
  | PNode n => req (eval en' n) (eval en' e)
  | PVar n => req (eval en' n) (eval en' e)
  | PErr _ => exists k', eval en' e = Err k'
  | PIgnore => True
  end.
Proof.
  intros okf en s e en' Hs Hw He Hf. destruct (fills_env_inv _ _ _ _ Hf) as (p' & a' & r' & c' & -> & Hrel).
  pose proof (partial_sound_res en p' a' r' c' _ (completion_fills okf s) (store_clean_Q3 en Hs) Hw Hrel e He) as H.
  destruct (partial en e) as [n|n| |k]; cbn [sound_res] in H; auto.
  - destruct n; cbn [lit_of] in H; exact (proj1 H).
  - exact (proj1 H).
  - match goal with |- exists k', ?r = _ => destruct r; [destruct H | eauto] end.
Qed.

(* general form: nothing is required of the values put in place of the ignore markers, nor of the completed
   environment, nor of the substitution *)
Theorem partial_policy_ignore_widens_gen : forall okf en s p en',
  store_clean en -> env_wf en -> policy_clean p -> p_effect p = true ->
  fills_env okf (subst_env s en) en' ->
  sat en' p = true ->
  exists r, partial_policy en p = Some r /\ sat en' r = true.
Proof.
  intros okf en s p en' Hs Hw Hp He Hf Hsat. destruct (fills_env_inv _ _ _ _ Hf) as (p' & a' & r' & c' & -> & Hrel).
  pose proof (partial_policy_sound_env en p' a' r' c' _ (completion_fills okf s) (store_clean_Q3 en Hs) Hw Hrel p Hp) as H.
  destruct (partial_policy en p) as [r|].
  - exists r. split; [reflexivity|]. apply H. exact Hsat.
  - rewrite (H (or_introl He)) in Hsat. discriminate.
Qed.

(* the four request parts of a completed environment contain no marker *)
Definition env_marker_free (en : env) : Prop := forall x, marker_free (var_value en x) = true.

(* THE IGNORE CLAUSE: if the original permit is satisfied for SOME value of the ignored parts (and
   the given completion of the unknowns), the policy is kept and its residual is satisfied in that same
   completed environment. *)
Theorem partial_policy_ignore_widens : forall en s p en',
  store_clean en -> env_wf en -> policy_clean p -> completes s en -> p_effect p = true ->
  fills_env val_ok (subst_env s en) en' -> env_wf en' -> env_marker_free en' ->
  sat en' p = true ->
  exists r, partial_policy en p = Some r /\ sat en' r = true.
Proof.
  intros en s p en' Hs Hw Hp _ He Hf _ _ Hsat.
  eapply partial_policy_ignore_widens_gen; eauto.
Qed.

(* "satisfied for at least one value of the ignored part": the policy is kept *)
Corollary partial_policy_ignore_kept : forall okf en s p,
  store_clean en -> env_wf en -> policy_clean p -> p_effect p = true ->
  (exists en', fills_env okf (subst_env s en) en' /\ sat en' p = true) ->
  exists r, partial_policy en p = Some r.
Proof.
  intros okf en s p Hs Hw Hp He (en' & Hf & Hsat).
  destruct (partial_policy_ignore_widens_gen okf en s p en' Hs Hw Hp He Hf Hsat) as (r & Hr & _). eauto.
Qed.

(* contrapositive reading: a permit that partial evaluation drops is satisfied for no value of the ignored parts *)
Theorem partial_policy_ignore_dropped : forall okf en s p en',
  store_clean en -> env_wf en -> policy_clean p -> p_effect p = true ->
  fills_env okf (subst_env s en) en' ->
  partial_policy en p = None -> sat en' p = false.
Proof.
  intros okf en s p en' Hs Hw Hp He Hf Hnone.
  destruct (sat en' p) eqn:Hsat; [|reflexivity].
  destruct (partial_policy_ignore_widens_gen okf en s p en' Hs Hw Hp He Hf Hsat) as (r & Hr & _). congruence.
Qed.

(* FORBID.  `partial_policy en p = Some r -> sat en' r = sat en' p` is FALSE, because the scope of an
   ignored principal / action / resource is replaced by `all` whatever the effect ([forbid_scope_counterexample]
   below).  What holds: a kept forbid is satisfied whenever the original is (ignoring widens what forbids forbid
   as well), and if none of principal / action / resource is itself the ignore marker (ignore markers nested in
   the context are allowed) the residual is satisfied EXACTLY when the original is: no condition of a kept forbid
   depended on an ignored part. *)
Theorem forbid_ignore_kept_sound : forall okf en s p en' r,
  store_clean en -> env_wf en -> policy_clean p -> p_effect p = false ->
  fills_env okf (subst_env s en) en' ->
  partial_policy en p = Some r ->
  (sat en' p = true -> sat en' r = true) /\
  (is_ignore (e_principal en) = false -> is_ignore (e_action en) = false -> is_ignore (e_resource en) = false ->
   sat en' r = sat en' p).
Proof.
  intros okf en s p en' r Hs Hw Hp He Hf Hr. destruct (fills_env_inv _ _ _ _ Hf) as (p' & a' & r' & c' & -> & Hrel).
  pose proof (partial_policy_sound_env en p' a' r' c' _ (completion_fills okf s) (store_clean_Q3 en Hs) Hw Hrel p Hp) as H.
  rewrite Hr in H. destruct H as [H1 H2]. split; [exact H1 | apply H2; left; exact He].
Qed.

Local Open Scope Z_scope.

Definition ig_marker (i : string) : value := VEntity ignore_type (s_of i).
Definition ig_a : str := s_of "a".
Definition ig_b : str := s_of "b".

(* principal ignored; context = {a: <ignored>, b: ?x} *)
Definition ig_env : env :=
  {| e_store := []; e_principal := ig_marker "p"; e_action := ex_action; e_resource := ex_photo "x";
     e_context := VRecord [(ig_a, ig_marker "c"); (ig_b, ex_var "x")] |}.
Definition ig_sigma : sigma := ex_sigma "x" (VLong 1).
(* a completion: principal := User::"b", context.a := 7, ?x := 1 *)
Definition ig_env_b : env :=
  {| e_store := []; e_principal := ex_user "b"; e_action := ex_action; e_resource := ex_photo "x";
     e_context := VRecord [(ig_a, VLong 7); (ig_b, VLong 1)] |}.
(* another completion: principal := User::"a" *)
Definition ig_env_a : env :=
  {| e_store := []; e_principal := ex_user "a"; e_action := ex_action; e_resource := ex_photo "x";
     e_context := VRecord [(ig_a, VLong 7); (ig_b, VLong 1)] |}.

Lemma ig_val_ok_user i : val_ok (ex_user i).
Proof. split; reflexivity. Qed.

Example ig_fills_b : fills_env val_ok (subst_env ig_sigma ig_env) ig_env_b.
Proof.
  split; [reflexivity|]. split; [|split; [|split]].
  - apply fl_ignore; [reflexivity | apply ig_val_ok_user].
  - apply fl_entity. reflexivity.
  - apply fl_entity. reflexivity.
  - apply fl_record. constructor; [split; [reflexivity|] | constructor; [split; [reflexivity|] | constructor]].
    + apply fl_ignore; [reflexivity | split; reflexivity].
    + apply fl_plain. exact I.
Qed.

Example ig_fills_a : fills_env val_ok (subst_env ig_sigma ig_env) ig_env_a.
Proof.
  split; [reflexivity|]. split; [|split; [|split]].
  - apply fl_ignore; [reflexivity | apply ig_val_ok_user].
  - apply fl_entity. reflexivity.
  - apply fl_entity. reflexivity.
  - apply fl_record. constructor; [split; [reflexivity|] | constructor; [split; [reflexivity|] | constructor]].
    + apply fl_ignore; [reflexivity | split; reflexivity].
    + apply fl_plain. exact I.
Qed.

(* permit(principal, action, resource) when { principal == User::"a" } when { context.b == 1 } unless { context.a == 0 }; *)
Definition ig_permit : policy :=
  {| p_effect := true; p_principal := SAll; p_action := SAll; p_resource := SAll;
     p_conds := [(true, EEq (EVar VPrincipal) (ELit (ex_user "a")));
                 (true, EEq (EAccess (EVar VContext) ig_b) (ELit (VLong 1)));
                 (false, EEq (EAccess (EVar VContext) ig_a) (ELit (VLong 0)))] |}.
Definition ig_permit_residual : policy :=
  {| p_effect := true; p_principal := SAll; p_action := SAll; p_resource := SAll;
     p_conds := [(true, EEq (EAccess (EVar VContext) ig_b) (ELit (VLong 1)))] |}.

(* WIDENING IS STRICT: the conditions that need an ignored part are dropped; the residual is satisfied for the
   completion principal := User::"b" although the original is not (the converse of the ignore clause fails),
   while for principal := User::"a" both are satisfied (an instance of the clause). *)
Example widening_strict :
  partial_policy ig_env ig_permit = Some ig_permit_residual /\
  sat ig_env_b ig_permit_residual = true /\ sat ig_env_b ig_permit = false /\
  sat ig_env_a ig_permit_residual = true /\ sat ig_env_a ig_permit = true.
Proof. repeat split; vm_compute; reflexivity. Qed.

(* forbid(principal == User::"a", action, resource) when { context.b == 1 }; with the principal ignored:
   kept, with the scope `all`; for principal := User::"b" the residual is satisfied, the original is not. *)
Definition ig_forbid : policy :=
  {| p_effect := false; p_principal := SEq (s_of "User", s_of "a"); p_action := SAll; p_resource := SAll;
     p_conds := [(true, EEq (EAccess (EVar VContext) ig_b) (ELit (VLong 1)))] |}.
Definition ig_forbid_residual : policy :=
  {| p_effect := false; p_principal := SAll; p_action := SAll; p_resource := SAll;
     p_conds := [(true, EEq (EAccess (EVar VContext) ig_b) (ELit (VLong 1)))] |}.

Example forbid_scope_counterexample :
  partial_policy ig_env ig_forbid = Some ig_forbid_residual /\
  sat ig_env_b ig_forbid_residual = true /\ sat ig_env_b ig_forbid = false.
Proof. repeat split; vm_compute; reflexivity. Qed.

(* a forbid with a condition that needs an ignored part is dropped *)
Example forbid_dropped :
  partial_policy ig_env {| p_effect := false; p_principal := SAll; p_action := SAll; p_resource := SAll;
                           p_conds := [(true, EEq (EVar VPrincipal) (ELit (ex_user "a")))] |} = None.
Proof. vm_compute. reflexivity. Qed.

(* the hypotheses of [partial_policy_ignore_widens] hold for this instance *)
Example ig_hyps :
  store_clean ig_env /\ env_wf ig_env /\ policy_clean ig_permit /\ completes ig_sigma ig_env /\
  env_wf ig_env_a /\ env_marker_free ig_env_a.
Proof.
  split; [|split; [|split; [|split; [|split]]]].
  - intros u ent H. discriminate.
  - intros x; destruct x; reflexivity.
  - unfold policy_clean, ig_permit. cbn [p_conds]. repeat constructor; cbn [snd]; unfold expr_clean;
      cbn [expr_forall node_clean]; unfold val_ok; repeat split.
  - intros x i H. destruct x; cbn [var_value ig_env e_principal e_action e_resource e_context] in H.
    + apply marker_in_ent in H. destruct H as [Ht _]. vm_compute in Ht. discriminate.
    + apply marker_in_ent in H. destruct H as [Ht _]. vm_compute in Ht. discriminate.
    + apply marker_in_ent in H. destruct H as [Ht _]. vm_compute in Ht. discriminate.
    + inversion H as [ | | l k y Hin Hm]; subst. destruct Hin as [Hin|[Hin|[]]]; inversion Hin; subst.
      * apply marker_in_ent in Hm. destruct Hm as [Ht _]. vm_compute in Ht. discriminate.
      * apply marker_in_ent in Hm. destruct Hm as [_ <-]. eexists. split; vm_compute; reflexivity.
  - intros x; destruct x; reflexivity.
  - intros x; destruct x; reflexivity.
Qed.

(* [partial_policy_ignore_widens] applied to this instance (non-vacuity of its hypotheses) *)
Example ig_instance : exists r, partial_policy ig_env ig_permit = Some r /\ sat ig_env_a r = true.
Proof.
  destruct ig_hyps as (H1 & H2 & H3 & H4 & H5 & H6).
  apply (partial_policy_ignore_widens ig_env ig_sigma ig_permit ig_env_a);
    try assumption; try reflexivity. apply ig_fills_a.
Qed.

(* expression-level behaviour on the ignored parts *)
Example ig_exprs :
  partial ig_env (EEq (EVar VPrincipal) (ELit (ex_user "a"))) = PIgnore /\
  partial ig_env (EIn (EVar VPrincipal) (ELit (ex_user "a"))) = PIgnore /\
  partial ig_env (EAccess (EVar VPrincipal) ig_a) = PIgnore /\
  partial ig_env (EIs (EVar VPrincipal) (s_of "User")) = PIgnore /\
  partial ig_env (EAccess (EVar VContext) ig_a) = PIgnore /\
  partial ig_env (EHas (EVar VContext) ig_a) = PIgnore /\
  partial ig_env (EHas (EVar VContext) ig_b) = PNode (ELit (VBool true)) /\
  partial ig_env (EAccess (EVar VContext) ig_b) = PVar (EAccess (EVar VContext) ig_b) /\
  partial ig_env (EEq (EVar VContext) (ELit (VLong 1))) = PIgnore /\
  partial ig_env (EAnd (EVar VContext) (ELit (VBool true))) = PErr EType /\
  partial ig_env (EAnd (EEq (EAccess (EVar VContext) ig_b) (ELit (VLong 1)))
                       (EEq (EAccess (EVar VContext) ig_a) (ELit (VLong 1)))) = PIgnore /\
  partial ig_env (EIsIn (ELit (ex_user "a")) (s_of "Foo") (EVar VPrincipal)) = PNode (ELit (VBool false)).
Proof. repeat split; vm_compute; reflexivity. Qed.

Print Assumptions partial_expr_ignore.
Print Assumptions partial_policy_ignore_widens_gen.
Print Assumptions partial_policy_ignore_widens.
Print Assumptions partial_policy_ignore_dropped.
Print Assumptions forbid_ignore_kept_sound.
Print Assumptions ig_instance.
Print Assumptions widening_strict.
Print Assumptions forbid_scope_counterexample.
