(* Soundness of the partial evaluator (Impl/Partial.v, model of internal/eval/partial.go).

   Setting.  A request part, or a value nested in the context, may be the variable marker
   `VEntity variable_type name` (an unknown) or the ignore marker `VEntity ignore_type _`.  A substitution
   [s : sigma] replaces variable markers by values ([subst_val], [subst_env]).

   The evaluator is walked ONCE, in Section Sound: [partial_sound_res] proves the invariant [sound_res] against an
   arbitrary completed environment [ec] whose request parts are related to those of [en] by a [completion]
   relation.  The results about unknowns only (this file: the completed environment is [subst_env s en]) and about
   ignored parts (Proofs/PartialIgnoreProofs.v: ignore markers filled by arbitrary values) are its two instances.

   Main results:
   - [partial_sound_res], [partial_policy_sound_env]      the invariant for expressions; scopes, conditions, policies;
   - [partial_expr_sound_gen]  / [partial_expr_sound]     soundness of [partial];
   - [partial_policy_sound_gen] / [partial_policy_sound]  soundness of [partial_policy]:
        kept policy: the residual is satisfied exactly when the original is; dropped policy: never satisfied.

   What the statements say and assume; each point is forced by a counterexample at the end of the file or by the
   definition of [subst_val]:
   1. ERROR KINDS.  `PErr k => eval en' e = Err k` and `eval en' n = eval en' e` are false: after an unknown
      operand the loop of tryPartial continues and may return the error of a LATER operand, whereas the
      evaluator reports the error of the first failing one ([errkind_counterexample]).  Results are therefore
      compared with [req] (equal values, or both errors); `PErr k` means "evaluation fails".  [sat] does not see
      the kind of an error, so the policy theorem is exact.
   2. `is .. in`.  partial.go once treated `a is T in b` as strict in both operands, which is unsound (the
      evaluator never evaluates b when the entity type of a differs); the counterexample was confirmed on the Go
      code and repaired there (partialIsIn).  The model follows the repaired code: it short-circuits on a known
      left operand of another type and embeds the right operand in the residual otherwise; `is .. in` needs no
      restriction ([isin_fixed] replays the counterexample).
   3. WELL-FORMEDNESS.  [subst_val] rebuilds sets with [mk_set]; `subst_val s v = v` for marker-free v needs
      v well-formed ([wf_value]).  Hence literals and store values are [wf_value] (in [val_ok]) and request
      parts are [wf_value] ([env_wf]).
   4. Record literals have distinct keys (in [node_clean]; guaranteed by the parser): with duplicate keys the
      evaluator keeps the last binding and drops the errors of the earlier ones, partial does not.
   5. [completes] is not used: soundness holds for every substitution, even partial ones; the `_gen` theorems
      are the statements without that hypothesis.  "Entity uids are not markers" is not needed either. *)
From Coq Require Import ZArith List Bool Lia Arith String.
Import ListNotations.
From Cedar Require Import Base.Int64 Lang.Value Lang.Expr Impl.Like Impl.InSearch Impl.Eval Impl.Partial
  Proofs.ValueProofs Proofs.InSearchProofs Proofs.ScopeProofs.

Definition sigma := str -> option value.                 (* variable name -> concrete value *)

Fixpoint subst_val (s : sigma) (v : value) {struct v} : value :=
  match v with
  | VEntity t i => if str_eqb t variable_type then match s i with Some w => w | None => v end else v
  | VSet l => mk_set (map (subst_val s) l)
  | VRecord l => VRecord (map (fun kv => (fst kv, subst_val s (snd kv))) l)
  | _ => v
  end.

Definition subst_env (s : sigma) (en : env) : env :=
  {| e_store := e_store en;
     e_principal := subst_val s (e_principal en);
     e_action := subst_val s (e_action en);
     e_resource := subst_val s (e_resource en);
     e_context := subst_val s (e_context en) |}.

Definition marker_free (v : value) : bool :=
  negb (has_marker is_variable v) && negb (has_marker is_ignore v).

(* a value that may appear in a policy or in the store: no marker, sets duplicate-free, records sorted *)
Definition val_ok (v : value) : Prop := marker_free v = true /\ wf_value v = true.

(* [expr_forall P e]: P holds at every node of e *)
Fixpoint expr_forall (P : expr -> Prop) (e : expr) {struct e} : Prop :=
  P e /\
  match e with
  | ELit _ | EVar _ | EPartialError _ => True
  | EAnd a b | EOr a b | EAdd a b | ESub a b | EMul a b | EEq a b | ENe a b
  | ELt a b | ELe a b | EGt a b | EGe a b | EIn a b
  | EContains a b | EContainsAll a b | EContainsAny a b | EGetTag a b | EHasTag a b =>
      expr_forall P a /\ expr_forall P b
  | EIsIn a _ b => expr_forall P a /\ expr_forall P b
  | ENot a | ENeg a | EIsEmpty a => expr_forall P a
  | EAccess a _ | EHas a _ => expr_forall P a
  | ELike a _ => expr_forall P a
  | EIs a _ => expr_forall P a
  | EIf c t f => expr_forall P c /\ expr_forall P t /\ expr_forall P f
  | ESet es | ECall _ es =>
      (fix go (l : list expr) : Prop := match l with [] => True | x :: l' => expr_forall P x /\ go l' end) es
  | ERecord kvs =>
      (fix go (l : list (str * expr)) : Prop :=
         match l with [] => True | x :: l' => expr_forall P (snd x) /\ go l' end) kvs
  end.

Lemma expr_forall_node P e : expr_forall P e -> P e.
Proof. destruct e; cbn [expr_forall]; tauto. Qed.

Lemma expr_forall_list P es :
  (fix go (l : list expr) : Prop := match l with [] => True | x :: l' => expr_forall P x /\ go l' end) es
  <-> Forall (expr_forall P) es.
Proof.
  induction es as [|x es IH]; [split; auto|]. rewrite IH. split.
  - intros [H1 H2]. constructor; auto.
  - intros H. inversion H; subst; auto.
Qed.

Lemma expr_forall_kvs P kvs :
  (fix go (l : list (str * expr)) : Prop :=
     match l with [] => True | x :: l' => expr_forall P (snd x) /\ go l' end) kvs
  <-> Forall (fun kv => expr_forall P (snd kv)) kvs.
Proof.
  induction kvs as [|x es IH]; [split; auto|]. rewrite IH. split.
  - intros [H1 H2]. constructor; auto.
  - intros H. inversion H; subst; auto.
Qed.

Lemma expr_forall_set P es : expr_forall P (ESet es) <-> P (ESet es) /\ Forall (expr_forall P) es.
Proof. cbn [expr_forall]. rewrite expr_forall_list. tauto. Qed.
Lemma expr_forall_call P n es : expr_forall P (ECall n es) <-> P (ECall n es) /\ Forall (expr_forall P) es.
Proof. cbn [expr_forall]. rewrite expr_forall_list. tauto. Qed.
Lemma expr_forall_record P kvs :
  expr_forall P (ERecord kvs) <-> P (ERecord kvs) /\ Forall (fun kv => expr_forall P (snd kv)) kvs.
Proof. cbn [expr_forall]. rewrite expr_forall_kvs. tauto. Qed.

Lemma expr_forall_mono (P Q : expr -> Prop) : (forall e, P e -> Q e) -> forall e, expr_forall P e -> expr_forall Q e.
Proof.
  intros HPQ. induction e using expr_ind';
    try (cbn [expr_forall]; match goal with |- P ?x /\ _ -> _ => pose proof (HPQ x) end; tauto).
  - rewrite !expr_forall_set. intros [H1 H2]. split; auto.
    rewrite Forall_forall in *. auto.
  - rewrite !expr_forall_record. intros [H1 H2]. split; auto.
    rewrite Forall_forall in *. auto.
  - rewrite !expr_forall_call. intros [H1 H2]. split; auto.
    rewrite Forall_forall in *. auto.
Qed.

(* ---- the hypotheses of the theorems ---- *)

(* side conditions on expressions: literals are marker-free and well-formed, record literals have distinct keys
   (the parser guarantees it) *)
Definition node_clean (e : expr) : Prop :=
  match e with
  | ELit v => val_ok v
  | ERecord kvs => NoDup (map fst kvs)
  | _ => True
  end.
Definition expr_clean (e : expr) : Prop := expr_forall node_clean e.

(* every attribute and tag value in the store is marker-free and well-formed *)
Definition store_clean (en : env) : Prop :=
  forall u ent, lookup (e_store en) u = Some ent ->
    Forall (fun kv => val_ok (snd kv)) (e_attrs ent) /\ Forall (fun kv => val_ok (snd kv)) (e_tags ent).

(* the four request parts are well-formed values (sets duplicate-free, records sorted) *)
Definition env_wf (en : env) : Prop := forall x, wf_value (var_value en x) = true.

Definition no_ignore (en : env) : Prop := forall x, has_marker is_ignore (var_value en x) = false.

Inductive marker_in (i : str) : value -> Prop :=
| mi_here : marker_in i (VEntity variable_type i)
| mi_set l x : In x l -> marker_in i x -> marker_in i (VSet l)
| mi_rec l k x : In (k, x) l -> marker_in i x -> marker_in i (VRecord l).

(* not needed by the proofs: soundness holds for every (even partial) substitution *)
Definition completes (s : sigma) (en : env) : Prop :=
  forall x i, marker_in i (var_value en x) -> exists w, s i = Some w /\ marker_free w = true.

Definition policy_clean (p : policy) : Prop := Forall (fun c => expr_clean (snd c)) (p_conds p).

Definition sat (en : env) (p : policy) : bool :=
  match bool_eval en (policy_to_expr p) with Ok (VBool true) => true | _ => false end.

Lemma has_marker_set is l : has_marker is (VSet l) = existsb (has_marker is) l.
Proof.
  cbn [has_marker]. induction l as [|x l IH]; [reflexivity|].
  cbn [existsb]. rewrite <- IH. reflexivity.
Qed.

Lemma has_marker_record is l : has_marker is (VRecord l) = existsb (fun kv => has_marker is (snd kv)) l.
Proof.
  cbn [has_marker]. induction l as [|[k x] l IH]; [reflexivity|].
  cbn [existsb snd]. rewrite <- IH. reflexivity.
Qed.

Lemma has_marker_top is v : (forall v, is v = true -> exists t i, v = VEntity t i) ->
  has_marker is v = false -> is v = false.
Proof.
  intros Hent H. destruct (is v) eqn:E; auto.
  destruct (Hent v E) as (t & i & ->). cbn [has_marker] in H. congruence.
Qed.

Lemma is_variable_ent v : is_variable v = true -> exists t i, v = VEntity t i.
Proof. destruct v; cbn; try discriminate; eauto. Qed.
Lemma is_ignore_ent v : is_ignore v = true -> exists t i, v = VEntity t i.
Proof. destruct v; cbn; try discriminate; eauto. Qed.

Lemma novar_top v : has_marker is_variable v = false -> is_variable v = false.
Proof. apply has_marker_top, is_variable_ent. Qed.
Lemma noign_top v : has_marker is_ignore v = false -> is_ignore v = false.
Proof. apply has_marker_top, is_ignore_ent. Qed.

(* no variable marker + well-formed: substitution is the identity *)
Lemma subst_val_id s : forall v, wf_value v = true -> has_marker is_variable v = false -> subst_val s v = v.
Proof.
  apply (value_ind' (fun v => wf_value v = true -> has_marker is_variable v = false -> subst_val s v = v));
    try (intros; reflexivity).
  - intros t i _ H. cbn [has_marker is_variable] in H. cbn [subst_val]. rewrite H. reflexivity.
  - intros l IH Hwf Hm. cbn [subst_val].
    pose proof (wf_set_inv _ Hwf) as [_ Hw].
    rewrite has_marker_set, existsb_false_Forall in Hm.
    rewrite (map_ext_Forall _ id), map_id; [apply mk_set_wf_id; exact Hwf|].
    rewrite Forall_forall in *. intros x Hx. apply IH; auto.
  - intros l IH Hwf Hm. cbn [subst_val]. f_equal.
    pose proof (wf_rec_inv _ Hwf) as [_ Hw].
    rewrite has_marker_record, existsb_false_Forall in Hm.
    rewrite <- (map_id l) at 2. apply map_ext_Forall. rewrite Forall_forall in *. intros [k x] Hx. cbn [fst snd id]. f_equal.
    exact (IH (k, x) Hx (Hw (k, x) Hx) (Hm (k, x) Hx)).
Qed.

Lemma marker_free_inv v : marker_free v = true ->
  has_marker is_variable v = false /\ has_marker is_ignore v = false.
Proof. unfold marker_free. rewrite andb_true_iff, !negb_true_iff. tauto. Qed.

Lemma subst_val_ok s v : val_ok v -> subst_val s v = v.
Proof. intros [Hm Hw]. apply marker_free_inv in Hm. apply subst_val_id; tauto. Qed.

Lemma rec_get_Forall {A} (P : A -> Prop) k (l : list (str * A)) x :
  Forall (fun kv => P (snd kv)) l -> rec_get k l = Some x -> P x.
Proof. intros H E. apply rec_get_In in E. rewrite Forall_forall in H. exact (H _ E). Qed.

Lemma rec_get_F2 (P : value -> value -> Prop) k l l' :
  Forall2 (fun kv kv' : str * value => fst kv = fst kv' /\ P (snd kv) (snd kv')) l l' ->
  match rec_get k l with
  | Some x => exists x', rec_get k l' = Some x' /\ P x x'
  | None => rec_get k l' = None
  end.
Proof.
  induction 1 as [|[k1 x] [k2 y] l l' [Hk Hxy] _ IH]; cbn [rec_get]; [reflexivity|].
  cbn [fst snd] in *. subst k2. destruct (str_eqb k k1); [eauto | exact IH].
Qed.

Lemma field_nomarker is l k x : has_marker is (VRecord l) = false -> rec_get k l = Some x -> has_marker is x = false.
Proof.
  rewrite has_marker_record, existsb_false_Forall. apply (rec_get_Forall (fun v => has_marker is v = false)).
Qed.

(* substitution of a non-variable value keeps its shape *)
Lemma subst_nonvar_entity s t i : is_variable (VEntity t i) = false -> subst_val s (VEntity t i) = VEntity t i.
Proof. cbn [is_variable subst_val]. intros ->. reflexivity. Qed.

Definition plain (v : value) : Prop :=
  match v with VEntity _ _ | VSet _ | VRecord _ => False | _ => True end.

Record hered (Q : value -> Prop) : Prop := {
  h_plain : forall v, plain v -> Q v;
  h_mkset : forall l, Forall Q l -> Q (mk_set l);
  h_rec : forall l, keys_sorted l = true -> Forall (fun kv => Q (snd kv)) l -> Q (VRecord l);
  h_recinv : forall l, Q (VRecord l) -> Forall (fun kv => Q (snd kv)) l }.

Lemma hered_wf : hered (fun v => wf_value v = true).
Proof.
  split.
  - intros v Hv. destruct v; try reflexivity; destruct Hv.
  - intros l Hl. apply mk_set_wf. exact Hl.
  - intros l Hs Hl. rewrite wf_value_record, Hs. cbn [andb]. apply forallb_forall.
    rewrite Forall_forall in Hl. exact Hl.
  - intros l H. apply wf_rec_inv in H. tauto.
Qed.

Lemma hered_nm is : hered (fun v => has_marker is v = false).
Proof.
  split.
  - intros v Hv. destruct v; try reflexivity; destruct Hv.
  - intros l Hl. unfold mk_set. rewrite has_marker_set, existsb_false_Forall.
    rewrite Forall_forall in *. intros x Hx. apply dedup_incl in Hx. destruct Hx as [Hx|[]]. auto.
  - intros l _ Hl. rewrite has_marker_record, existsb_false_Forall. exact Hl.
  - intros l H. rewrite has_marker_record, existsb_false_Forall in H. exact H.
Qed.

Lemma hered_and Q1 Q2 : hered Q1 -> hered Q2 -> hered (fun v => Q1 v /\ Q2 v).
Proof.
  intros [a1 b1 c1 d1] [a2 b2 c2 d2]. split.
  - auto.
  - intros l H. apply Forall_and_inv in H. destruct H. auto.
  - intros l Hs H. apply (Forall_and_inv (fun kv => Q1 (snd kv)) (fun kv => Q2 (snd kv))) in H. destruct H. auto.
  - intros l [H1 H2]. apply (Forall_and (P := fun kv => Q1 (snd kv)) (Q := fun kv => Q2 (snd kv))); auto.
Qed.

(* Q2: what every fully evaluated value satisfies; Q3: what the operands consumed by a non-projection
   operator satisfy (tp_step checks the variable part dynamically) *)
Definition Q2 (v : value) : Prop := wf_value v = true /\ has_marker is_ignore v = false.
Definition Q3 (v : value) : Prop := Q2 v /\ has_marker is_variable v = false.

Lemma hered_Q2 : hered Q2.
Proof. apply hered_and; [apply hered_wf | apply hered_nm]. Qed.
Lemma hered_Q3 : hered Q3.
Proof. apply hered_and; [apply hered_Q2 | apply hered_nm]. Qed.

Lemma Q3_subst s v : Q3 v -> subst_val s v = v.
Proof. intros [[Hw _] Hv]. apply subst_val_id; auto. Qed.

Lemma val_ok_Q3 v : val_ok v -> Q3 v.
Proof. intros [Hm Hw]. apply marker_free_inv in Hm. unfold Q3, Q2. tauto. Qed.

Lemma seq_res_inl rs r : seq_res rs = inl r -> exists k, r = Err k.
Proof.
  revert r. induction rs as [|[v|k] rs IH]; intros r; cbn [seq_res]; try discriminate.
  - destruct (seq_res rs) as [e|vs]; [|discriminate]. intros H. inversion H; subst. apply IH. reflexivity.
  - intros H. inversion H. eauto.
Qed.

Lemma seq_res_Forall (P : value -> Prop) rs : Forall (fun r => forall v, r = Ok v -> P v) rs ->
  forall vs, seq_res rs = inr vs -> Forall P vs.
Proof.
  induction 1 as [|[v|k] rs Hr _ IH]; intros vs; cbn [seq_res].
  - intros H; inversion H; constructor.
  - destruct (seq_res rs) as [e|vs']; [discriminate|]. intros H; inversion H; subst. constructor; auto.
  - discriminate.
Qed.

Lemma seq_rec_inl rs r : seq_rec rs = inl r -> exists k, r = Err k.
Proof.
  revert r. induction rs as [|[k [v|e]] rs IH]; intros r; cbn [seq_rec]; try discriminate.
  - destruct (seq_rec rs) as [e|vs]; [|discriminate]. intros H. inversion H; subst. apply IH. reflexivity.
  - intros H. inversion H. eauto.
Qed.

Lemma seq_rec_Forall (P : value -> Prop) rs : Forall (fun kr => forall v, snd kr = Ok v -> P v) rs ->
  forall fs, seq_rec rs = inr fs -> Forall (fun kv => P (snd kv)) fs /\ map fst fs = map fst rs.
Proof.
  induction 1 as [|[k [v|e]] rs Hr _ IH]; intros fs; cbn [seq_rec].
  - intros H; inversion H; split; [constructor | reflexivity].
  - destruct (seq_rec rs) as [e|fs']; [discriminate|]. intros H; inversion H; subst.
    destruct (IH fs' eq_refl) as [I1 I2]. split; [constructor; auto | cbn [map fst]; congruence].
  - discriminate.
Qed.

Definition req (r1 r2 : res) : Prop :=
  match r1, r2 with Ok v, Ok w => v = w | Err _, Err _ => True | _, _ => False end.
Definition is_err (r : res) : Prop := match r with Err _ => True | Ok _ => False end.

Lemma req_refl r : req r r.
Proof. destruct r; cbn; auto. Qed.
Lemma req_sym r1 r2 : req r1 r2 -> req r2 r1.
Proof. destruct r1, r2; cbn; auto. Qed.
Lemma req_trans r1 r2 r3 : req r1 r2 -> req r2 r3 -> req r1 r3.
Proof. destruct r1, r2, r3; cbn; try tauto. congruence. Qed.
Lemma req_eq r1 r2 : r1 = r2 -> req r1 r2.
Proof. intros ->. apply req_refl. Qed.
Lemma req_ok_l v r : req (Ok v) r -> r = Ok v.
Proof. destruct r; cbn; [congruence | tauto]. Qed.
Lemma req_ok_r v r : req r (Ok v) -> r = Ok v.
Proof. destruct r; cbn; [congruence | tauto]. Qed.
Lemma req_err_l k r : req (Err k) r -> is_err r.
Proof. destruct r; cbn; tauto. Qed.
Lemma req_err r1 r2 : req r1 r2 -> is_err r1 -> is_err r2.
Proof. destruct r1, r2; cbn; tauto. Qed.
Lemma is_err_req r1 r2 : is_err r1 -> is_err r2 -> req r1 r2.
Proof. destruct r1, r2; cbn; tauto. Qed.
Lemma is_err_bind r f : is_err r -> is_err (bindr r f).
Proof. destruct r; cbn; tauto. Qed.

Lemma seq_res_cong rs rs' : Forall2 req rs rs' ->
  match seq_res rs, seq_res rs' with
  | inr vs, inr vs' => vs = vs'
  | inl _, inl _ => True
  | _, _ => False
  end.
Proof.
  induction 1 as [|r r' rs rs' Hr _ IH]; cbn [seq_res]; auto.
  destruct r, r'; cbn [req] in Hr; try contradiction; auto. subst.
  destruct (seq_res rs), (seq_res rs'); auto. congruence.
Qed.

Definition kreq (p q : str * res) : Prop := fst p = fst q /\ req (snd p) (snd q).

Lemma seq_rec_cong rs rs' : Forall2 kreq rs rs' ->
  match seq_rec rs, seq_rec rs' with
  | inr vs, inr vs' => vs = vs'
  | inl _, inl _ => True
  | _, _ => False
  end.
Proof.
  induction 1 as [|[k r] [k' r'] rs rs' [Hk Hr] _ IH]; cbn [seq_rec]; auto.
  cbn [fst snd] in *. subst k'.
  destruct r, r'; cbn [req] in Hr; try contradiction; auto. subst.
  destruct (seq_rec rs), (seq_rec rs'); auto. congruence.
Qed.

Lemma rec_insert_kreq k v v' l l' : req v v' -> Forall2 kreq l l' ->
  Forall2 kreq (rec_insert k v l) (rec_insert k v' l').
Proof.
  intros Hv. induction 1 as [|[k1 r1] [k2 r2] l l' [Hk Hr] Hl IH]; cbn [rec_insert].
  - constructor; [split; auto | constructor].
  - cbn [fst snd] in *. subst k2.
    destruct (str_ltb k k1).
    + constructor; [split; auto|]. constructor; [split; auto | auto].
    + destruct (str_eqb k k1).
      * constructor; [split; auto | auto].
      * constructor; [split; auto | auto].
Qed.

Lemma rec_of_list_kreq l l' : Forall2 kreq l l' -> Forall2 kreq (rec_of_list l) (rec_of_list l').
Proof.
  unfold rec_of_list. intros H.
  assert (G : forall acc acc', Forall2 kreq acc acc' ->
     Forall2 kreq (fold_left (fun acc kv => rec_insert (fst kv) (snd kv) acc) l acc)
                  (fold_left (fun acc kv => rec_insert (fst kv) (snd kv) acc) l' acc')).
  { induction H as [|p q l l' [Hk Hr] _ IH]; intros acc acc' Ha; cbn [fold_left]; auto.
    apply IH. rewrite Hk. apply rec_insert_kreq; auto. }
  apply G. constructor.
Qed.

Lemma nth_res_req rs rs' n : Forall2 req rs rs' -> req (nth_res rs n) (nth_res rs' n).
Proof.
  unfold nth_res. intros H. revert n. induction H as [|r r' rs rs' Hr _ IH]; intros [|n]; cbn [nth]; auto.
  all: exact I.
Qed.

(* case analysis on a chain of tests without restating the rest of the chain in the motive *)
Lemma if_elim {A} (P : A -> Prop) (c : bool) x y : (c = true -> P x) -> (c = false -> P y) -> P (if c then x else y).
Proof. destruct c; auto. Qed.
Lemma if_elim2 {A} (T : A -> A -> Prop) (c : bool) x y x' y' :
  (c = true -> T x x') -> (c = false -> T y y') -> T (if c then x else y) (if c then x' else y').
Proof. destruct c; auto. Qed.

(* Two evaluations that decode their operands in the same way: a relation T that holds of any two errors lifts
   from the results computed from the decoded operands to the whole. *)
Section ExtLift.
  Variable T : res -> res -> Prop.
  Hypothesis Terr : forall k k', T (Err k) (Err k').

  Lemma lift_bindr a a' f f' : req a a' -> (forall v, T (f v) (f' v)) -> T (bindr a f) (bindr a' f').
  Proof. destruct a, a'; cbn [req bindr]; try contradiction; [intros -> H; apply H | auto]. Qed.
  Lemma lift_as_string v f f' : (forall x, T (f x) (f' x)) -> T (as_string v f) (as_string v f').
  Proof. destruct v; cbn [as_string]; auto. Qed.
  Lemma lift_as_decimal v f f' : (forall x, T (f x) (f' x)) -> T (as_decimal v f) (as_decimal v f').
  Proof. destruct v; cbn [as_decimal]; auto. Qed.
  Lemma lift_as_datetime v f f' : (forall x, T (f x) (f' x)) -> T (as_datetime v f) (as_datetime v f').
  Proof. destruct v; cbn [as_datetime]; auto. Qed.
  Lemma lift_as_duration v f f' : (forall x, T (f x) (f' x)) -> T (as_duration v f) (as_duration v f').
  Proof. destruct v; cbn [as_duration]; auto. Qed.
  Lemma lift_as_ip v f f' : (forall x y z, T (f x y z) (f' x y z)) -> T (as_ip v f) (as_ip v f').
  Proof. destruct v; cbn [as_ip]; auto. Qed.
  Lemma lift_as_bool v f f' : (forall x, T (f x) (f' x)) -> T (as_bool v f) (as_bool v f').
  Proof. destruct v; cbn [as_bool]; auto. Qed.
  Lemma lift_as_long v f f' : (forall x, T (f x) (f' x)) -> T (as_long v f) (as_long v f').
  Proof. destruct v; cbn [as_long]; auto. Qed.
  Lemma lift_as_set v f f' : (forall x, T (f x) (f' x)) -> T (as_set v f) (as_set v f').
  Proof. destruct v; cbn [as_set]; auto. Qed.
  Lemma lift_as_entity v f f' : (forall x, T (f x) (f' x)) -> T (as_entity v f) (as_entity v f').
  Proof. destruct v; cbn [as_entity]; auto. Qed.
End ExtLift.

Lemma req_errs k k' : req (Err k) (Err k').
Proof. exact I. Qed.

(* One step through a bind, a projection or a test that both sides share. *)
Ltac lift_step T HT :=
  first [ apply (lift_bindr T HT); [first [assumption | apply req_refl] | intro] | apply if_elim2; intros _
        | apply (lift_as_bool T HT); intro | apply (lift_as_long T HT); intro
        | apply (lift_as_string T HT); intro | apply (lift_as_set T HT); intro
        | apply (lift_as_entity T HT); intro | apply (lift_as_decimal T HT); intro
        | apply (lift_as_datetime T HT); intro | apply (lift_as_duration T HT); intro
        | apply (lift_as_ip T HT); intros ? ? ? ].

(* req between two results built alike from operands related by req (hypotheses of the context): down to the
   same result or to two related operands *)
Ltac req_lift := repeat lift_step req req_errs; first [assumption | apply req_refl].

(* a result is an error because an operand bound somewhere in it is one (hypothesis of the context): down to
   that bind, or to an error that is met before *)
Ltac err_lift :=
  let T := fresh "T" in let HT := fresh "HT" in
  pose (T := fun r (_ : res) => is_err r);
  assert (HT : forall k k', T (Err k) (Err k')) by (intros; exact I);
  match goal with |- is_err ?X => change (T X X) end;
  repeat first [ unfold T; apply is_err_bind; assumption | apply HT | lift_step T HT ].

Lemma call_ext_cong name rs rs' : Forall2 req rs rs' -> req (call_ext name rs) (call_ext name rs').
Proof.
  intros H. unfold call_ext.
  rewrite (Forall2_length _ _ _ H).
  pose proof (nth_res_req rs rs' 0 H) as H0. pose proof (nth_res_req rs rs' 1 H) as H1.
  destruct (ext_lookup name) as [[ar fl]|]; [|exact I].
  match goal with |- req (if ?c then _ else _) _ => destruct c end; [exact I|].
  req_lift.
Qed.

(* an erroring argument makes an extension call fail *)
Lemma name_is_eq name n : name_is name n = true -> name = s_of n.
Proof. unfold name_is. apply str_eqb_eq. Qed.

Lemma call_ext_strict name rs : Exists is_err rs -> is_err (call_ext name rs).
Proof.
  intros H. unfold call_ext.
  destruct (ext_lookup name) as [[ar fl]|] eqn:EL; [|exact I].
  match goal with |- is_err (if ?c then _ else _) => destruct c eqn:EA end; [exact I|].
  apply negb_false_iff, Z.eqb_eq in EA. apply (f_equal Z.to_nat) in EA. rewrite Nat2Z.id in EA.
  (* in each branch the table gives the arity, hence the shape of rs; then the call computes to an error *)
  repeat (apply if_elim; [intros Hn | intros _]); try exact I;
  apply name_is_eq in Hn; subst name;
  vm_compute in EL; injection EL as Har Hfl; rewrite <- Har in EA; clear Har Hfl;
  (destruct rs as [|r0 [|r1 [|r2 rs]]]; try discriminate EA);
  unfold nth_res; cbn [nth];
  (destruct r0 as [v|]; [|exact I]);
  try (destruct r1 as [|]; [|destruct v; exact I]);
  exfalso; repeat (apply Exists_cons in H; destruct H as [[]|H]); inversion H.
Qed.

(* H : <clause of the evaluator> = Ok _.  Unfold the binds and split on every scrutinee; the branches that return an error go *)
Local Ltac crunch H :=
  repeat (cbv beta iota delta [bindr as_bool as_long as_string as_set as_entity as_decimal as_datetime
               as_duration as_ip vbool opt_res of_search arith_eval cmp_eval] in H;
    match type of H with
    | Ok _ = Ok _ => fail 1
    | Err _ = Ok _ => discriminate H
    | context [match ?x with _ => _ end] => destruct x eqn:?
    end).

Lemma call_ext_plain name rs v : call_ext name rs = Ok v -> plain v.
Proof.
  unfold call_ext.
  destruct (ext_lookup name) as [[ar fl]|]; [|discriminate].
  match goal with |- (if ?c then _ else _) = _ -> _ => destruct c end; [discriminate|].
  set (a0 := nth_res rs 0) in *. set (a1 := nth_res rs 1) in *. clearbody a0 a1.
  unfold to_date, to_time.
  repeat (apply (if_elim (fun r => r = Ok v -> plain v)); intros _); try discriminate;
  intros H; crunch H; inversion H; subst; exact I.
Qed.

Section EvalQ.
  Variable Q : value -> Prop.
  Hypothesis HQ : hered Q.
  Variable en : env.

  Definition store_Q : Prop := forall u ent, lookup (e_store en) u = Some ent ->
    Forall (fun kv => Q (snd kv)) (e_attrs ent) /\ Forall (fun kv => Q (snd kv)) (e_tags ent).

  Definition node_Q (e : expr) : Prop :=
    match e with ELit v => Q v | EVar x => Q (var_value en x) | _ => True end.

  Hypothesis Hst : store_Q.

  (* after crunch, H : Ok _ = Ok v: the value is plain, or Q of it is a hypothesis (an operand, a store value) *)
  Ltac fin H := crunch H; inversion H; subst; try (apply (h_plain Q HQ); exact I); eauto.

  Lemma eval_Q : forall e, expr_forall node_Q e -> forall v, eval en e = Ok v -> Q v.
  Proof.
    induction e using expr_ind'; intros Hf v0 Hev;
      try (cbn [expr_forall] in Hf; cbn [eval arith_eval cmp_eval] in Hev;
           repeat match goal with H : _ /\ _ |- _ => destruct H end;
           fin Hev; fail).
    - (* EIn *) cbn [expr_forall] in Hf. cbn [eval] in Hev. unfold do_in in Hev. fin Hev.
    - (* EAccess *) cbn [expr_forall] in Hf. destruct Hf as [_ Hf]. cbn [eval] in Hev. unfold get_attr in Hev.
      crunch Hev; inversion Hev; subst.
      + destruct (Hst _ _ Heqo) as [Ha _]. eapply rec_get_Forall; eauto.
      + eapply rec_get_Forall; [|eauto]. apply (h_recinv Q HQ). eauto.
    - (* EHas *) cbn [expr_forall] in Hf. cbn [eval] in Hev. unfold has_attr in Hev. fin Hev.
    - (* EGetTag *) cbn [expr_forall] in Hf. cbn [eval] in Hev. crunch Hev; inversion Hev; subst.
      destruct (Hst _ _ Heqo) as [_ Ht]. eapply rec_get_Forall; eauto.
    - (* EIsIn *) cbn [expr_forall] in Hf. cbn [eval] in Hev. unfold do_in in Hev. fin Hev.
    - (* ESet *) apply expr_forall_set in Hf. destruct Hf as [_ Hf]. cbn [eval] in Hev.
      destruct (seq_res (map (eval en) es)) as [r|vs] eqn:E.
      + apply seq_res_inl in E. destruct E as [k ->]. discriminate.
      + inversion Hev; subst. apply (h_mkset Q HQ). eapply seq_res_Forall; [|exact E].
        apply Forall_map. rewrite Forall_forall in *. intros x Hx v Hv. eapply H; eauto.
    - (* ERecord *) apply expr_forall_record in Hf. destruct Hf as [_ Hf]. cbn [eval] in Hev.
      match type of Hev with match seq_rec ?l with _ => _ end = _ => destruct (seq_rec l) as [r|fs] eqn:E end.
      + apply seq_rec_inl in E. destruct E as [k ->]. discriminate.
      + inversion Hev; subst. apply (seq_rec_Forall Q) in E.
        * destruct E as [E1 E2]. apply (h_rec Q HQ); auto.
          rewrite (keys_sorted_ext _ _ E2). apply rec_of_list_sorted_gen.
        * apply (rec_of_list_Forall (fun r => forall v, r = Ok v -> Q v)).
          apply Forall_map. cbn [snd]. rewrite Forall_forall in *. intros x Hx v Hv. eapply H; eauto.
    - (* ECall *) cbn [eval] in Hev. apply call_ext_plain in Hev. apply (h_plain Q HQ). exact Hev.
  Qed.
End EvalQ.

Definition lit_of (e : expr) : option value := match e with ELit v => Some v | _ => None end.

Lemma lit_of_some e v : lit_of e = Some v -> e = ELit v.
Proof. destruct e; cbn; try discriminate. intros H; inversion H; reflexivity. Qed.

Lemma fold_stop p l r : fold_left (tp_step p) l (TPStop r) = TPStop r.
Proof. induction l as [|x l IH]; cbn [fold_left tp_step]; auto. Qed.

Lemma tp_step_node p ok nodes values orig n :
  tp_step p (TPGo ok nodes values) (orig, PNode n) =
  match lit_of n with
  | Some v => if negb p && has_marker is_ignore v then TPStop PIgnore
              else if negb p && has_marker is_variable v then TPGo false (orig :: nodes) values
              else TPGo ok (n :: nodes) (if ok then v :: values else values)
  | None => TPGo false (n :: nodes) values
  end.
Proof. destruct n; reflexivity. Qed.

Lemma try_partial_proj mk ev a r :
  try_partial true [a] [r] mk ev =
  match r with
  | PVar _ => PNode (mk [a])
  | PIgnore => PIgnore
  | PErr k => PErr k
  | PNode n =>
      match lit_of n with
      | Some v => match ev (mk [ELit v]) with
                  | Err k => PErr k
                  | Ok w => if is_variable w then PVar (mk [a]) else if is_ignore w then PIgnore else PNode (ELit w)
                  end
      | None => PNode (mk [n])
      end
  end.
Proof. destruct r as [n|n| |k]; try reflexivity. destruct n; reflexivity. Qed.

Lemma residual_operand_node n orig :
  residual_operand (PNode n) orig =
  match lit_of n with
  | Some v => if has_marker is_ignore v then PIgnore else if has_marker is_variable v then PNode orig else PNode n
  | None => PNode n
  end.
Proof. destruct n; reflexivity. Qed.

Lemma map_eval_lits en vs : map (eval en) (map ELit vs) = map Ok vs.
Proof. induction vs as [|v vs IH]; cbn [map eval]; congruence. Qed.

Lemma seq_res_strict rs : Exists is_err rs -> exists e, seq_res rs = inl e.
Proof.
  induction 1 as [r rs Hr | r rs _ IH]; cbn [seq_res].
  - destruct r; [destruct Hr | eauto].
  - destruct r; [|eauto]. destruct IH as [e ->]. eauto.
Qed.

Lemma LR_lits (e : env) keys vs :
  map (fun kv : str * expr => (fst kv, eval e (snd kv))) (combine keys (map ELit vs)) = combine keys (map Ok vs).
Proof.
  revert vs. induction keys as [|k keys IH]; intros [|v vs]; cbn [combine map fst snd eval]; auto.
  rewrite IH. reflexivity.
Qed.

Lemma combine_fst_snd {A B} (l : list (A * B)) : combine (map fst l) (map snd l) = l.
Proof. induction l as [|[a b] l IH]; cbn [map combine fst snd]; congruence. Qed.

Lemma map_fst_combine {A B} (ks : list A) (xs : list B) :
  List.length xs = List.length ks -> map fst (combine ks xs) = ks.
Proof.
  revert xs. induction ks as [|k ks IH]; intros [|x xs]; cbn [List.length combine map fst]; try discriminate; auto.
  intros H. rewrite IH; auto.
Qed.

Lemma in_combine_exists {A B} (ks : list A) (xs : list B) x :
  List.length xs = List.length ks -> In x xs -> exists k, In (k, x) (combine ks xs).
Proof.
  revert xs. induction ks as [|k ks IH]; intros [|y xs]; cbn [List.length combine]; try discriminate.
  - intros _ [].
  - intros H [->|Hx]; [exists k; left; reflexivity|].
    destruct (IH xs (eq_add_S _ _ H) Hx) as [k' Hk]. exists k'. right. exact Hk.
Qed.

Lemma seq_rec_err l k r : rec_get k l = Some r -> is_err r -> exists e, seq_rec l = inl e.
Proof.
  induction l as [|[k' r'] l IH]; cbn [rec_get seq_rec]; [discriminate|].
  intros Hg He. destruct r' as [v|kk]; [|eauto].
  destruct (str_eqb k k').
  - inversion Hg; subst. destruct He.
  - destruct (IH Hg He) as [e ->]. eauto.
Qed.

Lemma has_attr_cases st v k :
  (exists b, has_attr st v k = Ok (VBool b)) \/ has_attr st v k = Err EType.
Proof.
  destruct v; cbn [has_attr]; auto.
  - destruct (lookup st (ty, id)); unfold vbool; eauto.
  - unfold vbool; eauto.
Qed.

Lemma Q2_bool b : Q2 (VBool b).
Proof. split; reflexivity. Qed.

Section Cong.
  Variable ec : env.
  Definition Re (x y : expr) : Prop := req (eval ec x) (eval ec y).

  Lemma Re_refl x : Re x x. Proof. apply req_refl. Qed.
  Lemma Re_and x x' y y' : Re x x' -> Re y y' -> Re (EAnd x y) (EAnd x' y').
  Proof. unfold Re. intros. cbn [eval]. req_lift. Qed.
  Lemma Re_or x x' y y' : Re x x' -> Re y y' -> Re (EOr x y) (EOr x' y').
  Proof. unfold Re. intros. cbn [eval]. req_lift. Qed.
  Lemma Re_if x x' y y' z z' : Re x x' -> Re y y' -> Re z z' -> Re (EIf x y z) (EIf x' y' z').
  Proof. unfold Re. intros. cbn [eval]. req_lift. Qed.
  Lemma Re_access x x' k : Re x x' -> Re (EAccess x k) (EAccess x' k).
  Proof. unfold Re. intros. cbn [eval]. req_lift. Qed.
  Lemma Re_has x x' k : Re x x' -> Re (EHas x k) (EHas x' k).
  Proof. unfold Re. intros. cbn [eval]. req_lift. Qed.
  Lemma Re_isin ty x x' y y' : Re x x' -> Re y y' -> Re (EIsIn x ty y) (EIsIn x' ty y').
  Proof. unfold Re. intros. cbn [eval]. req_lift. Qed.

  Lemma F2_map_Re xs ys : Forall2 Re xs ys -> Forall2 req (map (eval ec) xs) (map (eval ec) ys).
  Proof. induction 1; cbn [map]; constructor; auto. Qed.

  Lemma Exists_map_erre xs : Exists (fun x => is_err (eval ec x)) xs -> Exists is_err (map (eval ec) xs).
  Proof. induction 1; cbn [map]; [left | right]; auto. Qed.

  Lemma Re_set xs ys : Forall2 Re xs ys -> Re (ESet xs) (ESet ys).
  Proof.
    intros HF. unfold Re. cbn [eval]. pose proof (seq_res_cong _ _ (F2_map_Re _ _ HF)) as H.
    destruct (seq_res (map (eval ec) xs)) as [r|vs] eqn:E1, (seq_res (map (eval ec) ys)) as [r'|vs'] eqn:E2;
      try contradiction.
    - apply seq_res_inl in E1. apply seq_res_inl in E2. destruct E1 as [k ->], E2 as [k' ->]. exact I.
    - subst. apply req_refl.
  Qed.

  Lemma Re_call n xs ys : Forall2 Re xs ys -> Re (ECall n xs) (ECall n ys).
  Proof. intros HF. unfold Re. cbn [eval]. apply call_ext_cong. apply F2_map_Re. exact HF. Qed.

  Lemma LRe_kreq keys xs ys : Forall2 Re xs ys ->
    Forall2 kreq (map (fun kv : str * expr => (fst kv, eval ec (snd kv))) (combine keys xs))
                 (map (fun kv : str * expr => (fst kv, eval ec (snd kv))) (combine keys ys)).
  Proof.
    intros HF. revert keys. induction HF as [|x y xs ys Hxy _ IH]; intros [|k keys]; cbn [combine map]; try constructor.
    - split; auto.
    - apply IH.
  Qed.

  Lemma Re_record keys xs ys : Forall2 Re xs ys -> Re (ERecord (combine keys xs)) (ERecord (combine keys ys)).
  Proof.
    intros HF. unfold Re. cbn [eval].
    pose proof (seq_rec_cong _ _ (rec_of_list_kreq _ _ (LRe_kreq keys _ _ HF))) as H.
    match goal with |- req (match seq_rec ?l1 with _ => _ end) (match seq_rec ?l2 with _ => _ end) =>
      destruct (seq_rec l1) as [r|vs] eqn:E1, (seq_rec l2) as [r'|vs'] eqn:E2 end; try contradiction.
    - apply seq_rec_inl in E1. apply seq_rec_inl in E2. destruct E1 as [k ->], E2 as [k' ->]. exact I.
    - subst. apply req_refl.
  Qed.

  Lemma record_strict_e keys xs : NoDup keys -> List.length xs = List.length keys ->
    Exists (fun x => is_err (eval ec x)) xs -> is_err (eval ec (ERecord (combine keys xs))).
  Proof.
    intros Hnd Hlen Hex. apply Exists_exists in Hex. destruct Hex as (x & Hx & Herr).
    destruct (in_combine_exists keys xs x Hlen Hx) as [k Hk].
    cbn [eval].
    set (L := map (fun kv : str * expr => (fst kv, eval ec (snd kv))) (combine keys xs)).
    assert (HinL : In (k, eval ec x) L).
    { unfold L. change (k, eval ec x) with ((fun kv : str * expr => (fst kv, eval ec (snd kv))) (k, x)).
      apply in_map. exact Hk. }
    assert (HkL : map fst L = keys).
    { unfold L. rewrite map_map. cbn [fst]. apply map_fst_combine. exact Hlen. }
    assert (Hget : rec_get k (rec_of_list L) = Some (eval ec x)).
    { rewrite rec_of_list_get_gen. apply rec_get_nodup.
      - rewrite map_rev, HkL. apply NoDup_rev. exact Hnd.
      - apply in_rev. rewrite rev_involutive. exact HinL. }
    destruct (seq_rec_err _ _ _ Hget Herr) as [e He]. rewrite He.
    apply seq_rec_inl in He. destruct He as [kk ->]. exact I.
  Qed.
End Cong.

(* the tests partial makes on the result for a left operand, when that result is not a literal *)
Lemma lit_tests_none n : lit_of n = None ->
  is_nonbool_lit n = false /\ is_false_lit n = false /\ is_true_lit n = false.
Proof. destruct n; try discriminate; repeat split. Qed.

Lemma lit_match_none {A} n (f : value -> A) (d : A) : lit_of n = None -> match n with ELit v => f v | _ => d end = d.
Proof. destruct n; try discriminate; reflexivity. Qed.

Definition is_true (r : res) : bool := match r with Ok (VBool true) => true | _ => false end.
Definition all_true (en : env) (l : list expr) : bool := forallb (fun e => is_true (eval en e)) l.
Definition cond_expr (c : bool * expr) : expr := if fst c then snd c else ENot (snd c).
Definition strue (en : env) (x : var) (sc : scope) : bool := is_true (eval en (scope_expr x sc)).

Lemma bool_eval_true en e : is_true (bool_eval en e) = is_true (eval en e).
Proof. unfold bool_eval. destruct (eval en e) as [v|k]; [destruct v|]; reflexivity. Qed.

Lemma is_true_and en a b : is_true (eval en (EAnd a b)) = is_true (eval en a) && is_true (eval en b).
Proof.
  cbn [eval]. destruct (eval en a) as [v|k]; [|reflexivity]. destruct v as [[|]| | | | | | | | |]; try reflexivity.
  cbn [bindr as_bool negb is_true andb]. destruct (eval en b) as [w|k]; [destruct w|]; reflexivity.
Qed.

Lemma and_all_true en : forall es e, is_true (eval en (and_all e es)) = all_true en (e :: es).
Proof.
  induction es as [|e' es IH]; intros e; cbn [and_all].
  - unfold all_true. cbn [forallb]. rewrite andb_true_r. reflexivity.
  - rewrite is_true_and, IH. reflexivity.
Qed.

Lemma sat_all_true en p : sat en p = all_true en (policy_nodes p).
Proof.
  unfold sat, policy_to_expr. change (match bool_eval en ?e with Ok (VBool true) => true | _ => false end)
    with (is_true (bool_eval en e)).
  destruct (policy_nodes p) as [|e es]; [reflexivity|].
  rewrite bool_eval_true. apply and_all_true.
Qed.

Lemma all_true_app en l1 l2 : all_true en (l1 ++ l2) = all_true en l1 && all_true en l2.
Proof. apply forallb_app. Qed.

Lemma scope_opt en x sc : all_true en (if is_all sc then [] else [scope_expr x sc]) = strue en x sc.
Proof. unfold strue. destruct sc; cbn [is_all all_true forallb]; rewrite ?andb_true_r; reflexivity. Qed.

Lemma is_all_true sc : is_all sc = true -> sc = SAll.
Proof. destruct sc; cbn; congruence. Qed.

Lemma all_true_nodes en p :
  all_true en (policy_nodes p) =
  strue en VPrincipal (p_principal p) && strue en VAction (p_action p) && strue en VResource (p_resource p)
  && all_true en (map cond_expr (p_conds p)).
Proof.
  unfold policy_nodes. rewrite all_true_app. f_equal.
  destruct (is_all (p_principal p) && is_all (p_action p) && is_all (p_resource p)) eqn:E.
  - apply andb_true_iff in E. destruct E as [E E3]. apply andb_true_iff in E. destruct E as [E1 E2].
    rewrite (is_all_true _ E1), (is_all_true _ E2), (is_all_true _ E3). reflexivity.
  - rewrite !all_true_app, !scope_opt. rewrite andb_assoc. reflexivity.
Qed.

Lemma sat_eq en p :
  sat en p = strue en VPrincipal (p_principal p) && strue en VAction (p_action p) && strue en VResource (p_resource p)
             && all_true en (map cond_expr (p_conds p)).
Proof. rewrite sat_all_true. apply all_true_nodes. Qed.

(* the scope expression of the authorizer decides what partial_scope decides directly (Proofs/ScopeProofs.v) *)
Lemma strue_scope_holds en x t i sc : var_value en x = VEntity t i ->
  strue en x sc = scope_holds (e_store en) (t, i) sc.
Proof. intros Hv. unfold strue. rewrite (scope_expr_eval en x t i sc Hv). destruct (scope_holds _ _ sc); reflexivity. Qed.

Lemma partial_conds_unfold en permit kind body cs acc :
  partial_conds en permit ((kind, body) :: cs) acc =
  match partial en body with
  | PVar _ => partial_conds en permit cs ((kind, body) :: acc)
  | PIgnore => if permit then partial_conds en permit cs acc else None
  | PErr k => Some (rev ((kind, EPartialError k) :: acc))
  | PNode n =>
      match lit_of n with
      | Some (VBool b) => if Bool.eqb b kind then partial_conds en permit cs acc else None
      | Some _ => Some (rev ((kind, EPartialError EType) :: acc))
      | None => partial_conds en permit cs ((kind, n) :: acc)
      end
  end.
Proof.
  cbn [partial_conds]. destruct (partial en body) as [n|n| |k]; try reflexivity.
  destruct n; reflexivity.
Qed.

Definition ctrue (en : env) (c : bool * expr) : bool := is_true (eval en (cond_expr c)).

Lemma req_is_true r1 r2 : req r1 r2 -> is_true r1 = is_true r2.
Proof. destruct r1, r2; cbn [req]; try tauto. intros ->. reflexivity. Qed.

Lemma ctrue_req en kind n body : req (eval en n) (eval en body) -> ctrue en (kind, n) = ctrue en (kind, body).
Proof.
  intros H. unfold ctrue, cond_expr. cbn [fst snd]. destruct kind; [apply req_is_true; exact H|].
  apply req_is_true. cbn [eval]. destruct (eval en n), (eval en body); cbn [req] in H; try contradiction.
  - subst. apply req_refl.
  - exact I.
Qed.

Lemma ctrue_err en kind body : is_err (eval en body) -> ctrue en (kind, body) = false.
Proof.
  unfold ctrue, cond_expr. cbn [fst snd]. destruct kind; cbn [eval]; destruct (eval en body); cbn; tauto.
Qed.

Lemma ctrue_bool en kind body b : eval en body = Ok (VBool b) -> ctrue en (kind, body) = Bool.eqb b kind.
Proof.
  unfold ctrue, cond_expr. cbn [fst snd]. intros H. destruct kind; cbn [eval]; rewrite H; destruct b; reflexivity.
Qed.

Lemma ctrue_nonbool en kind body v : eval en body = Ok v -> (forall b, v <> VBool b) -> ctrue en (kind, body) = false.
Proof.
  unfold ctrue, cond_expr. cbn [fst snd]. intros H Hb.
  destruct kind; cbn [eval]; rewrite H; destruct v; try reflexivity; exfalso; eapply Hb; reflexivity.
Qed.

Lemma all_true_snoc en acc c :
  all_true en (map cond_expr (rev (c :: acc))) = all_true en (map cond_expr (rev acc)) && ctrue en c.
Proof.
  cbn [rev]. rewrite map_app, all_true_app. cbn [map all_true forallb]. rewrite andb_true_r. reflexivity.
Qed.

(* [rel v v']: the value v of the partial request (it may hold markers) becomes v' in the completed request.
   Two instances: v' = subst_val s v (unknowns only, below) and "substitute, then fill the ignore markers"
   (Proofs/PartialIgnoreProofs.v).  The evaluator needs to know two things about it. *)
Record completion (rel : value -> value -> Prop) : Prop := {
  c_Q3 : forall v v', Q3 v -> (rel v v' <-> v' = v);                 (* marker-free values stay as they are *)
  c_shape : forall v v', is_variable v = false -> is_ignore v = false -> rel v v' ->
    match v with                                                      (* a value that is not a marker keeps its shape *)
    | VSet _ => exists l', v' = VSet l'
    | VRecord l => exists l', v' = VRecord l' /\
                     Forall2 (fun kv kv' : str * value => fst kv = fst kv' /\ rel (snd kv) (snd kv')) l l'
    | _ => v' = v
    end }.

Section Sound.
  Variable en : env.
  Variables p' a' r' c' : value.            (* the completed request parts *)
  Local Notation ec :=
    {| e_store := e_store en; e_principal := p'; e_action := a'; e_resource := r'; e_context := c' |}.
  Variable rel : value -> value -> Prop.

  Hypothesis Hcomp : completion rel.
  Hypothesis Hst : store_Q Q3 en.                                        (* store values: no markers, well-formed *)
  Hypothesis Hwf : env_wf en.
  Hypothesis Hrel : forall x, rel (var_value en x) (var_value ec x).     (* ec completes en *)

  Local Notation R := (Re ec).

  Lemma rel_Q3 v v' : Q3 v -> rel v v' -> v' = v.
  Proof. intros HQ. apply (c_Q3 rel Hcomp v v' HQ). Qed.

  Lemma rel_refl_Q3 v : Q3 v -> rel v v.
  Proof. intros HQ. apply (c_Q3 rel Hcomp v v HQ). reflexivity. Qed.

  Lemma rel_bool b v' : rel (VBool b) v' -> v' = VBool b.
  Proof. apply (c_shape rel Hcomp (VBool b) v'); reflexivity. Qed.

  Lemma rel_nonbool v v' : is_variable v = false -> is_ignore v = false -> rel v v' ->
    (forall b, v <> VBool b) -> forall b, v' <> VBool b.
  Proof.
    intros Hv Hi H Hb b. pose proof (c_shape rel Hcomp v v' Hv Hi H) as Hs.
    destruct v; try (subst v'; apply Hb); try (subst v'; discriminate).
    - destruct Hs as [l' ->]. discriminate.
    - destruct Hs as [l' [-> _]]. discriminate.
  Qed.

  (* what is known of a literal result: it is not a marker itself, and holds an ignore marker only if the request does *)
  Definition kept_lit (v : value) : Prop :=
    is_variable v = false /\ is_ignore v = false /\ wf_value v = true /\ (no_ignore en -> has_marker is_ignore v = false).

  (* n is a residual of e: it evaluates like e (up to the error kind), and is again a clean expression, so that it
     can be partially evaluated once more (Proofs/BatchProofs.v) *)
  Definition resid (n e : expr) : Prop := R n e /\ expr_clean n.

  Lemma resid_refl e : expr_clean e -> resid e e.
  Proof. split; [apply Re_refl | assumption]. Qed.

  Lemma resid_list ns es : Forall2 resid ns es -> Forall2 R ns es /\ Forall expr_clean ns.
  Proof. induction 1 as [|n e ns es [Hr Hc] _ [IH1 IH2]]; split; constructor; assumption. Qed.

  (* the invariant: a literal result is completed by the value of the expression; anything else kept is a residual;
     errIgnore is only ever reported when some request part holds an ignore marker *)
  Definition sound_res (e : expr) (r : pres) : Prop :=
    match r with
    | PNode n => match lit_of n with
                 | Some v => (exists v', eval ec e = Ok v' /\ rel v v') /\ kept_lit v
                 | None => resid n e
                 end
    | PVar n => resid n e
    | PErr _ => is_err (eval ec e)
    | PIgnore => ~ no_ignore en
    end.

  Lemma sound_res_transfer e1 e2 r : eval ec e1 = eval ec e2 -> sound_res e1 r -> sound_res e2 r.
  Proof. unfold sound_res, resid, Re. intros ->. auto. Qed.

  Lemma sound_res_Q3 e v : eval ec e = Ok v -> Q3 v -> sound_res e (PNode (ELit v)).
  Proof.
    intros Hev HQ. cbn [sound_res lit_of]. split; [exists v; split; [exact Hev | apply rel_refl_Q3; exact HQ]|].
    destruct HQ as [[Hw Hig] Hv]. split; [apply novar_top; exact Hv|]. split; [apply noign_top; exact Hig|].
    split; [exact Hw | intros _; exact Hig].
  Qed.

  Lemma lit_Q3 v : kept_lit v -> has_marker is_ignore v = false -> has_marker is_variable v = false -> Q3 v.
  Proof. intros (_ & _ & Hw & _) Hi Hv. unfold Q3, Q2. tauto. Qed.

  Lemma kept_lit_ign v : kept_lit v -> has_marker is_ignore v = true -> ~ no_ignore en.
  Proof. intros (_ & _ & _ & H) Hi Hn. rewrite (H Hn) in Hi. discriminate. Qed.

  (* a literal that tryPartial keeps among the nodes *)
  Lemma resid_lit v v' x : eval ec x = Ok v' -> rel v v' -> kept_lit v ->
    has_marker is_ignore v = false -> has_marker is_variable v = false -> Q3 v /\ resid (ELit v) x.
  Proof.
    intros Hev Hr Hlit Hi Hv. pose proof (lit_Q3 v Hlit Hi Hv) as HQ. split; [exact HQ|].
    rewrite (rel_Q3 v v' HQ Hr) in Hev. split.
    - unfold Re. rewrite Hev. apply req_refl.
    - split; [|exact I]. split; [unfold marker_free; rewrite Hi, Hv; reflexivity | apply HQ].
  Qed.

  (* tryPartial on a strict operator node [mk kids]; the six hypotheses are all it needs to know of the operator *)
  Section TP.
    Variable mk : list expr -> expr.
    Variable kids : list expr.
    Hypothesis mk_cong : forall xs ys, List.length xs = List.length kids -> Forall2 R xs ys -> R (mk xs) (mk ys).
    Hypothesis mk_lits : forall vs, List.length vs = List.length kids ->
      eval en (mk (map ELit vs)) = eval ec (mk (map ELit vs)).
    Hypothesis mk_Q : forall vs v, List.length vs = List.length kids -> Forall Q3 vs ->
      eval en (mk (map ELit vs)) = Ok v -> Q3 v.
    Hypothesis mk_strict : Exists (fun x => is_err (eval ec x)) kids -> is_err (eval ec (mk kids)).
    Hypothesis mk_notlit : forall xs, lit_of (mk xs) = None.
    Hypothesis mk_clean : forall xs, List.length xs = List.length kids -> Forall expr_clean xs -> expr_clean (mk xs).

    (* the loop has consumed the operands [pre]; [nodes] (reversed) are what it kept for them; [ok] says that all of
       them were marker-free literals, whose values are [values] (reversed) *)
    Definition inv (pre : list expr) (ok : bool) (nodes : list expr) (values : list value) : Prop :=
      Forall2 resid (rev nodes) pre /\
      (ok = true -> rev nodes = map ELit (rev values) /\ Forall Q3 values).

    Definition stop_ok (rest : list expr) (r : pres) : Prop :=
      (r = PIgnore /\ ~ no_ignore en) \/ ((exists k, r = PErr k) /\ Exists (fun x => is_err (eval ec x)) rest).

    Lemma stop_ok_cons x rest r : stop_ok rest r -> stop_ok (x :: rest) r.
    Proof. intros [H|[H1 H2]]; [left; exact H | right; split; auto]. Qed.

    Lemma inv_keep pre ok nodes values x n : inv pre ok nodes values -> resid n x ->
      inv (pre ++ [x]) false (n :: nodes) values.
    Proof.
      intros [H1 _] Hr. split; [|discriminate].
      cbn [rev]. apply Forall2_app; auto.
    Qed.

    Lemma inv_lit pre ok nodes values x v : inv pre ok nodes values -> resid (ELit v) x -> Q3 v ->
      inv (pre ++ [x]) ok (ELit v :: nodes) (if ok then v :: values else values).
    Proof.
      intros [H1 H2] Hr HQ. split.
      - cbn [rev]. apply Forall2_app; auto.
      - intros ->. destruct (H2 eq_refl) as [H3 H4]. split.
        + cbn [rev]. rewrite map_app, H3. reflexivity.
        + constructor; auto.
    Qed.

    Lemma fold_sound : forall rest rs, Forall2 sound_res rest rs -> Forall expr_clean rest ->
      forall pre ok nodes values, inv pre ok nodes values ->
      match fold_left (tp_step false) (combine rest rs) (TPGo ok nodes values) with
      | TPStop r => stop_ok rest r
      | TPGo ok' nodes' values' => inv (pre ++ rest) ok' nodes' values'
      end.
    Proof.
      induction 1 as [|x r rest rs Hx _ IH]; intros Hcl pre ok nodes values Hinv.
      - cbn [combine fold_left]. rewrite app_nil_r. exact Hinv.
      - cbn [combine fold_left]. inversion Hcl as [|? ? Hcx Hcr]; subst. specialize (IH Hcr).
        assert (Hgo : forall ok' nodes' values', inv (pre ++ [x]) ok' nodes' values' ->
          match fold_left (tp_step false) (combine rest rs) (TPGo ok' nodes' values') with
          | TPStop r => stop_ok (x :: rest) r
          | TPGo ok' nodes' values' => inv (pre ++ x :: rest) ok' nodes' values'
          end).
        { intros ok' nodes' values' Hi. specialize (IH _ _ _ _ Hi). rewrite <- app_assoc in IH. cbn [app] in IH.
          destruct (fold_left _ _ _); [exact IH | apply stop_ok_cons; exact IH]. }
        pose proof (fun n Hn => Hgo _ _ _ (inv_keep _ _ _ _ x n Hinv Hn)) as Hkeep.
        destruct r as [n|n| |k].
        + rewrite tp_step_node. cbn [sound_res] in Hx. destruct (lit_of n) as [v|] eqn:El.
          * destruct Hx as ((v' & Hev & Hr) & Hlit). cbn [negb andb].
            destruct (has_marker is_ignore v) eqn:Hig; [rewrite fold_stop; left; split; [reflexivity | eapply kept_lit_ign; eauto]|].
            destruct (has_marker is_variable v) eqn:Hv.
            -- apply Hkeep. apply resid_refl. exact Hcx.
            -- apply lit_of_some in El. subst n.
               destruct (resid_lit v v' x Hev Hr Hlit Hig Hv) as [HQ3 Hrn]. apply Hgo, inv_lit; assumption.
          * apply Hkeep. exact Hx.
        + cbn [tp_step]. apply Hkeep. apply resid_refl. exact Hcx.
        + cbn [tp_step]. rewrite fold_stop. left. split; [reflexivity | exact Hx].
        + cbn [tp_step]. rewrite fold_stop. right. split; [eauto|]. left. exact Hx.
    Qed.

    Lemma try_partial_sound rs : Forall2 sound_res kids rs -> Forall expr_clean kids ->
      sound_res (mk kids) (try_partial false kids rs mk (eval en)).
    Proof.
      intros HF Hcl. unfold try_partial.
      assert (Hinv0 : inv [] true [] []).
      { split; [constructor|]. intros _. split; [reflexivity | constructor]. }
      pose proof (fold_sound kids rs HF Hcl [] true [] [] Hinv0) as H.
      destruct (fold_left _ _ _) as [ok nodes values|r].
      - cbn [app] in H. destruct H as [H1 H2].
        pose proof (Forall2_length _ _ _ H1) as Hlen. apply resid_list in H1. destruct H1 as [H1 Hcn].
        pose proof (mk_cong _ _ Hlen H1) as Hc.
        destruct ok.
        + destruct (H2 eq_refl) as [H3 H4]. rewrite H3 in Hc, Hlen. rewrite map_length in Hlen.
          assert (H5 : Forall Q3 (rev values)).
          { rewrite Forall_forall in *. intros x Hx. apply H4. apply in_rev. exact Hx. }
          unfold Re in Hc. rewrite <- (mk_lits _ Hlen) in Hc.
          destruct (eval en (mk (map ELit (rev values)))) as [v|k] eqn:E.
          * pose proof (mk_Q _ _ Hlen H5 E) as HQ. pose proof HQ as [[Hw Hig] Hv].
            rewrite (novar_top _ Hv), (noign_top _ Hig).
            apply req_ok_l in Hc. apply sound_res_Q3; auto.
          * cbn [sound_res]. eapply req_err_l. exact Hc.
        + cbn [sound_res]. rewrite mk_notlit. split; [exact Hc | apply mk_clean; assumption].
      - destruct H as [[-> H]|[[k ->] H]]; [exact H|]. cbn [sound_res]. apply mk_strict. exact H.
    Qed.
  End TP.

  Lemma un_sound (C : expr -> expr) a ra :
    (forall x x', R x x' -> R (C x) (C x')) ->
    (forall v, eval en (C (ELit v)) = eval ec (C (ELit v))) ->
    (forall v r, Q3 v -> eval en (C (ELit v)) = Ok r -> Q3 r) ->
    (is_err (eval ec a) -> is_err (eval ec (C a))) ->
    (forall x, lit_of (C x) = None) ->
    (forall x, expr_clean x -> expr_clean (C x)) ->
    sound_res a ra -> expr_clean a ->
    sound_res (C a) (try_partial false [a] [ra] (fun l => C (nth 0 l a)) (eval en)).
  Proof.
    intros Hcong Hlits HQ Hstrict Hnl Hcl Ha Hca.
    apply (try_partial_sound (fun l => C (nth 0 l a)) [a]).
    - intros xs ys Hlen HF. destruct HF as [|x y xs ys Hxy HF]; [discriminate|].
      destruct HF; [|discriminate]. cbn [nth]. auto.
    - intros [|v [|w vs]]; try discriminate. intros _. cbn [map nth]. apply Hlits.
    - intros [|v [|w vs]]; try discriminate. intros r _ HF. cbn [map nth]. apply HQ.
      inversion HF; auto.
    - intros H. cbn [nth]. apply Hstrict. inversion H as [? ? H1|? ? H1]; subst; [exact H1|inversion H1].
    - intros xs. apply Hnl.
    - intros [|x [|y xs]]; try discriminate. intros _ HF. cbn [nth]. apply Hcl. inversion HF; auto.
    - constructor; [exact Ha | constructor].
    - constructor; [exact Hca | constructor].
  Qed.

  Lemma bin_sound (C : expr -> expr -> expr) a b ra rb :
    (forall x x' y y', R x x' -> R y y' -> R (C x y) (C x' y')) ->
    (forall v w, eval en (C (ELit v) (ELit w)) = eval ec (C (ELit v) (ELit w))) ->
    (forall v w r, Q3 v -> Q3 w -> eval en (C (ELit v) (ELit w)) = Ok r -> Q3 r) ->
    (is_err (eval ec a) \/ is_err (eval ec b) -> is_err (eval ec (C a b))) ->
    (forall x y, lit_of (C x y) = None) ->
    (forall x y, expr_clean x -> expr_clean y -> expr_clean (C x y)) ->
    sound_res a ra -> sound_res b rb -> expr_clean a -> expr_clean b ->
    sound_res (C a b) (try_partial false [a; b] [ra; rb] (fun l => C (nth 0 l a) (nth 1 l b)) (eval en)).
  Proof.
    intros Hcong Hlits HQ Hstrict Hnl Hcl Ha Hb Hca Hcb.
    apply (try_partial_sound (fun l => C (nth 0 l a) (nth 1 l b)) [a; b]).
    - intros xs ys Hlen HF. destruct HF as [|x y xs ys Hxy HF]; [discriminate|].
      destruct HF as [|x1 y1 xs ys Hxy1 HF]; [discriminate|].
      destruct HF; [|discriminate]. cbn [nth]. auto.
    - intros [|v [|w [|u vs]]]; try discriminate. intros _. cbn [map nth]. apply Hlits.
    - intros [|v [|w [|u vs]]]; try discriminate. intros r _ HF. cbn [map nth].
      inversion HF as [|? ? H1 HF1]; subst. inversion HF1; subst. apply HQ; auto.
    - intros H. cbn [nth]. apply Hstrict.
      inversion H as [? ? H1|? ? H1]; subst; [left; exact H1|].
      inversion H1 as [? ? H2|? ? H2]; subst; [right; exact H2|inversion H2].
    - intros xs. apply Hnl.
    - intros [|x [|y [|z xs]]]; try discriminate. intros _ HF. cbn [nth].
      inversion HF as [|? ? H1 HF1]; subst. inversion HF1; subst. apply Hcl; auto.
    - constructor; [exact Ha | constructor; [exact Hb | constructor]].
    - constructor; [exact Hca | constructor; [exact Hcb | constructor]].
  Qed.

  Lemma embed_sound b r : expr_clean b -> sound_res b r ->
    match embed r b with None => ~ no_ignore en | Some n => resid n b end.
  Proof.
    intros Hcb. destruct r as [n|n| |k]; cbn [sound_res embed]; auto.
    - rewrite residual_operand_node. destruct (lit_of n) as [v|] eqn:El; auto.
      intros ((v' & Hev & Hr) & Hlit).
      destruct (has_marker is_ignore v) eqn:Hig; [eapply kept_lit_ign; eauto|].
      destruct (has_marker is_variable v) eqn:Hv; [apply resid_refl; exact Hcb|].
      apply lit_of_some in El. subst n. apply (resid_lit v v' b Hev Hr Hlit Hig Hv).
    - intros H. split; [exact H | split; exact I].
  Qed.

  Lemma get_attr_rel v v' k : kept_lit v -> rel v v' ->
    match get_attr (e_store en) v k with
    | Ok x => (exists x', get_attr (e_store en) v' k = Ok x' /\ rel x x') /\
              wf_value x = true /\ (no_ignore en -> has_marker is_ignore x = false)
    | Err _ => is_err (get_attr (e_store en) v' k)
    end.
  Proof.
    intros (Hv & Hi & Hw & Hn) Hr. pose proof (c_shape rel Hcomp v v' Hv Hi Hr) as Hs.
    destruct v; try (subst v'; exact I).
    - subst v'. cbn [get_attr].
      destruct (is_zero_uid (ty, id)); [exact I|].
      destruct (lookup (e_store en) (ty, id)) as [e|] eqn:El; [|exact I].
      destruct (rec_get k (e_attrs e)) as [x|] eqn:Eg; [|exact I].
      destruct (Hst _ _ El) as [Ha _].
      pose proof (rec_get_Forall Q3 _ _ _ Ha Eg) as Hx.
      split; [exists x; split; [reflexivity | apply rel_refl_Q3; exact Hx]|].
      destruct Hx as [[Hwx Hix] _]. split; [exact Hwx | intros _; exact Hix].
    - destruct Hs as [l' ->]. exact I.
    - destruct Hs as (l' & -> & HF). cbn [get_attr].
      pose proof (rec_get_F2 rel k _ _ HF) as Hg.
      destruct (rec_get k l) as [x|] eqn:Eg.
      + destruct Hg as (x' & -> & Hx). split; [eauto|]. split.
        * apply wf_rec_inv in Hw. destruct Hw as [_ Hw].
          exact (rec_get_Forall (fun v => wf_value v = true) _ _ _ Hw Eg).
        * intros Hni. exact (field_nomarker _ _ _ _ (Hn Hni) Eg).
      + rewrite Hg. exact I.
  Qed.

  Lemma partial_has_rel v v' k : kept_lit v -> rel v v' ->
    match partial_has (e_store en) v k with
    | inl r => has_attr (e_store en) v' k = r
    | inr _ => ~ no_ignore en
    end.
  Proof.
    intros (Hv & Hi & Hw & Hn) Hr. pose proof (c_shape rel Hcomp v v' Hv Hi Hr) as Hs.
    destruct v; try (subst v'; reflexivity).
    - subst v'. cbn [partial_has has_attr].
      destruct (lookup (e_store en) (ty, id)) as [e|] eqn:El; [|reflexivity].
      destruct (rec_get k (e_attrs e)) as [x|] eqn:Eg; [|reflexivity].
      destruct (Hst _ _ El) as [Ha _].
      pose proof (rec_get_Forall Q3 _ _ _ Ha Eg) as [[_ Hx] _]. rewrite (noign_top _ Hx). reflexivity.
    - destruct Hs as [l' ->]. reflexivity.
    - destruct Hs as (l' & -> & HF). cbn [partial_has has_attr].
      pose proof (rec_get_F2 rel k _ _ HF) as Hg.
      destruct (rec_get k l) as [x|] eqn:Eg.
      + destruct Hg as (x' & -> & Hx). destruct (is_ignore x) eqn:Hix; [|reflexivity].
        intros Hni. rewrite (noign_top _ (field_nomarker _ _ _ _ (Hn Hni) Eg)) in Hix. discriminate.
      + rewrite Hg. reflexivity.
  Qed.

  Lemma resid_access x x' k : resid x x' -> resid (EAccess x k) (EAccess x' k).
  Proof. intros [H1 H2]. split; [apply Re_access; exact H1 | split; [exact I | exact H2]]. Qed.
  Lemma resid_has x x' k : resid x x' -> resid (EHas x k) (EHas x' k).
  Proof. intros [H1 H2]. split; [apply Re_has; exact H1 | split; [exact I | exact H2]]. Qed.

  Lemma access_sound a k : expr_clean (EAccess a k) ->
    sound_res a (partial en a) -> sound_res (EAccess a k) (partial en (EAccess a k)).
  Proof.
    intros Hc Ha.
    change (partial en (EAccess a k))
      with (try_partial true [a] [partial en a] (fun l => EAccess (nth 0 l a) k) (eval en)).
    rewrite try_partial_proj. cbn [nth].
    destruct (partial en a) as [n|n| |kk]; cbn [sound_res] in Ha.
    - destruct (lit_of n) as [v|] eqn:El.
      + destruct Ha as ((v' & Hev & Hr) & Hlit). cbn [eval bindr].
        pose proof (get_attr_rel v v' k Hlit Hr) as Hg.
        destruct (get_attr (e_store en) v k) as [x|kk].
        * destruct Hg as [(x' & Hg & Hx) [Hwx Hnx]]. destruct (is_variable x) eqn:Hvx; [apply resid_refl; exact Hc|].
          destruct (is_ignore x) eqn:Hix.
          { intros Hni. rewrite (noign_top _ (Hnx Hni)) in Hix. discriminate. }
          cbn [sound_res lit_of eval]. rewrite Hev. cbn [bindr e_store]. split; [eauto|]. repeat split; auto.
        * cbn [sound_res eval]. rewrite Hev. exact Hg.
      + cbn [sound_res lit_of]. apply resid_access. exact Ha.
    - cbn [sound_res lit_of]. apply resid_refl. exact Hc.
    - exact Ha.
    - cbn [sound_res eval]. apply is_err_bind. exact Ha.
  Qed.

  Lemma ignore_not_variable : is_variable (VEntity ignore_type []) = false.
  Proof. vm_compute. reflexivity. Qed.
  Lemma ignore_is_ignore : is_ignore (VEntity ignore_type []) = true.
  Proof. vm_compute. reflexivity. Qed.

  Lemma has_sound a k : expr_clean (EHas a k) ->
    sound_res a (partial en a) -> sound_res (EHas a k) (partial en (EHas a k)).
  Proof.
    intros Hc Ha.
    change (partial en (EHas a k))
      with (try_partial true [a] [partial en a] (fun l => EHas (nth 0 l a) k)
              (fun n => match n with
                        | EHas (ELit v) _ => match partial_has (e_store en) v k with inl r => r | inr _ => Ok (VEntity ignore_type []) end
                        | _ => eval en n end)).
    rewrite try_partial_proj. cbn [nth].
    destruct (partial en a) as [n|n| |kk]; cbn [sound_res] in Ha.
    - destruct (lit_of n) as [v|] eqn:El.
      + destruct Ha as ((v' & Hev & Hr) & Hlit).
        pose proof (partial_has_rel v v' k Hlit Hr) as Hh.
        assert (Hec : eval ec (EHas a k) = has_attr (e_store en) v' k).
        { cbn [eval]. rewrite Hev. reflexivity. }
        destruct (partial_has (e_store en) v k) as [r|u].
        * subst r. destruct (has_attr_cases (e_store en) v' k) as [[b Hb]|Hb]; rewrite Hb in *.
          -- cbn [is_variable is_ignore]. apply sound_res_Q3; [exact Hec|]. repeat split.
          -- cbn [sound_res]. rewrite Hec. exact I.
        * rewrite ignore_not_variable, ignore_is_ignore. exact Hh.
      + cbn [sound_res lit_of]. apply resid_has. exact Ha.
    - cbn [sound_res lit_of]. apply resid_refl. exact Hc.
    - exact Ha.
    - cbn [sound_res eval]. apply is_err_bind. exact Ha.
  Qed.

  (* and / or / if / is..in: a literal left operand decides, otherwise the other operands are embedded *)
  Lemma resid_and x x' y y' : resid x x' -> resid y y' -> resid (EAnd x y) (EAnd x' y').
  Proof. intros [H1 H2] [H3 H4]. split; [apply Re_and; assumption | split; [exact I | split; assumption]]. Qed.
  Lemma resid_or x x' y y' : resid x x' -> resid y y' -> resid (EOr x y) (EOr x' y').
  Proof. intros [H1 H2] [H3 H4]. split; [apply Re_or; assumption | split; [exact I | split; assumption]]. Qed.
  Lemma resid_isin ty x x' y y' : resid x x' -> resid y y' -> resid (EIsIn x ty y) (EIsIn x' ty y').
  Proof. intros [H1 H2] [H3 H4]. split; [apply Re_isin; assumption | split; [exact I | split; assumption]]. Qed.

  Lemma finish_sound (C : expr -> expr -> expr) a b lft :
    (forall x x' y y', resid x x' -> resid y y' -> resid (C x y) (C x' y')) -> (forall x y, lit_of (C x y) = None) ->
    resid lft a -> expr_clean b -> sound_res b (partial en b) ->
    sound_res (C a b) (match embed (partial en b) b with None => PIgnore | Some rgt => PNode (C lft rgt) end).
  Proof.
    intros HC Hnl Hl Hcb Hb. apply (embed_sound b _ Hcb) in Hb. destruct (embed (partial en b) b) as [rgt|]; [|exact Hb].
    cbn [sound_res]. rewrite Hnl. apply HC; assumption.
  Qed.

  Lemma if_finish_sound c t f ifn : resid ifn c -> expr_clean t -> expr_clean f ->
    sound_res t (partial en t) -> sound_res f (partial en f) ->
    sound_res (EIf c t f)
      (match embed (partial en t) t with
       | None => PIgnore
       | Some tn => match embed (partial en f) f with None => PIgnore | Some fn => PNode (EIf ifn tn fn) end
       end).
  Proof.
    intros [Hc1 Hc2] Hct Hcf Ht Hf. apply (embed_sound t _ Hct) in Ht. apply (embed_sound f _ Hcf) in Hf.
    destruct (embed (partial en t) t) as [tn|]; [|exact Ht].
    destruct (embed (partial en f) f) as [fn|]; [|exact Hf].
    destruct Ht as [Ht1 Ht2], Hf as [Hf1 Hf2]. cbn [sound_res lit_of].
    split; [apply Re_if; assumption | split; [exact I | repeat split; assumption]].
  Qed.

  Lemma Q3_bool b : Q3 (VBool b).
  Proof. repeat split. Qed.

  Lemma lit_sound_bool b : sound_res (ELit (VBool b)) (PNode (ELit (VBool b))).
  Proof. apply sound_res_Q3; [reflexivity | apply Q3_bool]. Qed.

  Lemma node_Q3_lits2 (C : expr -> expr -> expr) :
    (forall x y, expr_forall (node_Q Q3 en) (C x y) <-> expr_forall (node_Q Q3 en) x /\ expr_forall (node_Q Q3 en) y) ->
    forall v w r, Q3 v -> Q3 w -> eval en (C (ELit v) (ELit w)) = Ok r -> Q3 r.
  Proof.
    intros HC v w r Hv Hw. apply (eval_Q Q3 hered_Q3 en Hst). apply HC. cbn [expr_forall node_Q]. tauto.
  Qed.

  Lemma node_Q3_lits1 (C : expr -> expr) :
    (forall x, expr_forall (node_Q Q3 en) (C x) <-> expr_forall (node_Q Q3 en) x) ->
    forall v r, Q3 v -> eval en (C (ELit v)) = Ok r -> Q3 r.
  Proof.
    intros HC v r Hv. apply (eval_Q Q3 hered_Q3 en Hst). apply HC. cbn [expr_forall node_Q]. tauto.
  Qed.

  (* a literal result for the left operand of and / or, or for the condition of if: under the completion it is the
     same boolean, or else the test of the operator fails *)
  Lemma lit_cond a v : (exists v', eval ec a = Ok v' /\ rel v v') -> kept_lit v ->
    match v with
    | VBool b => eval ec a = Ok (VBool b)
    | _ => forall f, is_err (bindr (eval ec a) (fun x => as_bool x (f x)))
    end.
  Proof.
    intros (v' & Hev & Hr) (Hv & Hi & _). rewrite Hev.
    assert (Hnb : (forall b, v <> VBool b) -> forall f, is_err (bindr (Ok v') (fun x => as_bool x (f x)))).
    { intros Hb f. pose proof (rel_nonbool v v' Hv Hi Hr Hb) as Hn. cbn [bindr].
      destruct v'; try exact I. exfalso. eapply Hn. reflexivity. }
    destruct v; try (apply Hnb; congruence). apply rel_bool in Hr. subst v'. reflexivity.
  Qed.

  Lemma and_sound a b : expr_clean (EAnd a b) -> sound_res a (partial en a) -> sound_res b (partial en b) ->
    sound_res (EAnd a b) (partial en (EAnd a b)).
  Proof.
    intros (_ & Hca & Hcb) Ha Hb. cbn [partial].
    destruct (partial en a) as [lft|lft| |k]; cbn [sound_res] in Ha.
    - destruct (lit_of lft) as [v|] eqn:El;
        [|destruct (lit_tests_none lft El) as (-> & -> & ->); apply (finish_sound EAnd); auto using resid_and].
      apply lit_of_some in El. subst lft. destruct Ha as [Hev Hlit]. pose proof (lit_cond a v Hev Hlit) as Hc.
      destruct v as [[|]| | | | | | | | |]; cbn [is_nonbool_lit is_false_lit is_true_lit];
        try (cbn [sound_res eval]; apply Hc).
      + eapply sound_res_transfer;
          [|apply (bin_sound EAnd (ELit (VBool true)) b);
            [apply Re_and | reflexivity | | | reflexivity | | apply lit_sound_bool | exact Hb | repeat split | exact Hcb]].
        * cbn [eval]. rewrite Hc. reflexivity.
        * apply node_Q3_lits2. intros x y. cbn [expr_forall node_Q]. tauto.
        * intros [H|H]; [destruct H|]. cbn [eval bindr as_bool negb]. apply is_err_bind. exact H.
        * intros x y Hx Hy. split; [exact I | split; assumption].
      + apply sound_res_Q3; [|apply Q3_bool]. cbn [eval]. rewrite Hc. reflexivity.
    - apply (finish_sound EAnd); auto using resid_and.
    - exact Ha.
    - cbn [sound_res eval]. apply is_err_bind. exact Ha.
  Qed.

  Lemma or_sound a b : expr_clean (EOr a b) -> sound_res a (partial en a) -> sound_res b (partial en b) ->
    sound_res (EOr a b) (partial en (EOr a b)).
  Proof.
    intros (_ & Hca & Hcb) Ha Hb. cbn [partial].
    destruct (partial en a) as [lft|lft| |k]; cbn [sound_res] in Ha.
    - destruct (lit_of lft) as [v|] eqn:El;
        [|destruct (lit_tests_none lft El) as (-> & -> & ->); apply (finish_sound EOr); auto using resid_or].
      apply lit_of_some in El. subst lft. destruct Ha as [Hev Hlit]. pose proof (lit_cond a v Hev Hlit) as Hc.
      destruct v as [[|]| | | | | | | | |]; cbn [is_nonbool_lit is_false_lit is_true_lit];
        try (cbn [sound_res eval]; apply Hc).
      + apply sound_res_Q3; [|apply Q3_bool]. cbn [eval]. rewrite Hc. reflexivity.
      + eapply sound_res_transfer;
          [|apply (bin_sound EOr (ELit (VBool false)) b);
            [apply Re_or | reflexivity | | | reflexivity | | apply lit_sound_bool | exact Hb | repeat split | exact Hcb]].
        * cbn [eval]. rewrite Hc. reflexivity.
        * apply node_Q3_lits2. intros x y. cbn [expr_forall node_Q]. tauto.
        * intros [H|H]; [destruct H|]. cbn [eval bindr as_bool negb]. apply is_err_bind. exact H.
        * intros x y Hx Hy. split; [exact I | split; assumption].
    - apply (finish_sound EOr); auto using resid_or.
    - exact Ha.
    - cbn [sound_res eval]. apply is_err_bind. exact Ha.
  Qed.

  Lemma if_sound c t f : expr_clean (EIf c t f) ->
    sound_res c (partial en c) -> sound_res t (partial en t) -> sound_res f (partial en f) ->
    sound_res (EIf c t f) (partial en (EIf c t f)).
  Proof.
    intros (_ & Hcc & Hct & Hcf) Hc Ht Hf. cbn [partial].
    destruct (partial en c) as [ifn|ifn| |k]; cbn [sound_res] in Hc.
    - destruct (lit_of ifn) as [v|] eqn:El;
        [|destruct (lit_tests_none ifn El) as (-> & -> & ->); apply if_finish_sound; auto].
      apply lit_of_some in El. subst ifn. destruct Hc as [Hev Hlit]. pose proof (lit_cond c v Hev Hlit) as Hb.
      destruct v as [[|]| | | | | | | | |]; cbn [is_nonbool_lit is_false_lit is_true_lit];
        try (cbn [sound_res eval]; apply Hb).
      + eapply sound_res_transfer; [|exact Ht]. cbn [eval]. rewrite Hb. reflexivity.
      + eapply sound_res_transfer; [|exact Hf]. cbn [eval]. rewrite Hb. reflexivity.
    - apply if_finish_sound; auto.
    - exact Hc.
    - cbn [sound_res eval]. apply is_err_bind. exact Hc.
  Qed.

  (* the strict path of is..in, given that under the completed environment an error of b surfaces *)
  Lemma isin_tp_sound a ty b ra : expr_clean a -> expr_clean b -> sound_res a ra -> sound_res b (partial en b) ->
    (is_err (eval ec b) -> is_err (eval ec (EIsIn a ty b))) ->
    sound_res (EIsIn a ty b)
      (try_partial false [a; b] [ra; partial en b] (fun l => EIsIn (nth 0 l a) ty (nth 1 l b)) (eval en)).
  Proof.
    intros Hca Hcb Ha Hb Hstrict.
    apply (bin_sound (fun x y => EIsIn x ty y));
      [ intros; apply Re_isin; auto
      | reflexivity
      | apply (node_Q3_lits2 (fun x y => EIsIn x ty y)); intros; cbn [expr_forall node_Q]; tauto
      |
      | reflexivity
      | intros x y Hx Hy; split; [exact I | split; assumption]
      | exact Ha
      | exact Hb
      | exact Hca
      | exact Hcb ].
    intros [H|H]; [cbn [eval]; apply is_err_bind; exact H | apply Hstrict; exact H].
  Qed.

  Lemma isin_sound a ty b : expr_clean (EIsIn a ty b) -> sound_res a (partial en a) -> sound_res b (partial en b) ->
    sound_res (EIsIn a ty b) (partial en (EIsIn a ty b)).
  Proof.
    intros (_ & Hca & Hcb) Ha Hb. cbn [partial].
    destruct (partial en a) as [lft|lft| |k]; pose proof Ha as Ha0; cbn [sound_res] in Ha.
    - destruct (lit_of lft) as [v|] eqn:El;
        [|rewrite (lit_match_none lft _ _ El); apply (finish_sound (fun x y => EIsIn x ty y)); auto using resid_isin].
      apply lit_of_some in El. subst lft. destruct Ha as ((v' & Hev & Hr) & Hlit).
      pose proof Hlit as (Hnv & Hni & _).
      pose proof (c_shape rel Hcomp v v' Hnv Hni Hr) as Hs.
      (* a literal that is not an entity: the type test of the evaluator fails, whatever b does *)
      assert (Hother : (forall t i, v <> VEntity t i) -> is_err (eval ec b) -> is_err (eval ec (EIsIn a ty b))).
      { intros Hne _. cbn [eval]. rewrite Hev. cbn [bindr].
        destruct v; try (subst v'; exact I).
        - exfalso. eapply Hne. reflexivity.
        - destruct Hs as [l' ->]. exact I.
        - destruct Hs as [l' [-> _]]. exact I. }
      destruct v as [| | |t i| | | | | |]; try (apply isin_tp_sound; auto; apply Hother; congruence).
      subst v'.
      destruct (str_eqb t ty) eqn:Et; cbn [negb].
      + apply isin_tp_sound; auto. intros H. cbn [eval]. rewrite Hev. cbn [bindr as_entity fst]. rewrite Et.
        cbn [negb]. apply is_err_bind. exact H.
      + apply sound_res_Q3; [|apply Q3_bool]. cbn [eval]. rewrite Hev. cbn [bindr as_entity fst]. rewrite Et.
        reflexivity.
    - apply (finish_sound (fun x y => EIsIn x ty y)); auto using resid_isin.
    - exact Ha.
    - cbn [sound_res eval]. apply is_err_bind. exact Ha.
  Qed.

  Lemma lits_forall_Q3 vs : Forall Q3 vs -> Forall (expr_forall (node_Q Q3 en)) (map ELit vs).
  Proof. induction 1; cbn [map]; constructor; auto. cbn [expr_forall node_Q]. tauto. Qed.

  Lemma lits_forall_Q3_kv keys vs : Forall Q3 vs ->
    Forall (fun kv : str * expr => expr_forall (node_Q Q3 en) (snd kv)) (combine keys (map ELit vs)).
  Proof.
    intros H. revert keys. induction H as [|v vs Hv _ IH]; intros [|k keys]; cbn [map combine]; constructor; auto.
    cbn [snd expr_forall node_Q]. tauto.
  Qed.

  (* A strict operator C: the premises of bin_sound / un_sound in their order (congruence, same value on literal
     operands in both environments, Q3 preserved, strictness, C is not a literal, C keeps cleanliness), each read off
     the evaluator's clause for C; then the induction hypotheses. *)
  Ltac clean_tac := intros; unfold expr_clean in *; cbn [expr_forall node_clean]; tauto.

  Ltac bin_case C IHa IHb :=
    let Hc := fresh "Hc" in
    intros Hc; cbn [expr_forall] in Hc; destruct Hc as (_ & Hca & Hcb); cbn [partial];
    apply (bin_sound C);
    [ unfold Re; intros; cbn [eval]; unfold arith_eval, cmp_eval; req_lift
    | reflexivity
    | apply (node_Q3_lits2 C); intros; cbn [expr_forall node_Q]; tauto
    | intros [?|?]; cbn [eval]; unfold arith_eval, cmp_eval; err_lift
    | reflexivity
    | clean_tac
    | apply IHa; exact Hca
    | apply IHb; exact Hcb
    | exact Hca
    | exact Hcb ].

  Ltac un_case C IHa :=
    let Hc := fresh "Hc" in
    intros Hc; cbn [expr_forall] in Hc; destruct Hc as (_ & Hca); cbn [partial];
    apply (un_sound C);
    [ unfold Re; intros; cbn [eval]; unfold arith_eval, cmp_eval; req_lift
    | reflexivity
    | apply (node_Q3_lits1 C); intros; cbn [expr_forall node_Q]; tauto
    | cbn [eval]; apply is_err_bind
    | reflexivity
    | clean_tac
    | apply IHa; exact Hca
    | exact Hca ].

  Lemma F2_sound_list es :
    Forall (fun e => expr_forall node_clean e -> sound_res e (partial en e)) es ->
    Forall (expr_forall node_clean) es -> Forall2 sound_res es (map (partial en) es).
  Proof.
    induction 1 as [|e es He _ IH]; intros Hc; cbn [map]; constructor; inversion Hc; subst; auto.
  Qed.

  Theorem partial_sound_res : forall e, expr_forall node_clean e -> sound_res e (partial en e).
  Proof.
    induction e using expr_ind'.
    - (* ELit *) intros [Hv _]. cbn [node_clean] in Hv. cbn [partial].
      apply sound_res_Q3; [reflexivity | apply val_ok_Q3; exact Hv].
    - (* EVar *) intros Hc. cbn [partial]. unfold try_partial. cbn [combine fold_left rev map eval].
      destruct (is_variable (var_value en x)) eqn:Hv; [apply resid_refl; exact Hc|].
      destruct (is_ignore (var_value en x)) eqn:Hi.
      { intros Hn. rewrite (noign_top _ (Hn x)) in Hi. discriminate. }
      cbn [sound_res lit_of]. split; [exists (var_value ec x); split; [reflexivity | apply Hrel]|].
      split; [exact Hv|]. split; [exact Hi|]. split; [apply Hwf | intros Hn; apply Hn].
    - (* EAnd *) intros Hc. pose proof Hc as (_ & Ha & Hb). apply and_sound; auto.
    - (* EOr *) intros Hc. pose proof Hc as (_ & Ha & Hb). apply or_sound; auto.
    - un_case ENot IHe.
    - un_case ENeg IHe.
    - bin_case EAdd IHe1 IHe2.
    - bin_case ESub IHe1 IHe2.
    - bin_case EMul IHe1 IHe2.
    - bin_case EEq IHe1 IHe2.
    - bin_case ENe IHe1 IHe2.
    - bin_case ELt IHe1 IHe2.
    - bin_case ELe IHe1 IHe2.
    - bin_case EGt IHe1 IHe2.
    - bin_case EGe IHe1 IHe2.
    - bin_case EIn IHe1 IHe2.
    - bin_case EContains IHe1 IHe2.
    - bin_case EContainsAll IHe1 IHe2.
    - bin_case EContainsAny IHe1 IHe2.
    - un_case EIsEmpty IHe.
    - (* EAccess *) intros Hc. pose proof Hc as (_ & Ha). apply access_sound; auto.
    - (* EHas *) intros Hc. pose proof Hc as (_ & Ha). apply has_sound; auto.
    - bin_case EGetTag IHe1 IHe2.
    - bin_case EHasTag IHe1 IHe2.
    - un_case (fun x => ELike x p) IHe.
    - un_case (fun x => EIs x ty) IHe.
    - (* EIsIn *) intros Hc. pose proof Hc as (_ & Ha & Hb). apply isin_sound; auto.
    - (* EIf *) intros Hc. pose proof Hc as (_ & Hcc & Ht & Hf). apply if_sound; auto.
    - (* ESet *) intros Hc. apply expr_forall_set in Hc. destruct Hc as [_ Hc]. cbn [partial].
      apply (try_partial_sound (fun l => ESet l) es).
      + intros xs ys _ HF. apply Re_set. exact HF.
      + intros vs _. cbn [eval]. rewrite !map_eval_lits. reflexivity.
      + intros vs v _ HF. apply (eval_Q Q3 hered_Q3 en Hst). apply expr_forall_set.
        split; [exact I | apply lits_forall_Q3; exact HF].
      + intros Hex. cbn [eval]. destruct (seq_res_strict _ (Exists_map_erre _ _ Hex)) as [e He].
        rewrite He. apply seq_res_inl in He. destruct He as [k ->]. exact I.
      + reflexivity.
      + intros xs _ HF. apply expr_forall_set. split; [exact I | exact HF].
      + apply F2_sound_list; auto.
      + exact Hc.
    - (* ERecord *) intros Hc. apply expr_forall_record in Hc. destruct Hc as [Hnd Hc]. cbn [node_clean] in Hnd.
      cbn [partial].
      apply (sound_res_transfer (ERecord (combine (map fst kvs) (map snd kvs)))).
      { rewrite combine_fst_snd. reflexivity. }
      apply (try_partial_sound (fun l => ERecord (combine (map fst kvs) l)) (map snd kvs)).
      + intros xs ys _ HF. apply Re_record. exact HF.
      + intros vs _. cbn [eval]. rewrite !LR_lits. reflexivity.
      + intros vs v _ HF. apply (eval_Q Q3 hered_Q3 en Hst). apply expr_forall_record.
        split; [exact I | apply lits_forall_Q3_kv; exact HF].
      + intros Hex. apply record_strict_e; auto. rewrite !map_length. reflexivity.
      + reflexivity.
      + intros xs Hlen HF. apply expr_forall_record. split.
        * cbn [node_clean]. rewrite map_fst_combine; [exact Hnd|]. rewrite Hlen, !map_length. reflexivity.
        * clear - HF. revert HF. generalize (map fst kvs). intros keys HF. revert keys.
          induction HF as [|x xs Hx _ IH]; intros [|k keys]; cbn [combine]; constructor; auto.
      + clear Hnd. induction H as [|kv kvs Hkv _ IH]; cbn [map]; constructor; inversion Hc; subst; auto.
      + apply Forall_map. exact Hc.
    - (* ECall *) intros Hc. apply expr_forall_call in Hc. destruct Hc as [_ Hc]. cbn [partial].
      apply (try_partial_sound (fun l => ECall n l) args).
      + intros xs ys _ HF. apply Re_call. exact HF.
      + intros vs _. cbn [eval]. rewrite !map_eval_lits. reflexivity.
      + intros vs v _ HF. apply (eval_Q Q3 hered_Q3 en Hst). apply expr_forall_call.
        split; [exact I | apply lits_forall_Q3; exact HF].
      + intros Hex. cbn [eval]. apply call_ext_strict. apply Exists_map_erre. exact Hex.
      + reflexivity.
      + intros xs _ HF. apply expr_forall_call. split; [exact I | exact HF].
      + apply F2_sound_list; auto.
      + exact Hc.
    - (* EPartialError *) intros _. exact I.
  Qed.

  (* scopes: an ignored part gives the scope `all`; a known part decides the scope *)
  Lemma partial_scope_sound x sc :
    match partial_scope (e_store en) (var_value en x) sc with
    | Some sc' => (strue ec x sc = true -> strue ec x sc' = true) /\
                  (is_ignore (var_value en x) = false -> strue ec x sc' = strue ec x sc)
    | None => strue ec x sc = false
    end.
  Proof.
    unfold partial_scope.
    destruct (is_variable (var_value en x)) eqn:Hv; [split; auto|].
    destruct (is_ignore (var_value en x)) eqn:Hi; [split; [reflexivity | discriminate]|].
    pose proof (c_shape rel Hcomp _ _ Hv Hi (Hrel x)) as Hs.
    destruct (var_value en x) as [| | |t i| | | | | |] eqn:Ex; try (split; auto).
    rewrite (strue_scope_holds ec x t i sc Hs). cbn [e_store].
    destruct (scope_holds (e_store en) (t, i) sc); [split; reflexivity | reflexivity].
  Qed.

  Local Notation AT l := (all_true ec (map cond_expr l)).

  (* conditions: the residual conditions are implied by the original ones; they are equivalent to them unless a
     condition of a permit was dropped for an ignored part (a forbid is dropped whole instead) *)
  Lemma partial_conds_sound permit : forall cs, Forall (fun c => expr_clean (snd c)) cs -> forall acc,
    match partial_conds en permit cs acc with
    | Some cs' => (AT (rev acc) && AT cs = true -> AT cs' = true) /\
                  (permit = false \/ no_ignore en -> AT cs' = AT (rev acc) && AT cs)
    | None => permit = true \/ no_ignore en -> AT cs = false
    end.
  Proof.
    induction 1 as [|[kind body] cs Hc _ IH]; intros acc.
    - cbn [partial_conds map all_true forallb]. rewrite andb_true_r. auto.
    - cbn [snd] in Hc. rewrite partial_conds_unfold.
      pose proof (partial_sound_res body Hc) as Hb.
      change (AT ((kind, body) :: cs)) with (ctrue ec (kind, body) && AT cs).
      assert (Hfail : forall c, ctrue ec c = false -> ctrue ec (kind, body) = false ->
        (AT (rev acc) && (ctrue ec (kind, body) && AT cs) = true -> AT (rev (c :: acc)) = true) /\
        (permit = false \/ no_ignore en -> AT (rev (c :: acc)) = AT (rev acc) && (ctrue ec (kind, body) && AT cs))).
      { intros c H1 H2. rewrite all_true_snoc, H1, H2. rewrite andb_false_l, !andb_false_r. split; auto. }
      destruct (partial en body) as [n|n| |k]; cbn [sound_res] in Hb.
      + destruct (lit_of n) as [v|] eqn:El.
        * destruct Hb as ((v' & Hev & Hr) & Hlit).
          assert (Hnb : (forall b, v <> VBool b) -> ctrue ec (kind, body) = false).
          { intros Hnb. apply (ctrue_nonbool _ kind body _ Hev).
            destruct Hlit as (Hv & Hi & _). apply (rel_nonbool v v' Hv Hi Hr Hnb). }
          destruct v; try (apply Hfail; [apply ctrue_err; exact I | apply Hnb; congruence]).
          apply rel_bool in Hr. subst v'.
          rewrite (ctrue_bool _ kind body b Hev).
          destruct (Bool.eqb b kind); [|reflexivity]. rewrite andb_true_l. apply IH.
        * specialize (IH ((kind, n) :: acc)).
          destruct (partial_conds en permit cs ((kind, n) :: acc)) as [cs'|].
          -- rewrite all_true_snoc, (ctrue_req _ kind n body (proj1 Hb)), <- andb_assoc in IH. exact IH.
          -- intros Hp. rewrite (IH Hp), andb_false_r. reflexivity.
      + specialize (IH ((kind, body) :: acc)).
        destruct (partial_conds en permit cs ((kind, body) :: acc)) as [cs'|].
        * rewrite all_true_snoc, <- andb_assoc in IH. exact IH.
        * intros Hp. rewrite (IH Hp), andb_false_r. reflexivity.
      + destruct permit; [|intros [H|H]; [discriminate | contradiction]]. specialize (IH acc).
        destruct (partial_conds en true cs acc) as [cs'|].
        * destruct IH as [IH _]. split; [|intros [H|H]; [discriminate | contradiction]]. intros H. apply IH.
          apply andb_true_iff in H. destruct H as [H1 H2]. apply andb_true_iff in H2. destruct H2 as [_ H2].
          rewrite H1, H2. reflexivity.
        * intros _. rewrite (IH (or_introl eq_refl)), andb_false_r. reflexivity.
      + apply Hfail; [apply ctrue_err; exact I | apply ctrue_err; exact Hb].
  Qed.

  Lemma partial_policy_sound_env p : policy_clean p ->
    match partial_policy en p with
    | Some r => (sat ec p = true -> sat ec r = true) /\
                (p_effect p = false \/ no_ignore en ->
                 is_ignore (e_principal en) = false -> is_ignore (e_action en) = false ->
                 is_ignore (e_resource en) = false -> sat ec r = sat ec p)
    | None => p_effect p = true \/ no_ignore en -> sat ec p = false
    end.
  Proof.
    intros Hp. unfold partial_policy. rewrite (sat_eq _ p).
    pose proof (partial_scope_sound VPrincipal (p_principal p)) as H1.
    pose proof (partial_scope_sound VAction (p_action p)) as H2.
    pose proof (partial_scope_sound VResource (p_resource p)) as H3.
    cbn [var_value] in H1, H2, H3.
    destruct (partial_scope (e_store en) (e_principal en) (p_principal p)) as [sp|]; [|rewrite H1; reflexivity].
    destruct (partial_scope (e_store en) (e_action en) (p_action p)) as [sa|]; [|rewrite H2, andb_false_r; reflexivity].
    destruct (partial_scope (e_store en) (e_resource en) (p_resource p)) as [sr|]; [|rewrite H3, andb_false_r; reflexivity].
    pose proof (partial_conds_sound (p_effect p) (p_conds p) Hp []) as H4.
    destruct (partial_conds en (p_effect p) (p_conds p) []) as [cs|].
    - rewrite sat_eq. cbn [p_principal p_action p_resource p_conds].
      destruct H1 as [H1 H1'], H2 as [H2 H2'], H3 as [H3 H3'], H4 as [H4 H4'].
      cbn [rev map all_true forallb] in H4, H4'. rewrite andb_true_l in H4, H4'. split.
      + intros H. apply andb_true_iff in H. destruct H as [H Hc].
        apply andb_true_iff in H. destruct H as [H Hr]. apply andb_true_iff in H. destruct H as [Hpr Ha].
        rewrite (H1 Hpr), (H2 Ha), (H3 Hr), (H4 Hc). reflexivity.
      + intros He Hip Hia Hir. rewrite (H1' Hip), (H2' Hia), (H3' Hir), (H4' He). reflexivity.
    - intros He. rewrite (H4 He), andb_false_r. reflexivity.
  Qed.

  (* residual policies are clean again *)
  Lemma partial_conds_clean permit : forall cs acc cs',
    Forall (fun c => expr_clean (snd c)) cs -> Forall (fun c => expr_clean (snd c)) acc ->
    partial_conds en permit cs acc = Some cs' -> Forall (fun c => expr_clean (snd c)) cs'.
  Proof.
    induction cs as [|[kind body] cs IH]; intros acc cs' Hcs Hacc.
    - cbn [partial_conds]. intros H. assert (E : cs' = rev acc) by congruence. rewrite E. apply Forall_rev. exact Hacc.
    - rewrite partial_conds_unfold. inversion Hcs as [|? ? Hb Hcs']; subst. cbn [snd] in Hb.
      pose proof (partial_sound_res body Hb) as Hc.
      assert (Hrev : forall n, expr_clean n -> Some (rev ((kind, n) :: acc)) = Some cs' ->
                               Forall (fun c => expr_clean (snd c)) cs').
      { intros n Hn H. assert (E : cs' = rev ((kind, n) :: acc)) by congruence. rewrite E. apply Forall_rev. constructor; auto. }
      destruct (partial en body) as [n|n| |k]; cbn [sound_res] in Hc.
      + destruct (lit_of n) as [v|].
        * destruct v; try (apply Hrev; repeat split).
          destruct (Bool.eqb b kind); [apply IH; auto | discriminate].
        * apply IH; auto. constructor; [apply Hc | exact Hacc].
      + apply IH; auto.
      + destruct permit; [apply IH; auto | discriminate].
      + apply Hrev. repeat split.
  Qed.

  Lemma partial_policy_clean_env p r : policy_clean p -> partial_policy en p = Some r ->
    policy_clean r /\ p_effect r = p_effect p.
  Proof.
    unfold partial_policy, policy_clean. intros Hp.
    destruct (partial_scope _ _ _); [|discriminate].
    destruct (partial_scope _ _ _); [|discriminate].
    destruct (partial_scope _ _ _); [|discriminate].
    destruct (partial_conds en (p_effect p) (p_conds p) []) as [cs|] eqn:E; [|discriminate].
    intros H; inversion H; subst. cbn [p_conds p_effect]. split; [|reflexivity].
    eapply partial_conds_clean; [exact Hp | constructor | exact E].
  Qed.
End Sound.

(* Unknowns only: the completed request is the substituted one *)

Lemma store_clean_Q3 en : store_clean en -> store_Q Q3 en.
Proof.
  intros H u ent Hl. destruct (H u ent Hl) as [H1 H2].
  split; eapply Forall_impl; try eassumption; intros [k x]; apply val_ok_Q3.
Qed.

Lemma var_value_subst s en x : var_value (subst_env s en) x = subst_val s (var_value en x).
Proof. destruct x; reflexivity. Qed.

Lemma completion_subst s : completion (fun v v' => v' = subst_val s v).
Proof.
  split.
  - intros v v' HQ. rewrite (Q3_subst s v HQ). tauto.
  - intros v v' Hv _ ->. destruct v; try reflexivity.
    + apply subst_nonvar_entity. exact Hv.
    + cbn [subst_val]. unfold mk_set. eauto.
    + cbn [subst_val]. eexists. split; [reflexivity|].
      induction l as [|kv l IH]; cbn [map]; constructor; auto.
Qed.

Lemma sound_res_subst en s : store_clean en -> env_wf en -> forall e, expr_clean e ->
  sound_res en (subst_val s (e_principal en)) (subst_val s (e_action en)) (subst_val s (e_resource en))
            (subst_val s (e_context en)) (fun v v' => v' = subst_val s v) e (partial en e).
Proof.
  intros Hs Hw. apply partial_sound_res; [apply completion_subst | apply store_clean_Q3; exact Hs | exact Hw|].
  intros x. exact (var_value_subst s en x).
Qed.

(* what partial evaluation keeps can be partially evaluated again *)
Lemma partial_clean en e : store_clean en -> env_wf en -> expr_clean e ->
  match partial en e with
  | PNode n => lit_of n = None -> expr_clean n
  | PVar n => expr_clean n
  | _ => True
  end.
Proof.
  intros Hs Hw He. pose proof (sound_res_subst en (fun _ => None) Hs Hw e He) as H.
  destruct (partial en e) as [n|n| |k]; cbn [sound_res] in H; auto; [|apply H].
  intros El. rewrite El in H. apply H.
Qed.

Lemma partial_policy_clean en p r : store_clean en -> env_wf en -> policy_clean p -> partial_policy en p = Some r ->
  policy_clean r /\ p_effect r = p_effect p.
Proof.
  intros Hs Hw. apply (partial_policy_clean_env en _ _ _ _ _ (completion_subst (fun _ => None)) (store_clean_Q3 en Hs) Hw
                         (var_value_subst _ en)).
Qed.

(* general form: any substitution, total or not *)
Theorem partial_expr_sound_gen : forall en s e,
  store_clean en -> env_wf en -> expr_clean e -> no_ignore en ->
  let en' := subst_env s en in
  match partial en e with
  | PNode (ELit v) => eval en' e = Ok (subst_val s v)
  | PNode n => req (eval en' n) (eval en' e)
  | PVar n => req (eval en' n) (eval en' e)
  | PErr k => exists k', eval en' e = Err k'
  | PIgnore => False
  end.
Proof.
  intros en s e Hs Hw He Hi en'. pose proof (sound_res_subst en s Hs Hw e He) as H.
  destruct (partial en e) as [n|n| |k]; cbn [sound_res] in H; auto.
  - destruct n; cbn [lit_of] in H; try exact (proj1 H).
    destruct H as [(v' & Hev & Hr) _]. cbn beta in Hr. subst v'. exact Hev.
  - exact (proj1 H).
  - subst en'. change (is_err (eval (subst_env s en) e)) in H.
    destruct (eval (subst_env s en) e); [destruct H | eauto].
Qed.

Theorem partial_expr_sound : forall en s e,
  store_clean en -> env_wf en -> expr_clean e -> no_ignore en -> completes s en ->
  let en' := subst_env s en in
  match partial en e with
  | PNode (ELit v) => eval en' e = Ok (subst_val s v)
  | PNode n => req (eval en' n) (eval en' e)
  | PVar n => req (eval en' n) (eval en' e)
  | PErr k => exists k', eval en' e = Err k'
  | PIgnore => False
  end.
Proof.
  intros en s e Hs Hw He Hi _. apply partial_expr_sound_gen; auto.
Qed.

Theorem partial_policy_sound_gen : forall en s p,
  store_clean en -> env_wf en -> policy_clean p -> no_ignore en ->
  match partial_policy en p with
  | Some r => sat (subst_env s en) r = sat (subst_env s en) p
  | None => sat (subst_env s en) p = false
  end.
Proof.
  intros en s p Hs Hw Hp Hi.
  pose proof (partial_policy_sound_env en _ _ _ _ _ (completion_subst s) (store_clean_Q3 en Hs) Hw
                (var_value_subst s en) p Hp) as H.
  destruct (partial_policy en p) as [r|].
  - apply H; [right; exact Hi | apply noign_top, (Hi VPrincipal) | apply noign_top, (Hi VAction)
             | apply noign_top, (Hi VResource)].
  - apply H. right. exact Hi.
Qed.

Theorem partial_policy_sound : forall en s p,
  store_clean en -> env_wf en -> policy_clean p -> no_ignore en -> completes s en ->
  match partial_policy en p with
  | Some r => sat (subst_env s en) r = sat (subst_env s en) p
  | None => sat (subst_env s en) p = false
  end.
Proof.
  intros en s p Hs Hw Hp Hi _. apply partial_policy_sound_gen; auto.
Qed.

(* The counterexamples behind points 1, 2 and 4 of the head comment. *)
Local Open Scope Z_scope.

Definition ex_user (i : string) : value := VEntity (s_of "User") (s_of i).
Definition ex_photo (i : string) : value := VEntity (s_of "Photo") (s_of i).
Definition ex_action : value := VEntity (s_of "Action") (s_of "view").
Definition ex_var (i : string) : value := VEntity variable_type (s_of i).
Definition ex_sigma (i : string) (w : value) : sigma := fun j => if str_eqb j (s_of i) then Some w else None.

(* principal unknown, resource Photo::"x" (not in the store, so resource.owner fails) *)
Definition cx_env : env :=
  {| e_store := []; e_principal := ex_var "p"; e_action := ex_action; e_resource := ex_photo "x"; e_context := VRecord [] |}.
Definition cx_sigma : sigma := ex_sigma "p" (ex_photo "y").

(* `principal is User in resource.owner` with principal unknown and resource.owner failing (the input on which
   the strict treatment of `is .. in` was wrong).  The error of the right operand stays inside the residual, and the residual policy
   agrees with the original one for principal := Photo::"y" (type test fails: satisfied) and for
   principal := User::"u" (right operand evaluated: error, not satisfied). *)
Definition cx_isin : expr := EIsIn (EVar VPrincipal) (s_of "User") (EAccess (EVar VResource) (s_of "owner")).
(* permit(principal, action, resource) unless { principal is User in resource.owner }; *)
Definition cx_policy : policy :=
  {| p_effect := true; p_principal := SAll; p_action := SAll; p_resource := SAll; p_conds := [(false, cx_isin)] |}.
Definition cx_sigma_u : sigma := ex_sigma "p" (ex_user "u").

Example isin_fixed :
  partial cx_env cx_isin = PNode (EIsIn (EVar VPrincipal) (s_of "User") (EPartialError EEntity)) /\
  eval (subst_env cx_sigma cx_env) cx_isin = Ok (VBool false) /\
  (exists r, partial_policy cx_env cx_policy = Some r /\
             sat (subst_env cx_sigma cx_env) r = true /\ sat (subst_env cx_sigma cx_env) cx_policy = true /\
             sat (subst_env cx_sigma_u cx_env) r = false /\ sat (subst_env cx_sigma_u cx_env) cx_policy = false).
Proof.
  split; [|split]; [vm_compute; reflexivity | vm_compute; reflexivity |].
  eexists. split; [vm_compute; reflexivity|]. repeat split; vm_compute; reflexivity.
Qed.

Lemma marker_in_ent i t j : marker_in i (VEntity t j) -> t = variable_type /\ j = i.
Proof. intros H. inversion H. auto. Qed.

(* the hypotheses of the theorems hold for this instance *)
Example cx_hyps :
  store_clean cx_env /\ env_wf cx_env /\ no_ignore cx_env /\ completes cx_sigma cx_env /\ policy_clean cx_policy.
Proof.
  split; [|split; [|split; [|split]]].
  - intros u ent H. discriminate.
  - intros x; destruct x; reflexivity.
  - intros x; destruct x; reflexivity.
  - intros x i H. destruct x; cbn [var_value cx_env e_principal e_action e_resource e_context] in H.
    + apply marker_in_ent in H. destruct H as [_ <-]. eexists. split; vm_compute; reflexivity.
    + apply marker_in_ent in H. destruct H as [Ht _]. vm_compute in Ht. discriminate.
    + apply marker_in_ent in H. destruct H as [Ht _]. vm_compute in Ht. discriminate.
    + inversion H as [ | | l k y Hin]. destruct Hin.
  - constructor; [|constructor]. cbn [snd]. unfold expr_clean, cx_isin. cbn [expr_forall node_clean]. tauto.
Qed.

(* the error KIND reported by partial need not be the one the evaluator reports: after an unknown
   operand the loop of tryPartial goes on and returns the error of a later operand. *)
Definition cx_errkind : expr :=
  EAdd (EAccess (EVar VPrincipal) (s_of "n")) (EAdd (ELit (VLong 1)) (ELit (VString (s_of "a")))).

Example errkind_counterexample :
  partial cx_env cx_errkind = PErr EType /\ eval (subst_env cx_sigma cx_env) cx_errkind = Err EEntity /\
  expr_clean cx_errkind.
Proof.
  split; [vm_compute; reflexivity|]. split; [vm_compute; reflexivity|].
  unfold expr_clean, cx_errkind. cbn [expr_forall node_clean]. unfold val_ok. repeat split.
Qed.

(* a record literal with a duplicate key (rejected by the parser): the evaluator keeps the last binding
   and never sees the error of the first one; partial reports it.  No unknown is involved. *)
Definition cx_dupkey : expr :=
  ERecord [(s_of "a", EAdd (ELit (VLong 1)) (ELit (VString (s_of "x")))); (s_of "a", ELit (VLong 2))].
Example dupkey_counterexample :
  partial cx_env cx_dupkey = PErr EType /\
  eval (subst_env cx_sigma cx_env) cx_dupkey = Ok (VRecord [(s_of "a", VLong 2)]).
Proof. split; vm_compute; reflexivity. Qed.

Definition ex_n : str := s_of "n".
Definition ex_env : env :=
  {| e_store := []; e_principal := ex_user "a"; e_action := ex_action; e_resource := ex_photo "x";
     e_context := VRecord [(ex_n, ex_var "x")] |}.

(* context.n == 1 with context = {n: ?x}: the residual is the condition itself, sound for x := 1 and x := 2 *)
Definition ex_e1 : expr := EEq (EAccess (EVar VContext) ex_n) (ELit (VLong 1)).
Example ex_residual_kept :
  partial ex_env ex_e1 = PNode ex_e1 /\
  eval (subst_env (ex_sigma "x" (VLong 1)) ex_env) ex_e1 = Ok (VBool true) /\
  eval (subst_env (ex_sigma "x" (VLong 2)) ex_env) ex_e1 = Ok (VBool false).
Proof. repeat split; vm_compute; reflexivity. Qed.

(* context == {n: 1}: a value containing an unknown is never consumed whole *)
Definition ex_e2 : expr := EEq (EVar VContext) (ELit (VRecord [(ex_n, VLong 1)])).
Example ex_composite_kept :
  partial ex_env ex_e2 = PNode ex_e2 /\
  eval (subst_env (ex_sigma "x" (VLong 1)) ex_env) ex_e2 = Ok (VBool true) /\
  eval (subst_env (ex_sigma "x" (VLong 2)) ex_env) ex_e2 = Ok (VBool false).
Proof. repeat split; vm_compute; reflexivity. Qed.

(* context has n: folds to true whatever ?x is *)
Example ex_has_folds : partial ex_env (EHas (EVar VContext) ex_n) = PNode (ELit (VBool true)).
Proof. vm_compute; reflexivity. Qed.

(* context.n alone is the unknown itself *)
Example ex_access_var : partial ex_env (EAccess (EVar VContext) ex_n) = PVar (EAccess (EVar VContext) ex_n).
Proof. vm_compute; reflexivity. Qed.

(* permit(principal == User::"a", action, resource) with principal unknown: the scope is kept *)
Definition ex_penv : env :=
  {| e_store := []; e_principal := ex_var "p"; e_action := ex_action; e_resource := ex_photo "x"; e_context := VRecord [] |}.
Definition ex_pol : policy :=
  {| p_effect := true; p_principal := SEq (s_of "User", s_of "a"); p_action := SAll; p_resource := SAll; p_conds := [] |}.
Example ex_scope_kept :
  partial_policy ex_penv ex_pol = Some ex_pol /\
  sat (subst_env (ex_sigma "p" (ex_user "a")) ex_penv) ex_pol = true /\
  sat (subst_env (ex_sigma "p" (ex_user "b")) ex_penv) ex_pol = false.
Proof. repeat split; vm_compute; reflexivity. Qed.

(* a known principal decides the scope: dropped from the residual, or the policy is dropped *)
Example ex_scope_decided :
  partial_policy ex_env ex_pol = Some {| p_effect := true; p_principal := SAll; p_action := SAll; p_resource := SAll; p_conds := [] |} /\
  partial_policy ex_env {| p_effect := true; p_principal := SEq (s_of "User", s_of "b"); p_action := SAll; p_resource := SAll; p_conds := [] |} = None.
Proof. split; vm_compute; reflexivity. Qed.

Print Assumptions partial_sound_res.
Print Assumptions partial_expr_sound_gen.
Print Assumptions partial_expr_sound.
Print Assumptions partial_policy_sound_gen.
Print Assumptions partial_policy_sound.
Print Assumptions isin_fixed.
Print Assumptions errkind_counterexample.
