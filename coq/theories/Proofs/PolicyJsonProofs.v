(* Round trip of the JSON (EST) codec of policies (Impl/PolicyJson.v) on JSON trees:
     decode (encode p) = p  up to the normal form [normj] the JSON format itself imposes
     (decimal / ip literal VALUES are written as extension calls; record-literal entries and annotations are a map: sorted by key,
      the last of several equal keys wins; the empty like-pattern is written as one empty literal component).
   - decode_encode_expr    : expressions (hypothesis expr_okj)
   - dec_enc_policy        : whole policies with annotations (hypothesis policy_okj)
   - normj_idempotent, okj_normj, second_roundtrip : the normal form is a fixed point; the second round trip is the identity
   - eval_normj            : the normal form evaluates like the original expression (hypothesis sem_okj: decimal / ip literals print
                             to a text that parses back)
   - dec_enc_pattern, compile_pattern_canon : patterns round-trip iff they are in NewPattern's normal form (pat_canon), which every
                             pattern built by compile_pattern is
   - pj_ex_*               : computed witnesses that each hypothesis is needed
   Section hypotheses: ip_roundtrip (net/netip's printer is not modelled) and ord_id (literal sets keep their member order). *)
From Coq Require Import ZArith List Bool Lia Arith String Permutation.
Import ListNotations.
From Cedar Require Import Base.Int64 Base.Json Lang.Value Generated.Tables Impl.Like Lang.Expr Impl.Eval Impl.Decimal Impl.IPAddr Impl.ValueJson
  Impl.Parser Impl.PolicyJson.
From Cedar Require Import Proofs.ValueProofs Proofs.DecimalProofs Proofs.ValueJsonProofs.
Local Open Scope Z_scope.

Lemma pj_fix_map {A B} (F : A -> B) (l : list A) :
  (fix go (a : list A) : list B := match a with [] => [] | x :: r => F x :: go r end) l = map F l.
Proof. induction l as [|x l IH]; [reflexivity|]. cbn [map]. rewrite <- IH. reflexivity. Qed.

Definition is_obj (j : json) : bool := match j with JObj _ => true | _ => false end.

Definition mapv {A B} (g : A -> B) (l : list (str * A)) : list (str * B) := map (fun kv => (fst kv, g (snd kv))) l.

Lemma mapv_cons {A B} (g : A -> B) kv l : mapv g (kv :: l) = (fst kv, g (snd kv)) :: mapv g l.
Proof. reflexivity. Qed.

Lemma mapv_mapv {A B C} (g : A -> B) (h : B -> C) l : mapv h (mapv g l) = mapv (fun x => h (g x)) l.
Proof. unfold mapv. rewrite map_map. reflexivity. Qed.

Lemma mapv_ext_Forall {A B} (g h : A -> B) l :
  Forall (fun kv => g (snd kv) = h (snd kv)) l -> mapv g l = mapv h l.
Proof.
  intros HF. induction HF as [|kv l Hkv _ IH]; [reflexivity|]. rewrite !mapv_cons, Hkv, IH. reflexivity.
Qed.

Lemma mapv_keys {A B} (g : A -> B) l : map fst (mapv g l) = map fst l.
Proof. unfold mapv. rewrite map_map. reflexivity. Qed.

Lemma pj_fix_mapv {A B} (F : A -> B) (l : list (str * A)) :
  (fix gokv (a : list (str * A)) : list (str * B) := match a with [] => [] | (key, x) :: r => (key, F x) :: gokv r end) l = mapv F l.
Proof. induction l as [|[key x] l IH]; [reflexivity|]. rewrite mapv_cons. cbn [fst snd]. rewrite <- IH. reflexivity. Qed.

Lemma rec_insert_mapv {A B} (g : A -> B) key v l : rec_insert key (g v) (mapv g l) = mapv g (rec_insert key v l).
Proof.
  induction l as [|[k' v'] l IH]; [reflexivity|].
  rewrite mapv_cons. cbn [fst snd rec_insert].
  destruct (str_ltb key k'); [reflexivity|]. destruct (str_eqb key k'); [reflexivity|].
  rewrite IH. reflexivity.
Qed.

Lemma rec_of_list_mapv {A B} (g : A -> B) l : rec_of_list (mapv g l) = mapv g (rec_of_list l).
Proof.
  induction l as [|[key v] l IH] using rev_ind; [reflexivity|].
  unfold mapv at 1. rewrite map_app. fold (mapv g l). cbn [map fst snd].
  rewrite !rec_of_list_snoc, IH. apply rec_insert_mapv.
Qed.

Lemma keys_sorted_mapv {A B} (g : A -> B) (l : list (str * A)) : keys_sorted (mapv g l) = keys_sorted l.
Proof. apply keys_sorted_ext. apply mapv_keys. Qed.

Lemma rec_of_list_idem {A} (l : list (str * A)) : rec_of_list (rec_of_list l) = rec_of_list l.
Proof. apply rec_of_list_sorted_id. apply rec_of_list_sorted_gen. Qed.

Lemma andb_true_mono (a b a' b' : bool) : (a = true -> a' = true) -> (b = true -> b' = true) -> a && b = true -> a' && b' = true.
Proof. destruct a, b; try discriminate. intros Ha Hb _. rewrite Ha, Hb; reflexivity. Qed.

Lemma jdepth_arr_in x l : In x l -> (jdepth x < jdepth (JArr l))%nat.
Proof.
  cbn [jdepth]. induction l as [|y l IH]; intros H; [destruct H|].
  cbn [fold_right]. destruct H as [->|H]; [lia|]. specialize (IH H). lia.
Qed.

Lemma jdepth_obj_in kv l : In kv l -> (jdepth (snd kv) < jdepth (JObj l))%nat.
Proof.
  cbn [jdepth]. induction l as [|[k' y] l IH]; intros H; [destruct H|].
  destruct H as [<-|H]; [cbn [snd]; lia|]. specialize (IH H). lia.
Qed.

Lemma jget_in key l v : jget key l = Some v -> exists key', In (key', v) l.
Proof.
  induction l as [|[k' x] l IH]; [discriminate|]. cbn [jget]. destruct (jget key l) as [y|].
  - intros [= ->]. destruct (IH eq_refl) as (k2 & Hk2). exists k2. right. exact Hk2.
  - destruct (str_eqb k' key); [|discriminate]. intros [= ->]. exists k'. left. reflexivity.
Qed.

Lemma jget_depth key l v : jget key l = Some v -> (jdepth v < jdepth (JObj l))%nat.
Proof. intros H. destruct (jget_in _ _ _ H) as (key' & Hin). exact (jdepth_obj_in _ _ Hin). Qed.

Lemma field_depth key l v : field key l = Some v -> (jdepth v < jdepth (JObj l))%nat.
Proof.
  unfold field. destruct (jget (k key) l) as [x|] eqn:E; [|discriminate]. intros H.
  assert (x = v) by (destruct x; congruence). subst x. exact (jget_depth _ _ _ E).
Qed.

Lemma jdepth_pos j : (1 <= jdepth j)%nat.
Proof. destruct j; cbn [jdepth]; lia. Qed.

Lemma jdepth_obj l : jdepth (JObj l) = S (fold_right (fun kv d => Nat.max (jdepth (snd kv)) d) 0%nat l).
Proof.
  cbn [jdepth]. f_equal. induction l as [|[key x] l IH]; [reflexivity|]. cbn [fold_right snd]. rewrite IH. reflexivity.
Qed.

(* repeated keys: a fuel-free version of any_dups *)

Fixpoint jdups (j : json) : bool :=
  match j with
  | JArr l => (fix go (l : list json) : bool := match l with [] => false | x :: r => jdups x || go r end) l
  | JObj l => has_dups l || (fix go (l : list (str * json)) : bool := match l with [] => false | (_, x) :: r => jdups x || go r end) l
  | _ => false
  end.

Lemma jdups_arr l : jdups (JArr l) = existsb jdups l.
Proof. cbn [jdups]. induction l as [|x l IH]; [reflexivity|]. cbn [existsb]. rewrite IH. reflexivity. Qed.

Lemma jdups_obj l : jdups (JObj l) = has_dups l || existsb (fun kv => jdups (snd kv)) l.
Proof.
  cbn [jdups]. f_equal. induction l as [|[k' x] l IH]; [reflexivity|]. cbn [existsb snd]. rewrite IH. reflexivity.
Qed.

Lemma jdups_str s : jdups (JStr s) = false.
Proof. reflexivity. Qed.

Arguments jdups : simpl never.

Lemma existsb_ext_in {A} (f g : A -> bool) l : (forall x, In x l -> f x = g x) -> existsb f l = existsb g l.
Proof.
  intros H. induction l as [|x l IH]; [reflexivity|]. cbn [existsb].
  rewrite (H x (or_introl eq_refl)), IH; [reflexivity|]. intros y Hy. apply H. right. exact Hy.
Qed.

Lemma any_dups_jdups : forall f j, (jdepth j <= f)%nat -> any_dups f j = jdups j.
Proof.
  induction f as [|f IH]; intros j Hj.
  - pose proof (jdepth_pos j). lia.
  - destruct j as [| | | | |l|l]; try reflexivity.
    + rewrite jdups_arr. apply existsb_ext_in. intros x Hx. apply IH. pose proof (jdepth_arr_in x l Hx). lia.
    + rewrite jdups_obj. cbn [any_dups]. f_equal. apply existsb_ext_in. intros kv Hkv. apply IH.
      pose proof (jdepth_obj_in kv l Hkv). lia.
Qed.

(* the loop of has_dups, for any kind of member *)
Section HdGo.
  Context {A : Type}.
  Fixpoint hd_go (l : list (str * A)) (seen : list str) : bool :=
    match l with [] => false | (key, _) :: r => existsb (str_eqb key) seen || hd_go r (key :: seen) end.
End HdGo.

Lemma hd_go_NoDup {A} : forall (l : list (str * A)) seen, NoDup (map fst l ++ seen) -> hd_go l seen = false.
Proof.
  induction l as [|[key v] l IH]; intros seen H; [reflexivity|]. cbn [hd_go map fst app] in *.
  apply orb_false_iff. split.
  - apply not_true_is_false. intros E. apply existsb_exists in E. destruct E as (s & Hs & E). apply str_eqb_eq in E. subst s.
    inversion H as [|? ? Hnin _]. apply Hnin, in_app_iff. right. exact Hs.
  - apply IH. exact (Permutation_NoDup (Permutation_middle _ _ _) H).
Qed.

Lemma has_dups_sorted l : keys_sorted l = true -> has_dups l = false.
Proof. intros Hs. change (hd_go l [] = false). apply hd_go_NoDup. rewrite app_nil_r. apply keys_sorted_NoDup, Hs. Qed.

Lemma jdups_obj1 key v : jdups (obj1 key v) = jdups v.
Proof. unfold obj1. rewrite jdups_obj. cbn [existsb snd]. destruct (jdups v); reflexivity. Qed.

Lemma dall_map_ok {A B} (F : A -> dres B) (G : A -> B) l :
  Forall (fun x => F x = DOk (G x)) l -> dall (map F l) = DOk (map G l).
Proof.
  intros HF. induction HF as [|x l Hx _ IH]; [reflexivity|].
  cbn [map dall]. rewrite Hx, IH. reflexivity.
Qed.

(* the combinators of dres never run out of fuel by themselves *)
Lemma dbind_nofuel {A B} (x : dres A) (g : A -> dres B) : x <> DFuel -> (forall a, g a <> DFuel) -> dbind x g <> DFuel.
Proof. intros Hx Hg. destruct x; cbn [dbind]; auto; congruence. Qed.

Lemma dall_nofuel {A} (l : list (dres A)) : Forall (fun x => x <> DFuel) l -> dall l <> DFuel.
Proof.
  intros HF. induction HF as [|x l Hx _ IH]; cbn [dall]; [discriminate|].
  apply dbind_nofuel; [exact Hx|]. intros a. apply dbind_nofuel; [exact IH | discriminate].
Qed.

Lemma dall_map_nofuel {A B} (F : A -> dres B) l : (forall x, In x l -> F x <> DFuel) -> dall (map F l) <> DFuel.
Proof. intros H. apply dall_nofuel, Forall_map, Forall_forall, H. Qed.

Lemma sfield_nofuel key l : sfield key l <> DFuel.
Proof. unfold sfield. destruct (jget (k key) l) as [[]|]; discriminate. Qed.

(* extension names are not typed keys of a node *)
Lemma ext_names_ok :
  forallb (fun e : string * (Z * bool) =>
             negb (known_exact (s_of (fst e))) && negb (known_fold (s_of (fst e))) && negb (exotic (s_of (fst e)))) ext_table = true.
Proof. vm_compute. reflexivity. Qed.

Lemma ext_lookup_name name x : ext_lookup name = Some x ->
  known_exact name = false /\ known_fold name = false /\ exotic name = false.
Proof.
  unfold ext_lookup. destruct (find _ ext_table) as [e|] eqn:E; [|discriminate]. intros _.
  apply find_some in E. destruct E as [Hin Heq]. apply str_eqb_eq in Heq. subst name.
  pose proof ext_names_ok as H. rewrite forallb_forall in H. specialize (H e Hin).
  rewrite !andb_true_iff, !negb_true_iff in H. tauto.
Qed.

(* What the round trip carries about an encoded sub-expression: it is an object (ToNode skips anything else), no object in it
   repeats a key (dec_policy looks at the whole document), and any fuel above its depth decodes it to e. *)
Definition dec_to (j : json) (e : expr) : Prop :=
  exists l, j = JObj l /\ jdups j = false /\ forall f, (jdepth j < f)%nat -> dec_expr f j = DOk e.

Definition una_table : list (string * (expr -> expr)) := [("!", ENot); ("neg", ENeg); ("isEmpty", EIsEmpty)]%string.

Definition bin_table : list (string * (expr -> expr -> expr)) :=
  [("==", EEq); ("!=", ENe); ("in", EIn); ("<", ELt); ("<=", ELe); (">", EGt); (">=", EGe); ("&&", EAnd); ("||", EOr);
   ("+", EAdd); ("-", ESub); ("*", EMul); ("contains", EContains); ("containsAll", EContainsAll); ("containsAny", EContainsAny);
   ("getTag", EGetTag); ("hasTag", EHasTag)]%string.

(* membership in these tables by evaluating a lookup on the Coq string *)
Lemma in_table {C} key (c : C) tbl : find (fun r => String.eqb (fst r) key) tbl = Some (key, c) -> In (key, c) tbl.
Proof. intros H. apply (find_some _ _ H). Qed.

(* an object with one member: no repeated key inside the member, and one step of the decoder with fuel for the member *)
Lemma dec_to_obj1 (key : str) v e :
  jdups v = false -> (forall f, (jdepth v <= f)%nat -> dec_expr (S f) (JObj [(key, v)]) = DOk e) -> dec_to (JObj [(key, v)]) e.
Proof.
  intros Hj H. eexists. split; [reflexivity|]. split; [rewrite jdups_obj; cbn [existsb snd]; rewrite Hj; reflexivity|].
  intros [|f] Hf; [lia|]. rewrite jdepth_obj in Hf. cbn [fold_right snd] in Hf. apply H. lia.
Qed.

(* a node {key: {members}}: distinct member names, and fuel above the members' depth *)
Lemma dec_to_node key l e :
  has_dups l = false -> Forall (fun kv => jdups (snd kv) = false) l ->
  (forall f, (fold_right (fun kv d => Nat.max (jdepth (snd kv)) d) 0 l < f)%nat -> dec_expr (S f) (obj1 key (JObj l)) = DOk e) ->
  dec_to (obj1 key (JObj l)) e.
Proof.
  intros Hd Hl H. apply dec_to_obj1; [rewrite jdups_obj, Hd; apply existsb_false_Forall, Hl|].
  intros f Hf. apply H. rewrite jdepth_obj in Hf. lia.
Qed.

Lemma dec_to_value v x : decode_value v = Some x -> jdups v = false -> dec_to (obj1 "Value" v) (ELit x).
Proof.
  intros Hd Hj. apply dec_to_obj1; [exact Hj|]. intros f _.
  transitivity (match decode_value v with Some x => DOk (ELit x) | None => DErr end); [destruct v; reflexivity|].
  rewrite Hd. reflexivity.
Qed.

Lemma dec_to_var x : dec_to (obj1 "Var" (JStr (var_name x))) (EVar x).
Proof. apply dec_to_obj1; [reflexivity|]. intros f _. destruct x; reflexivity. Qed.

(* one evaluation of the decoder per row of the table, on abstract operands *)
Lemma dec_una_step f l :
  Forall (fun r => dec_expr (S f) (una (fst r) (JObj l)) = dbind (dec_expr f (JObj l)) (fun x => DOk (snd r x))) una_table.
Proof. repeat (constructor; [reflexivity|]). constructor. Qed.

Lemma dec_bin_step f la lb :
  Forall (fun r => dec_expr (S f) (bin (fst r) (JObj la) (JObj lb)) =
                   dbind (dec_expr f (JObj la)) (fun x => dbind (dec_expr f (JObj lb)) (fun y => DOk (snd r x y)))) bin_table.
Proof. repeat (constructor; [reflexivity|]). constructor. Qed.

Lemma dec_to_una key ctor ja a : In (key, ctor) una_table -> dec_to ja a -> dec_to (una key ja) (ctor a).
Proof.
  intros Hk (la & -> & Ja & Da). apply dec_to_node; [reflexivity | repeat constructor; assumption |].
  intros f Hf. cbn [fold_right snd] in Hf.
  etransitivity; [exact (proj1 (Forall_forall _ _) (dec_una_step f la) _ Hk)|]. rewrite Da by lia. reflexivity.
Qed.

Lemma dec_to_bin key ctor ja jb a b : In (key, ctor) bin_table -> dec_to ja a -> dec_to jb b -> dec_to (bin key ja jb) (ctor a b).
Proof.
  intros Hk (la & -> & Ja & Da) (lb & -> & Jb & Db). apply dec_to_node; [reflexivity | repeat constructor; assumption |].
  intros f Hf. cbn [fold_right snd] in Hf.
  etransitivity; [exact (proj1 (Forall_forall _ _) (dec_bin_step f la lb) _ Hk)|]. rewrite Da, Db by lia. reflexivity.
Qed.

(* the nodes with a "left" operand and a string member *)
Definition attr_table : list (string * (string * (expr -> str -> expr))) :=
  [(".", ("attr", EAccess)); ("has", ("attr", EHas)); ("is", ("entity_type", EIs))]%string.

Lemma dec_to_attr key fld ctor ja a s : In (key, (fld, ctor)) attr_table -> dec_to ja a ->
  dec_to (obj1 key (JObj [(k "left", ja); (k fld, JStr s)])) (ctor a s).
Proof.
  intros Hk (la & -> & Ja & Da).
  assert (Hj : has_dups [(k "left", JObj la); (k fld, JStr s)] = false /\
               forall f, dec_expr (S f) (obj1 key (JObj [(k "left", JObj la); (k fld, JStr s)])) =
                         dbind (dec_expr f (JObj la)) (fun x => DOk (ctor x s))).
  { repeat (destruct Hk as [[= <- <- <-]|Hk]; [split; reflexivity|]). destruct Hk. }
  apply dec_to_node; [apply Hj | repeat constructor; assumption |].
  intros f Hf. cbn [fold_right snd] in Hf. rewrite (proj2 Hj), Da by lia. reflexivity.
Qed.

Lemma dec_to_like ja a jp p : dec_to ja a -> dec_pattern jp = DOk p -> jdups jp = false ->
  dec_to (obj1 "like" (JObj [(k "left", ja); (k "pattern", jp)])) (ELike a p).
Proof.
  intros (la & -> & Ja & Da) Hp Jp. apply dec_to_node; [reflexivity | repeat constructor; assumption |].
  intros f Hf. cbn [fold_right snd] in Hf.
  transitivity (dbind (dec_expr f (JObj la)) (fun x => dbind (dec_pattern jp) (fun pat => DOk (ELike x pat)))); [reflexivity|].
  rewrite Da, Hp by lia. reflexivity.
Qed.

Lemma dec_to_isin ja a ty jb b : dec_to ja a -> dec_to jb b ->
  dec_to (obj1 "is" (JObj [(k "left", ja); (k "entity_type", JStr ty); (k "in", jb)])) (EIsIn a ty b).
Proof.
  intros (la & -> & Ja & Da) (lb & -> & Jb & Db). apply dec_to_node; [reflexivity | repeat constructor; assumption |].
  intros f Hf. cbn [fold_right snd] in Hf.
  transitivity (dbind (dec_expr f (JObj la)) (fun x => dbind (dec_expr f (JObj lb)) (fun y => DOk (EIsIn x ty y)))); [reflexivity|].
  rewrite Da, Db by lia. reflexivity.
Qed.

Lemma dec_to_if ja a jb b jc c : dec_to ja a -> dec_to jb b -> dec_to jc c ->
  dec_to (obj1 "if-then-else" (JObj [(k "if", ja); (k "then", jb); (k "else", jc)])) (EIf a b c).
Proof.
  intros (la & -> & Ja & Da) (lb & -> & Jb & Db) (lc & -> & Jc & Dc). apply dec_to_node; [reflexivity | repeat constructor; assumption |].
  intros f Hf. cbn [fold_right snd] in Hf.
  transitivity (dbind (dec_expr f (JObj la)) (fun x => dbind (dec_expr f (JObj lb)) (fun y =>
                dbind (dec_expr f (JObj lc)) (fun z => DOk (EIf x y z))))); [reflexivity|].
  rewrite Da, Db, Dc by lia. reflexivity.
Qed.

Lemma dec_to_list js es : Forall2 dec_to js es ->
  jdups (JArr js) = false /\ forall f, (jdepth (JArr js) <= f)%nat -> dall (map (dec_expr f) js) = DOk es.
Proof.
  induction 1 as [|j e js es (_ & _ & Jj & Dj) _ [IHj IHd]]; [split; reflexivity|]. rewrite jdups_arr in *. split.
  - cbn [existsb]. rewrite Jj. exact IHj.
  - intros f Hf. cbn [jdepth fold_right] in *. cbn [map dall]. rewrite Dj, IHd by lia. reflexivity.
Qed.

Lemma dec_to_set js es : Forall2 dec_to js es -> dec_to (obj1 "Set" (JArr js)) (ESet es).
Proof.
  intros H. destruct (dec_to_list js es H) as [Jl Dl]. apply dec_to_obj1; [exact Jl|]. intros f Hf.
  transitivity (dbind (dall (map (dec_expr f) js)) (fun es => DOk (ESet es))); [rewrite <- pj_fix_map; reflexivity|].
  rewrite Dl by lia. reflexivity.
Qed.

Lemma dec_to_call name ar m js es : ext_lookup name = Some (ar, m) -> (m = true -> es <> []) -> Forall2 dec_to js es ->
  dec_to (JObj [(name, JArr js)]) (ECall name es).
Proof.
  intros El Hm H. destruct (dec_to_list js es H) as [Jl Dl]. destruct (ext_lookup_name name _ El) as (H1 & H2 & H3).
  apply dec_to_obj1; [exact Jl|]. intros f Hf.
  transitivity (dbind (dall (map (dec_expr f) js)) (fun es =>
                  match ext_lookup name with
                  | None => DErr
                  | Some (_, true) => match es with [] => DErr | _ => DOk (ECall name es) end
                  | Some (_, false) => DOk (ECall name es)
                  end)).
  { rewrite <- pj_fix_map. cbn [dec_expr List.length Nat.ltb Nat.leb forallb existsb fst snd]. rewrite H1, H2, H3. reflexivity. }
  rewrite Dl, El by lia. cbn [dbind]. destruct m; [|reflexivity]. destruct es; [destruct (Hm eq_refl eq_refl)|reflexivity].
Qed.

(* record literals: the members are a map, which both sides hold as a sorted association list *)
Definition dec_fields (f : nat) (l : list (str * json)) : list (dres (str * expr)) :=
  map (fun kv : str * json => match snd kv with JNull => DErr | x => dbind (dec_expr f x) (fun e => DOk (fst kv, e)) end) l.

Lemma dec_record_step f m :
  dec_expr (S f) (obj1 "Record" (JObj m)) = dbind (dall (dec_fields f (rec_of_list m))) (fun kvs => DOk (ERecord kvs)).
Proof.
  assert (E : forall l, (fix go (a : list (str * json)) : list (dres (str * expr)) :=
                 match a with
                 | [] => []
                 | (key', JNull) :: r => DErr :: go r
                 | (key', x) :: r => dbind (dec_expr f x) (fun e => DOk (key', e)) :: go r
                 end) l = dec_fields f l).
  { induction l as [|[key' x] l IH]; [reflexivity|]. unfold dec_fields. cbn [map fst snd]. fold (dec_fields f l).
    rewrite <- IH. destruct x; reflexivity. }
  rewrite <- E. reflexivity.
Qed.

Lemma dec_to_record {A} (g : A -> json) (h : A -> expr) (l : list (str * A)) :
  keys_sorted l = true -> Forall (fun kv => dec_to (g (snd kv)) (h (snd kv))) l ->
  dec_to (obj1 "Record" (JObj (mapv g l))) (ERecord (mapv h l)).
Proof.
  intros Hs H. rewrite <- (keys_sorted_mapv g) in Hs. apply dec_to_obj1.
  - rewrite jdups_obj, (has_dups_sorted _ Hs). apply existsb_false_Forall, Forall_map.
    eapply Forall_impl; [|exact H]. intros kv (_ & _ & J & _). exact J.
  - intros f Hf.
    etransitivity; [apply dec_record_step|]. rewrite (rec_of_list_sorted_id _ Hs). unfold dec_fields, mapv at 1. rewrite map_map. cbn [fst snd].
    rewrite (dall_map_ok _ (fun kv => (fst kv, h (snd kv)))); [reflexivity|].
    rewrite Forall_forall in *. intros kv Hkv. destruct (H kv Hkv) as (l' & E & _ & D).
    assert (Hin : In (fst kv, g (snd kv)) (mapv g l)) by (apply (in_map (fun kv => (fst kv, g (snd kv)))); exact Hkv).
    pose proof (jdepth_obj_in _ _ Hin) as Hd. cbn [snd] in Hd.
    rewrite E in *. rewrite D by lia. reflexivity.
Qed.

(* components after the first: all of them start with a wildcard, and only the last one may have an empty literal *)
Fixpoint pat_tail_ok (p : pattern) : bool :=
  match p with
  | [] => true
  | (w, l) :: r => w && (negb (is_nil l) || is_nil r) && pat_tail_ok r
  end.

(* the image of compile_pattern (NewPattern's merging), plus the empty pattern *)
Definition pat_canon (p : pattern) : bool :=
  match p with
  | [] => true
  | (false, _) :: r => pat_tail_ok r
  | (true, _) :: _ => pat_tail_ok p
  end.

(* the empty pattern is written as [{"Literal":""}], which reads back as the one-component pattern with an empty literal *)
Definition norm_pat (p : pattern) : pattern := match p with [] => [(false, [])] | _ => p end.

Definition pj_comp (c : json) : option (option str) :=
  match c with
  | JStr s => if str_eqb s (k "Wildcard") then Some None else None
  | JObj [(key, JStr lit)] => if str_eqb key (k "Literal") then Some (Some lit) else None
  | _ => None
  end.

Definition rawc (c : pcomp) : list (option str) :=
  (if fst c then [None] else []) ++ (if negb (fst c) || negb (is_nil (snd c)) then [Some (snd c)] else []).

Definition encc (c : pcomp) : list json :=
  (if fst c then [JStr (k "Wildcard")] else []) ++
  (if negb (fst c) || negb (is_nil (snd c)) then [obj1 "Literal" (JStr (snd c))] else []).

Lemma dec_pattern_arr l : l <> [] ->
  dec_pattern (JArr l) = match all_some (map pj_comp l) with Some cs => DOk (compile_pattern cs) | None => DErr end.
Proof. intros H. destruct l; [contradiction | reflexivity]. Qed.

Lemma enc_pattern_cons c p : enc_pattern (c :: p) = JArr (flat_map encc (c :: p)).
Proof. reflexivity. Qed.

Lemma all_some_app {A} (a : list (option A)) b x y :
  all_some a = Some x -> all_some b = Some y -> all_some (a ++ b) = Some (x ++ y).
Proof.
  revert x. induction a as [|[v|] a IH]; intros x Ha Hb; cbn [all_some app] in *.
  - injection Ha as <-. exact Hb.
  - destruct (all_some a) as [x'|]; [|discriminate]. cbn [option_map] in Ha. injection Ha as <-.
    rewrite (IH x' eq_refl Hb). reflexivity.
  - discriminate.
Qed.

Lemma comp_encc p : all_some (map pj_comp (flat_map encc p)) = Some (flat_map rawc p).
Proof.
  induction p as [|[w l] p IH]; [reflexivity|].
  cbn [flat_map]. rewrite map_app. apply all_some_app; [|exact IH].
  destruct w, l; reflexivity.
Qed.

Lemma flat_map_encc_nonnil c p : flat_map encc (c :: p) <> [].
Proof. destruct c as [[|] l]; cbn [flat_map encc fst snd negb orb app]; discriminate. Qed.

Lemma compile_tail : forall r acc w l, pat_tail_ok r = true -> negb w || negb (is_nil l) = true ->
  compile_rev (flat_map rawc r) ((w, l) :: acc) = rev r ++ (w, l) :: acc.
Proof.
  induction r as [|[w' l'] r IH]; intros acc w l Hr Hwl; [reflexivity|].
  cbn [pat_tail_ok] in Hr. rewrite !andb_true_iff in Hr. destruct Hr as [[Hw' Hl'] Hr]. subst w'.
  cbn [flat_map rawc fst snd negb orb app compile_rev]. unfold is_nil in Hwl. rewrite Hwl.
  destruct l' as [|c l'].
  - destruct r; [|discriminate]. reflexivity.
  - cbn [is_nil negb app compile_rev flat_map]. rewrite IH; [|exact Hr|reflexivity].
    cbn [rev]. rewrite <- app_assoc. reflexivity.
Qed.

Lemma compile_canon c p : pat_canon (c :: p) = true -> compile_pattern (flat_map rawc (c :: p)) = c :: p.
Proof.
  unfold compile_pattern. destruct c as [[|] l]; cbn [pat_canon]; intros H.
  - cbn [pat_tail_ok andb] in H. rewrite !andb_true_iff in H. destruct H as [Hl Hp].
    cbn [flat_map rawc fst snd negb orb app compile_rev].
    destruct l as [|x l].
    + destruct p; [|discriminate]. reflexivity.
    + cbn [is_nil negb app compile_rev]. rewrite compile_tail; [|exact Hp|reflexivity].
      rewrite rev_app_distr, rev_involutive. reflexivity.
  - cbn [flat_map rawc fst snd negb orb app compile_rev].
    rewrite compile_tail; [|exact H|reflexivity].
    rewrite rev_app_distr, rev_involutive. reflexivity.
Qed.

Theorem dec_enc_pattern p : pat_canon p = true -> dec_pattern (enc_pattern p) = DOk (norm_pat p).
Proof.
  destruct p as [|c p]; intros H; [reflexivity|].
  rewrite enc_pattern_cons, dec_pattern_arr by apply flat_map_encc_nonnil.
  rewrite comp_encc, compile_canon by exact H. reflexivity.
Qed.

Lemma jdups_enc_pattern p : jdups (enc_pattern p) = false.
Proof.
  destruct p as [|c p]; [reflexivity|]. rewrite enc_pattern_cons, jdups_arr.
  apply existsb_false_Forall, Forall_flat_map, Forall_forall. intros [[|] [|]] _; repeat constructor.
Qed.

Lemma norm_pat_match p s : go_match (norm_pat p) s = go_match p s.
Proof. destruct p; [|reflexivity]. destruct s; reflexivity. Qed.

Lemma norm_pat_idem p : norm_pat (norm_pat p) = norm_pat p.
Proof. destruct p; reflexivity. Qed.

Lemma norm_pat_canon p : pat_canon p = true -> pat_canon (norm_pat p) = true.
Proof. destruct p; [reflexivity|]. intros H; exact H. Qed.

(* pat_canon is exactly the image of NewPattern: every compiled pattern satisfies it *)

Definition inner_ok (c : pcomp) : bool := fst c && negb (is_nil (snd c)).
Definition first_ok (c : pcomp) : bool := negb (fst c) || negb (is_nil (snd c)).

Lemma pat_tail_ok_snoc p c : pat_tail_ok (p ++ [c]) = forallb inner_ok p && fst c.
Proof.
  induction p as [|[w l] p IH].
  - destruct c as [w l]. cbn [app pat_tail_ok forallb fst is_nil]. rewrite orb_true_r, !andb_true_r. reflexivity.
  - cbn [app pat_tail_ok forallb]. rewrite IH. unfold inner_ok at 1. cbn [fst snd].
    replace (is_nil (p ++ [c])) with false by (destruct p; reflexivity). rewrite orb_false_r, andb_assoc. reflexivity.
Qed.

Lemma pat_canon_snoc p c :
  pat_canon (p ++ [c]) = match p with [] => true | c1 :: mid => first_ok c1 && forallb inner_ok mid && fst c end.
Proof.
  destruct p as [|[[|] l1] mid]; cbn [app pat_canon].
  - destruct c as [[|] l]; cbn [pat_tail_ok is_nil]; rewrite ?orb_true_r; reflexivity.
  - cbn [pat_tail_ok andb]. rewrite pat_tail_ok_snoc.
    replace (is_nil (mid ++ [c])) with false by (destruct mid; reflexivity). rewrite orb_false_r, andb_assoc. reflexivity.
  - rewrite pat_tail_ok_snoc. reflexivity.
Qed.

(* the accumulator of compile_rev is the pattern built so far, reversed: it is canonical at every step *)
Lemma compile_rev_canon : forall cs acc, pat_canon (rev acc) = true -> pat_canon (rev (compile_rev cs acc)) = true.
Proof.
  induction cs as [|[s|] cs IH]; intros acc H; cbn [compile_rev]; [exact H| |].
  - destruct acc as [|[w l] acc']; apply IH; [reflexivity|]. cbn [rev] in *. rewrite pat_canon_snoc in *. exact H.
  - destruct acc as [|[w l] acc']; [apply IH; reflexivity|].
    destruct (negb w || negb match l with [] => true | _ :: _ => false end) eqn:E; apply IH; [|exact H].
    cbn [rev] in *. rewrite pat_canon_snoc in *. destruct (rev acc') as [|c1 mid]; cbn [app fst].
    + unfold first_ok, is_nil. cbn [fst snd forallb]. rewrite E. reflexivity.
    + rewrite !andb_true_iff in H. destruct H as [[H1 Hmid] Hw]. cbn [fst] in Hw. subst w.
      rewrite H1, forallb_app, Hmid. cbn [forallb]. unfold inner_ok, is_nil. cbn [fst snd]. cbn [negb orb] in E. rewrite E. reflexivity.
Qed.

Theorem compile_pattern_canon cs : pat_canon (compile_pattern cs) = true.
Proof. unfold compile_pattern. apply (compile_rev_canon cs []). reflexivity. Qed.

(* hence pat_canon is also necessary: whatever dec_pattern returns satisfies it *)
Lemma dec_pattern_canon j p : dec_pattern j = DOk p -> pat_canon p = true.
Proof.
  destruct j as [| | | | |l|l]; try discriminate. destruct l as [|x l]; [discriminate|].
  rewrite dec_pattern_arr by discriminate.
  destruct (all_some (map pj_comp (x :: l))) as [cs|]; [|discriminate].
  intros H. injection H as <-. apply compile_pattern_canon.
Qed.

Corollary pat_canon_necessary p : dec_pattern (enc_pattern p) = DOk p -> pat_canon p = true.
Proof. apply dec_pattern_canon. Qed.

Lemma dec_enc_uid u : dec_uid (enc_uid u) = DOk u.
Proof. destruct u as [t i]. reflexivity. Qed.

Lemma jdups_enc_uid u : jdups (enc_uid u) = false.
Proof. reflexivity. Qed.

Lemma dec_scope_entities l :
  dec_scope true (JObj [(k "op", JStr (k "in")); (k "entities", JArr l)]) = dbind (dall (map dec_uid l)) (fun es => DOk (SInSet es)).
Proof. reflexivity. Qed.

Definition scope_okj (action : bool) (s : scope) : bool :=
  match s with
  | SInSet _ => action
  | SIs _ | SIsIn _ _ => negb action
  | _ => true
  end.

Lemma dec_enc_scope action s : scope_okj action s = true -> dec_scope action (enc_scope s) = DOk s.
Proof.
  destruct s as [|u|u|us|ty|ty u]; destruct action; try discriminate; intros _;
    try reflexivity; try (destruct u; reflexivity).
  - destruct us as [|u us]; [reflexivity|].
    change (enc_scope (SInSet (u :: us))) with (JObj [(k "op", JStr (k "in")); (k "entities", JArr (map enc_uid (u :: us)))]).
    rewrite dec_scope_entities, map_map, (dall_map_ok _ (fun x => x)).
    + rewrite map_id. reflexivity.
    + apply Forall_forall. intros x _. apply dec_enc_uid.
  - destruct ty; reflexivity.
  - destruct ty, u; reflexivity.
Qed.

Lemma jdups_enc_scope s : jdups (enc_scope s) = false.
Proof.
  destruct s as [|u|u|us|ty|ty u]; try reflexivity.
  - destruct us as [|u us]; [reflexivity|].
    change (enc_scope (SInSet (u :: us))) with (JObj [(k "op", JStr (k "in")); (k "entities", JArr (map enc_uid (u :: us)))]).
    rewrite jdups_obj. cbn [existsb snd]. rewrite jdups_arr, (proj2 (existsb_false_Forall _ _)); [reflexivity|].
    apply Forall_map, Forall_forall. intros x _. apply jdups_enc_uid.
  - destruct ty; reflexivity.
  - destruct ty; reflexivity.
Qed.

Lemma enc_scope_is_obj s : is_obj (enc_scope s) = true.
Proof. destruct s; reflexivity. Qed.

(* the document shape enc_policy emits *)
Definition pol_json (oa : option (list (str * json))) (eff : bool) (jp ja jr : json) (oc : option (list json)) : json :=
  JObj ((match oa with None => [] | Some am => [(k "annotations", JObj am)] end)
        ++ [(k "effect", JStr (if eff then k "permit" else k "forbid")); (k "principal", jp); (k "action", ja); (k "resource", jr)]
        ++ (match oc with None => [] | Some cs => [(k "conditions", JArr cs)] end)).

Definition annot_dec (kv : str * json) : dres (str * str) :=
  match snd kv with JStr v => DOk (fst kv, v) | JNull => DOk (fst kv, []) | _ => DErr end.

Definition cond_dec (c : json) : dres (bool * expr) :=
  match c with
  | JObj cm => if has_dups cm || negb (struct_ok ["kind"; "body"]%string cm) then DUnk else
               dbind (sfield "kind" cm) (fun kind =>
               dbind (match jget (k "body") cm with Some (JObj _ as b) => decode_expr b | _ => DErr end) (fun body =>
               if is_key kind "when" then DOk (true, body) else if is_key kind "unless" then DOk (false, body) else DErr))
  | _ => DErr
  end.

Lemma jdups_pol_json oa eff jp ja jr oc :
  jdups (pol_json oa eff jp ja jr oc) =
  (match oa with Some am => jdups (JObj am) | None => false end) || jdups jp || jdups ja || jdups jr ||
  (match oc with Some cs => jdups (JArr cs) | None => false end).
Proof.
  unfold pol_json. rewrite jdups_obj.
  destruct oa, oc; cbn [app existsb snd]; rewrite !jdups_str;
    (replace (has_dups _) with false by reflexivity); cbn [orb]; rewrite ?orb_false_r, ?orb_assoc; reflexivity.
Qed.

Lemma dec_policy_shape oa eff jp ja jr oc a sp sa sr cs :
  is_obj jp = true -> is_obj ja = true -> is_obj jr = true -> jdups (pol_json oa eff jp ja jr oc) = false ->
  match oa with None => DOk [] | Some am => dbind (dall (map annot_dec am)) (fun kvs => DOk (rec_of_list kvs)) end = DOk a ->
  dec_scope false jp = DOk sp -> dec_scope true ja = DOk sa -> dec_scope false jr = DOk sr ->
  match oc with None => DOk [] | Some cs => dall (map cond_dec cs) end = DOk cs ->
  dec_policy (pol_json oa eff jp ja jr oc) =
  DOk (a, {| p_effect := eff; p_principal := sp; p_action := sa; p_resource := sr; p_conds := cs |}).
Proof.
  intros Hp Ha Hr Hd Da Dp Dact Dr Dc. unfold dec_policy. rewrite any_dups_jdups, Hd by lia.
  transitivity
    (dbind (match oa with None => DOk [] | Some am => dbind (dall (map annot_dec am)) (fun kvs => DOk (rec_of_list kvs)) end) (fun a =>
     dbind (dec_scope false jp) (fun sp => dbind (dec_scope true ja) (fun sa => dbind (dec_scope false jr) (fun sr =>
     dbind (match oc with None => DOk [] | Some cs => dall (map cond_dec cs) end) (fun cs =>
     DOk (a, {| p_effect := eff; p_principal := sp; p_action := sa; p_resource := sr; p_conds := cs |}))))))).
  - destruct jp; try discriminate. destruct ja; try discriminate. destruct jr; try discriminate.
    destruct oa, eff, oc; reflexivity.
  - rewrite Da, Dp, Dact, Dr, Dc. reflexivity.
Qed.

(* annotations are a map from names to strings *)
Lemma dec_annots annots :
  dbind (dall (map annot_dec (rec_of_list (mapv JStr annots)))) (fun kvs => DOk (rec_of_list kvs)) = DOk (rec_of_list annots).
Proof.
  rewrite rec_of_list_mapv. unfold mapv. rewrite map_map, (dall_map_ok _ (fun kv => kv)), map_id.
  - cbn [dbind]. rewrite rec_of_list_idem. reflexivity.
  - apply Forall_forall. intros [key v] _. reflexivity.
Qed.

Lemma jdups_annots annots : jdups (JObj (rec_of_list (mapv JStr annots))) = false.
Proof.
  rewrite jdups_obj, has_dups_sorted by apply rec_of_list_sorted_gen. rewrite rec_of_list_mapv.
  apply existsb_false_Forall, Forall_map, Forall_forall. reflexivity.
Qed.

Lemma cond_dec_step (b : bool) l :
  cond_dec (JObj [(k "kind", JStr (if b then k "when" else k "unless")); (k "body", JObj l)]) =
  dbind (decode_expr (JObj l)) (fun body => DOk (b, body)).
Proof. destruct b; reflexivity. Qed.

Section PolicyJsonProofs.
  Variable print_ip : bool -> Z -> Z -> str.           (* net/netip's printer: not modelled *)
  Variable ord : list json -> list json.               (* member order of an encoded set *)
  Variable ip_ok : bool -> Z -> Z -> bool.             (* the ip values whose printed form parses back *)
  Hypothesis ip_roundtrip : forall v6 a p, ip_ok v6 a p = true -> parse_ip (print_ip v6 a p) = Some (v6, a, p).
  (* literal set values are written in their own member order (otherwise the literal reads back as an equal, not identical, set) *)
  Hypothesis ord_id : forall l, ord l = l.

  Lemma ord_perm : forall l, Permutation (ord l) l.
  Proof. intros l. rewrite ord_id. apply Permutation_refl. Qed.

  Notation enc := (enc_expr print_ip ord).

  (* the normal form the JSON format itself imposes *)
  Fixpoint normj (e : expr) : expr :=
    let fix go (l : list expr) : list expr := match l with [] => [] | x :: r => normj x :: go r end in
    let fix gokv (l : list (str * expr)) : list (str * expr) := match l with [] => [] | (key, x) :: r => (key, normj x) :: gokv r end in
    match e with
    | ELit (VDecimal z) => ECall (s_of "decimal") [ELit (VString (print_decimal z))]
    | ELit (VIP v6 a p) => ECall (s_of "ip") [ELit (VString (print_ip v6 a p))]
    | ELit v => ELit v
    | EVar x => EVar x
    | EAnd a b => EAnd (normj a) (normj b) | EOr a b => EOr (normj a) (normj b)
    | ENot a => ENot (normj a) | ENeg a => ENeg (normj a)
    | EAdd a b => EAdd (normj a) (normj b) | ESub a b => ESub (normj a) (normj b) | EMul a b => EMul (normj a) (normj b)
    | EEq a b => EEq (normj a) (normj b) | ENe a b => ENe (normj a) (normj b)
    | ELt a b => ELt (normj a) (normj b) | ELe a b => ELe (normj a) (normj b)
    | EGt a b => EGt (normj a) (normj b) | EGe a b => EGe (normj a) (normj b)
    | EIn a b => EIn (normj a) (normj b)
    | EContains a b => EContains (normj a) (normj b) | EContainsAll a b => EContainsAll (normj a) (normj b)
    | EContainsAny a b => EContainsAny (normj a) (normj b) | EIsEmpty a => EIsEmpty (normj a)
    | EAccess a key => EAccess (normj a) key | EHas a key => EHas (normj a) key
    | EGetTag a b => EGetTag (normj a) (normj b) | EHasTag a b => EHasTag (normj a) (normj b)
    | ELike a p => ELike (normj a) (norm_pat p)
    | EIs a ty => EIs (normj a) ty | EIsIn a ty b => EIsIn (normj a) ty (normj b)
    | EIf c t f => EIf (normj c) (normj t) (normj f)
    | ESet es => ESet (go es)
    | ERecord kvs => ERecord (rec_of_list (gokv kvs))
    | ECall name args => ECall name (go args)
    | EPartialError kd => EPartialError kd
    end.

  Definition normj_policy (p : policy) : policy :=
    {| p_effect := p_effect p; p_principal := p_principal p; p_action := p_action p; p_resource := p_resource p;
       p_conds := map (fun c : bool * expr => (fst c, normj (snd c))) (p_conds p) |}.

  Fixpoint expr_okj (e : expr) : bool :=
    let fix all (l : list expr) : bool := match l with [] => true | x :: r => expr_okj x && all r end in
    let fix allkv (l : list (str * expr)) : bool := match l with [] => true | (_, x) :: r => expr_okj x && allkv r end in
    match e with
    | ELit (VDecimal _) => true
    | ELit (VIP _ _ _) => true
    | ELit v => json_safe ip_ok v
    | EVar _ => true
    | ENot a | ENeg a | EIsEmpty a | EAccess a _ | EHas a _ | EIs a _ => expr_okj a
    | EAnd a b | EOr a b | EAdd a b | ESub a b | EMul a b | EEq a b | ENe a b | ELt a b | ELe a b | EGt a b | EGe a b
    | EIn a b | EContains a b | EContainsAll a b | EContainsAny a b | EGetTag a b | EHasTag a b | EIsIn a _ b => expr_okj a && expr_okj b
    | ELike a p => expr_okj a && pat_canon p
    | EIf c t f => expr_okj c && expr_okj t && expr_okj f
    | ESet es => all es
    | ERecord kvs => allkv kvs
    | ECall name args =>
        match ext_lookup name with
        | Some (_, m) => (negb m || negb (is_nil args)) && all args
        | None => false
        end
    | EPartialError _ => false
    end.

  Definition policy_okj (p : policy) : bool :=
    scope_okj false (p_principal p) && scope_okj true (p_action p) && scope_okj false (p_resource p) &&
    forallb (fun c : bool * expr => expr_okj (snd c)) (p_conds p).

  Lemma normj_set es : normj (ESet es) = ESet (map normj es).
  Proof. cbn [normj]. rewrite pj_fix_map. reflexivity. Qed.
  Lemma normj_call n es : normj (ECall n es) = ECall n (map normj es).
  Proof. cbn [normj]. rewrite pj_fix_map. reflexivity. Qed.
  Lemma normj_record kvs : normj (ERecord kvs) = ERecord (rec_of_list (mapv normj kvs)).
  Proof. cbn [normj]. rewrite pj_fix_mapv. reflexivity. Qed.

  Lemma enc_set es : enc (ESet es) = obj1 "Set" (JArr (map enc es)).
  Proof. cbn [enc_expr]. rewrite pj_fix_map. reflexivity. Qed.
  Lemma enc_call n es : enc (ECall n es) = JObj [(n, JArr (map enc es))].
  Proof. cbn [enc_expr]. rewrite pj_fix_map. reflexivity. Qed.
  Lemma enc_record kvs : enc (ERecord kvs) = obj1 "Record" (JObj (rec_of_list (mapv enc kvs))).
  Proof. cbn [enc_expr]. rewrite pj_fix_mapv. reflexivity. Qed.

  Lemma okj_all_forallb es :
    (fix all (l : list expr) : bool := match l with [] => true | x :: r => expr_okj x && all r end) es = forallb expr_okj es.
  Proof. induction es as [|x es IH]; [reflexivity|]. cbn [forallb]. rewrite <- IH. reflexivity. Qed.

  Lemma okj_set es : expr_okj (ESet es) = forallb expr_okj es.
  Proof. cbn [expr_okj]. apply okj_all_forallb. Qed.
  Lemma okj_call n es : expr_okj (ECall n es) =
    match ext_lookup n with Some (_, m) => (negb m || negb (is_nil es)) && forallb expr_okj es | None => false end.
  Proof. cbn [expr_okj]. rewrite okj_all_forallb. reflexivity. Qed.
  Lemma okj_record kvs : expr_okj (ERecord kvs) = forallb (fun kv => expr_okj (snd kv)) kvs.
  Proof.
    cbn [expr_okj]. induction kvs as [|[key x] kvs IH]; [reflexivity|]. cbn [forallb snd]. rewrite <- IH. reflexivity.
  Qed.

  Lemma enc_value_roundtrip v : json_safe ip_ok v = true -> decode_value (enc_value print_ip ord v) = Some v.
  Proof.
    intros Hs. exact (value_json_roundtrip_eq print_ip ord ord_perm ip_ok ip_roundtrip v Hs ord_id).
  Qed.

  Lemma jdups_enc_value : forall v, json_safe ip_ok v = true -> jdups (encode_value print_ip ord v) = false.
  Proof.
    apply (value_ind' (fun v => json_safe ip_ok v = true -> jdups (encode_value print_ip ord v) = false)); try (intros; reflexivity).
    - intros l IH Hs. rewrite json_safe_set in Hs. apply andb_true_iff in Hs. destruct Hs as [_ Hs].
      cbn [encode_value]. rewrite ord_id, jdups_arr. apply existsb_false_Forall, Forall_map, (Forall_forallb_mp _ _ _ IH Hs).
    - intros l IH Hs. rewrite json_safe_record in Hs. apply andb_true_iff in Hs. destruct Hs as [Hk Hs].
      rewrite encode_record, jdups_obj. apply orb_false_iff. split.
      + apply has_dups_sorted. rewrite <- Hk. apply keys_sorted_ext. rewrite map_map. reflexivity.
      + apply existsb_false_Forall, Forall_map. refine (Forall_forallb_mp _ _ _ _ Hs).
        eapply Forall_impl; [|exact IH]. intros kv H Hkv. apply andb_true_iff in Hkv. apply H, Hkv.
  Qed.

  Lemma dec_enc_to : forall e, expr_okj e = true -> dec_to (enc e) (normj e).
  Proof.
    apply (expr_ind' (fun e => expr_okj e = true -> dec_to (enc e) (normj e)));
      try (intros a b IHa IHb Hok; cbn [expr_okj] in Hok; apply andb_true_iff in Hok; destruct Hok as [Ha Hb];
           cbn [enc_expr normj]; apply dec_to_bin; [apply in_table; reflexivity | exact (IHa Ha) | exact (IHb Hb)]);
      try (intros a IHa Hok; cbn [enc_expr normj]; apply dec_to_una; [apply in_table; reflexivity | exact (IHa Hok)]).
    - intros v Hok.
      assert (Hgen : json_safe ip_ok v = true -> dec_to (obj1 "Value" (enc_value print_ip ord v)) (ELit v)).
      { intros Hs. apply dec_to_value; [apply enc_value_roundtrip | apply jdups_enc_value]; exact Hs. }
      destruct v; try exact (Hgen Hok);
        (eapply dec_to_call; [reflexivity | discriminate | repeat constructor; apply dec_to_value; reflexivity]).
    - intros x _. apply dec_to_var.
    - intros a key IHa Hok. apply dec_to_attr, IHa, Hok. apply in_table. reflexivity.
    - intros a key IHa Hok. apply dec_to_attr, IHa, Hok. apply in_table. reflexivity.
    - intros a p IHa Hok. cbn [expr_okj] in Hok. apply andb_true_iff in Hok. destruct Hok as [Ha Hp].
      apply dec_to_like; [exact (IHa Ha) | apply dec_enc_pattern, Hp | apply jdups_enc_pattern].
    - intros a ty IHa Hok. apply dec_to_attr, IHa, Hok. apply in_table. reflexivity.
    - intros a ty b IHa IHb Hok. cbn [expr_okj] in Hok. apply andb_true_iff in Hok. destruct Hok as [Ha Hb].
      apply dec_to_isin; [exact (IHa Ha) | exact (IHb Hb)].
    - intros c t e IHc IHt IHe Hok. cbn [expr_okj] in Hok. rewrite !andb_true_iff in Hok. destruct Hok as [[Hc Ht] He].
      apply dec_to_if; [exact (IHc Hc) | exact (IHt Ht) | exact (IHe He)].
    - intros es IH Hok. rewrite okj_set in Hok. rewrite enc_set, normj_set.
      apply dec_to_set, Forall2_map, (Forall_forallb_mp _ _ _ IH Hok).
    - intros kvs IH Hok. rewrite okj_record in Hok. rewrite enc_record, normj_record, !rec_of_list_mapv.
      apply dec_to_record; [apply rec_of_list_sorted_gen|].
      apply (rec_of_list_Forall (fun x => dec_to (enc x) (normj x))), (Forall_forallb_mp _ _ _ IH Hok).
    - intros n es IH Hok. rewrite okj_call in Hok. destruct (ext_lookup n) as [[ar m]|] eqn:El; [|discriminate].
      apply andb_true_iff in Hok. destruct Hok as [Hm Hok]. rewrite enc_call, normj_call.
      apply (dec_to_call n ar m); [exact El | | apply Forall2_map, (Forall_forallb_mp _ _ _ IH Hok)].
      intros ->. destruct es; discriminate.
    - intros kd Hok. discriminate.
  Qed.

  Theorem decode_encode_expr : forall e, expr_okj e = true -> decode_expr (enc_expr print_ip ord e) = DOk (normj e).
  Proof. intros e Hok. destruct (dec_enc_to e Hok) as (_ & _ & _ & D). apply D, Nat.lt_succ_diag_r. Qed.

  Theorem normj_idempotent : forall e, normj (normj e) = normj e.
  Proof.
    apply (expr_ind' (fun e => normj (normj e) = normj e));
      try (intros; cbn [normj]; congruence).
    - intros v. destruct v; reflexivity.
    - intros a p IHa. cbn [normj]. rewrite IHa, norm_pat_idem. reflexivity.
    - intros es IH. rewrite !normj_set, map_map. f_equal. apply map_ext_Forall, IH.
    - intros kvs IH. rewrite !normj_record. f_equal.
      rewrite <- rec_of_list_mapv, mapv_mapv, rec_of_list_idem. f_equal.
      apply mapv_ext_Forall. exact IH.
    - intros n es IH. rewrite !normj_call, map_map. f_equal. apply map_ext_Forall, IH.
  Qed.

  Definition enc_cond (c : bool * expr) : json :=
    JObj [(k "kind", JStr (if fst c then k "when" else k "unless")); (k "body", enc (snd c))].

  Lemma dec_enc_cond c : expr_okj (snd c) = true ->
    cond_dec (enc_cond c) = DOk (fst c, normj (snd c)) /\ jdups (enc_cond c) = false.
  Proof.
    intros Hok. destruct (dec_enc_to _ Hok) as (l & E & J & _). pose proof (decode_encode_expr _ Hok) as D.
    unfold enc_cond. rewrite E in *. split.
    - rewrite cond_dec_step, D. reflexivity.
    - rewrite jdups_obj. cbn [existsb snd]. rewrite J. reflexivity.
  Qed.

  Lemma enc_policy_shape annots p :
    enc_policy print_ip ord annots p =
    pol_json (match annots with [] => None | _ => Some (rec_of_list (mapv JStr annots)) end) (p_effect p)
             (enc_scope (p_principal p)) (enc_scope (p_action p)) (enc_scope (p_resource p))
             (match p_conds p with [] => None | cs => Some (map enc_cond cs) end).
  Proof. unfold enc_policy, pol_json. destruct annots, (p_conds p); reflexivity. Qed.

  Theorem dec_enc_policy : forall annots p, policy_okj p = true ->
    dec_policy (enc_policy print_ip ord annots p) = DOk (rec_of_list annots, normj_policy p).
  Proof.
    intros annots p Hok. unfold policy_okj in Hok. rewrite !andb_true_iff in Hok.
    destruct Hok as [[[Hsp Hsa] Hsr] Hcs].
    assert (Hc : Forall (fun c => cond_dec (enc_cond c) = DOk (fst c, normj (snd c)) /\ jdups (enc_cond c) = false) (p_conds p)).
    { apply Forall_forall. intros c Hc. apply dec_enc_cond. rewrite forallb_forall in Hcs. apply Hcs, Hc. }
    rewrite enc_policy_shape. apply dec_policy_shape; try apply enc_scope_is_obj; try (apply dec_enc_scope; assumption).
    - rewrite jdups_pol_json, !jdups_enc_scope, !orb_false_r. apply orb_false_iff. split.
      + destruct annots; [reflexivity | apply jdups_annots].
      + destruct (p_conds p) as [|c0 cs] eqn:E; [reflexivity|]. rewrite <- E in *.
        rewrite jdups_arr. apply existsb_false_Forall, Forall_map. eapply Forall_impl; [|exact Hc]. intros c H. apply H.
    - destruct annots; [reflexivity | apply dec_annots].
    - destruct (p_conds p) as [|c0 cs] eqn:E; [reflexivity|]. rewrite <- E in *.
      rewrite map_map. apply dall_map_ok. eapply Forall_impl; [|exact Hc]. intros c H. apply H.
  Qed.

  (* the normal form is again encodable: the second round trip is the identity *)

  Lemma okj_normj : forall e, expr_okj e = true -> expr_okj (normj e) = true.
  Proof.
    apply (expr_ind' (fun e => expr_okj e = true -> expr_okj (normj e) = true));
      try (intros a b IHa IHb; exact (andb_true_mono _ _ _ _ IHa IHb));
      try (intros a IHa; exact IHa);
      try (intros a s IHa; exact IHa).
    - intros v Hok. destruct v; try exact Hok; reflexivity.
    - intros a p IHa. exact (andb_true_mono _ _ _ _ IHa (norm_pat_canon p)).
    - intros a ty b IHa IHb. exact (andb_true_mono _ _ _ _ IHa IHb).
    - intros c t e IHc IHt IHe. exact (andb_true_mono _ _ _ _ (andb_true_mono _ _ _ _ IHc IHt) IHe).
    - intros es IH Hok. rewrite normj_set, okj_set in *. apply forallb_map_Forall, (Forall_forallb_mp _ _ _ IH Hok).
    - intros kvs IH Hok. rewrite normj_record, okj_record in *. rewrite rec_of_list_mapv. apply forallb_map_Forall.
      apply (rec_of_list_Forall (fun x => expr_okj (normj x) = true)), (Forall_forallb_mp _ _ _ IH Hok).
    - intros n es IH Hok. rewrite normj_call, okj_call in *. destruct (ext_lookup n) as [[ar m]|]; [|discriminate].
      apply andb_true_iff in Hok. destruct Hok as [Hm Hok]. apply andb_true_iff. split.
      + destruct es; [exact Hm|]. destruct m; reflexivity.
      + apply forallb_map_Forall, (Forall_forallb_mp _ _ _ IH Hok).
  Qed.

  Theorem second_roundtrip : forall e, expr_okj e = true ->
    decode_expr (enc_expr print_ip ord (normj e)) = DOk (normj e).
  Proof. intros e Hok. rewrite (decode_encode_expr _ (okj_normj e Hok)), normj_idempotent. reflexivity. Qed.

  (* decimal / ip literal values print to a text that parses back to them *)
  Fixpoint sem_okj (e : expr) : bool :=
    let fix all (l : list expr) : bool := match l with [] => true | x :: r => sem_okj x && all r end in
    let fix allkv (l : list (str * expr)) : bool := match l with [] => true | (_, x) :: r => sem_okj x && allkv r end in
    match e with
    | ELit (VDecimal z) => in64b z
    | ELit (VIP v6 a p) => ip_ok v6 a p
    | ELit _ | EVar _ | EPartialError _ => true
    | ENot a | ENeg a | EIsEmpty a | EAccess a _ | EHas a _ | EIs a _ | ELike a _ => sem_okj a
    | EAnd a b | EOr a b | EAdd a b | ESub a b | EMul a b | EEq a b | ENe a b | ELt a b | ELe a b | EGt a b | EGe a b
    | EIn a b | EContains a b | EContainsAll a b | EContainsAny a b | EGetTag a b | EHasTag a b | EIsIn a _ b => sem_okj a && sem_okj b
    | EIf c t f => sem_okj c && sem_okj t && sem_okj f
    | ESet es => all es
    | ERecord kvs => allkv kvs
    | ECall _ args => all args
    end.

  Lemma sem_all_forallb es :
    (fix all (l : list expr) : bool := match l with [] => true | x :: r => sem_okj x && all r end) es = forallb sem_okj es.
  Proof. induction es as [|x es IH]; [reflexivity|]. cbn [forallb]. rewrite <- IH. reflexivity. Qed.

  Lemma sem_set es : sem_okj (ESet es) = forallb sem_okj es.
  Proof. cbn [sem_okj]. apply sem_all_forallb. Qed.
  Lemma sem_call n es : sem_okj (ECall n es) = forallb sem_okj es.
  Proof. cbn [sem_okj]. apply sem_all_forallb. Qed.
  Lemma sem_record kvs : sem_okj (ERecord kvs) = forallb (fun kv => sem_okj (snd kv)) kvs.
  Proof.
    cbn [sem_okj]. induction kvs as [|[key x] kvs IH]; [reflexivity|]. cbn [forallb snd]. rewrite <- IH. reflexivity.
  Qed.

  Lemma call_decimal_lit s : call_ext (s_of "decimal") [Ok (VString s)] = opt_res (parse_decimal s) VDecimal.
  Proof. reflexivity. Qed.

  Lemma call_ip_lit s :
    call_ext (s_of "ip") [Ok (VString s)] = opt_res (parse_ip s) (fun x => VIP (fst (fst x)) (snd (fst x)) (snd x)).
  Proof. reflexivity. Qed.

  Theorem eval_normj : forall en e, sem_okj e = true -> eval en (normj e) = eval en e.
  Proof.
    intros en.
    apply (expr_ind' (fun e => sem_okj e = true -> eval en (normj e) = eval en e));
      try (intros a b IHa IHb Hok; cbn [sem_okj] in Hok; apply andb_prop in Hok; cbn [normj eval];
           rewrite (IHa (proj1 Hok)), (IHb (proj2 Hok)); reflexivity);
      try (intros a IHa Hok; cbn [normj eval]; rewrite (IHa Hok); reflexivity).
    - intros v Hok. destruct v; try reflexivity; cbn [sem_okj] in Hok; cbn [normj eval map].
      + rewrite call_decimal_lit, (decimal_roundtrip z); [reflexivity|]. apply in64b_spec. exact Hok.
      + rewrite call_ip_lit, (ip_roundtrip _ _ _ Hok). reflexivity.
    - intros x _. reflexivity.
    - intros a key IHa Hok. cbn [normj eval]. rewrite (IHa Hok). reflexivity.
    - intros a key IHa Hok. cbn [normj eval]. rewrite (IHa Hok). reflexivity.
    - intros a p IHa Hok. cbn [normj eval]. rewrite (IHa Hok).
      destruct (eval en a) as [[]|]; try reflexivity. cbn [bindr as_string]. rewrite norm_pat_match. reflexivity.
    - intros a ty IHa Hok. cbn [normj eval]. rewrite (IHa Hok). reflexivity.
    - intros a ty b IHa IHb Hok. cbn [sem_okj] in Hok. apply andb_prop in Hok. cbn [normj eval].
      rewrite (IHa (proj1 Hok)), (IHb (proj2 Hok)). reflexivity.
    - intros c t e IHc IHt IHe Hok. cbn [sem_okj] in Hok. apply andb_prop in Hok. destruct Hok as [Hct He].
      apply andb_prop in Hct. cbn [normj eval]. rewrite (IHc (proj1 Hct)), (IHt (proj2 Hct)), (IHe He). reflexivity.
    - intros es IH Hok. rewrite sem_set in Hok. rewrite normj_set. cbn [eval]. rewrite map_map.
      rewrite (map_ext_Forall _ _ (Forall_forallb_mp _ _ _ IH Hok)). reflexivity.
    - intros kvs IH Hok. rewrite sem_record in Hok. rewrite normj_record. cbn [eval].
      change (map (fun kv : str * expr => (fst kv, eval en (snd kv))) (rec_of_list (mapv normj kvs)))
        with (mapv (eval en) (rec_of_list (mapv normj kvs))).
      change (map (fun kv : str * expr => (fst kv, eval en (snd kv))) kvs) with (mapv (eval en) kvs).
      rewrite <- rec_of_list_mapv, rec_of_list_idem, mapv_mapv.
      rewrite (mapv_ext_Forall _ _ _ (Forall_forallb_mp _ _ _ IH Hok)). reflexivity.
    - intros n es IH Hok. rewrite sem_call in Hok. rewrite normj_call. cbn [eval]. rewrite map_map.
      rewrite (map_ext_Forall _ _ (Forall_forallb_mp _ _ _ IH Hok)). reflexivity.
    - intros kd _. reflexivity.
  Qed.
End PolicyJsonProofs.

(* the hypotheses are needed and the normal form is real: computed on the model *)
Definition pj_no_ip : bool -> Z -> Z -> str := fun _ _ _ => [].
Definition pj_id : list json -> list json := fun l => l.
Notation pj_rt e := (decode_expr (enc_expr pj_no_ip pj_id e)).

(* the normal form: decimal literal values become calls, record entries become a map, the empty pattern gets its one component *)
Example pj_ex_decimal : pj_rt (ELit (VDecimal 12500)) = DOk (ECall (s_of "decimal") [ELit (VString (s_of "1.25"))]).
Proof. vm_compute. reflexivity. Qed.
Example pj_ex_record :
  pj_rt (ERecord [(s_of "b", ELit (VLong 1)); (s_of "a", ELit (VLong 2)); (s_of "b", ELit (VLong 3))]) =
  DOk (ERecord [(s_of "a", ELit (VLong 2)); (s_of "b", ELit (VLong 3))]).
Proof. vm_compute. reflexivity. Qed.
Example pj_ex_empty_pattern : pj_rt (ELike (EVar VContext) []) = DOk (ELike (EVar VContext) [(false, [])]).
Proof. vm_compute. reflexivity. Qed.

(* outside expr_okj the round trip fails *)
Example pj_ex_partial_error : pj_rt (EPartialError EType) = DErr.
Proof. vm_compute. reflexivity. Qed.
Example pj_ex_unknown_call : pj_rt (ECall (s_of "foo") []) = DErr.
Proof. vm_compute. reflexivity. Qed.
Example pj_ex_method_no_args : pj_rt (ECall (s_of "isIpv4") []) = DErr.
Proof. vm_compute. reflexivity. Qed.
Example pj_ex_call_named_like_a_key : pj_rt (ECall (s_of "Set") [ELit (VLong 1)]) = DOk (ESet [ELit (VLong 1)]).
Proof. vm_compute. reflexivity. Qed.
Example pj_ex_pattern_not_canonical :
  pj_rt (ELike (EVar VContext) [(false, s_of "a"); (false, s_of "b")]) = DOk (ELike (EVar VContext) [(false, s_of "ab")]).
Proof. vm_compute. reflexivity. Qed.
Example pj_ex_pattern_double_wildcard :
  pj_rt (ELike (EVar VContext) [(true, []); (true, s_of "b")]) = DOk (ELike (EVar VContext) [(true, s_of "b")]).
Proof. vm_compute. reflexivity. Qed.
(* a literal value outside json_safe: F17 (a record shaped like the extension escape) and an out-of-range long *)
Example pj_ex_f17 :
  pj_rt (ELit (VRecord [(s_of "__extn", VRecord [(s_of "arg", VString (s_of "1.0")); (s_of "fn", VString (s_of "decimal"))])])) =
  DOk (ELit (VDecimal 10000)).
Proof. vm_compute. reflexivity. Qed.
Example pj_ex_long_range : pj_rt (ELit (VLong (2 ^ 63))) = DErr.
Proof. vm_compute. reflexivity. Qed.
(* a member order other than the identity permutes literal sets *)
Example pj_ex_ord : decode_expr (enc_expr pj_no_ip (@rev json) (ELit (VSet [VLong 1; VLong 2]))) = DOk (ELit (VSet [VLong 2; VLong 1])).
Proof. vm_compute. reflexivity. Qed.

(* outside policy_okj: scopes the JSON format cannot express *)
Definition pj_pol (sp sa sr : scope) : policy :=
  {| p_effect := true; p_principal := sp; p_action := sa; p_resource := sr; p_conds := [] |}.
Example pj_ex_principal_in_set : dec_policy (enc_policy pj_no_ip pj_id [] (pj_pol (SInSet [(s_of "T", s_of "a")]) SAll SAll)) = DErr.
Proof. vm_compute. reflexivity. Qed.
Example pj_ex_resource_in_empty_set : dec_policy (enc_policy pj_no_ip pj_id [] (pj_pol SAll SAll (SInSet []))) = DErr.
Proof. vm_compute. reflexivity. Qed.
Example pj_ex_action_is : dec_policy (enc_policy pj_no_ip pj_id [] (pj_pol SAll (SIs (s_of "T")) SAll)) = DErr.
Proof. vm_compute. reflexivity. Qed.
Example pj_ex_action_is_in : dec_policy (enc_policy pj_no_ip pj_id [] (pj_pol SAll (SIsIn (s_of "T") (s_of "T", s_of "a")) SAll)) = DErr.
Proof. vm_compute. reflexivity. Qed.
(* annotations are a map *)
Example pj_ex_annots :
  dec_policy (enc_policy pj_no_ip pj_id [(s_of "b", s_of "1"); (s_of "a", s_of "2"); (s_of "b", s_of "3")] (pj_pol SAll SAll SAll)) =
  DOk ([(s_of "a", s_of "2"); (s_of "b", s_of "3")], pj_pol SAll SAll SAll).
Proof. vm_compute. reflexivity. Qed.

Print Assumptions decode_encode_expr.
Print Assumptions dec_enc_policy.
Print Assumptions normj_idempotent.
Print Assumptions second_roundtrip.
Print Assumptions eval_normj.
Print Assumptions dec_enc_pattern.
Print Assumptions compile_pattern_canon.
Print Assumptions pat_canon_necessary.
