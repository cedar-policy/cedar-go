(* C20 over HISTORIES: a policy set refines a plain id -> policy map along every sequence of operations,
   and the document loader numbers the policies policy0, policy1, .. in document order.

   Model: Impl/PolicySet.v (pset, step, run).  Per-step lemmas: Proofs/PolicySetProofs.v.

   Remark on the shape of the specification.  The abstract state is a total function  fmap = str -> option handle.
   The operation OCedarRoundTrip renumbers the id-sorted enumeration of the map; that enumeration cannot be COMPUTED
   from a Coq function str -> option handle, so "the map after the operation" is given as a RELATION
       spec_next f o f'
   which is (proved below) functional up to pointwise equality, invariant under pointwise equality of both maps,
   and total on every map that has an enumeration.  No functional extensionality is used anywhere. *)
From Coq Require Import ZArith List Bool Permutation Sorted Lia String Arith FinFun.
Import ListNotations.
From Cedar Require Import Lang.Value Impl.Authorize Impl.PolicySet Proofs.AuthorizeProofs Proofs.PolicySetProofs.
Local Open Scope Z_scope.

Definition feq (f g : fmap) : Prop := forall x, f x = g x.

Lemma feq_refl f : feq f f.
Proof. intros x; reflexivity. Qed.
Lemma feq_sym f g : feq f g -> feq g f.
Proof. intros H x; symmetry; apply H. Qed.
Lemma feq_trans f g h : feq f g -> feq g h -> feq f h.
Proof. intros H1 H2 x; rewrite H1; apply H2. Qed.

Lemma f_set_ext f g k h : feq f g -> feq (f_set f k h) (f_set g k h).
Proof. intros H x. unfold f_set. destruct (str_eqb k x); auto. Qed.
Lemma f_del_ext f g k : feq f g -> feq (f_del f k) (f_del g k).
Proof. intros H x. unfold f_del. destruct (str_eqb k x); auto. Qed.

(* the strictly id-sorted enumeration of a map *)
Definition id_lt (a b : str * handle) : Prop := str_ltb (fst a) (fst b) = true.

Definition bindings_of (f : fmap) (l : list (str * handle)) : Prop :=
  StronglySorted id_lt l /\ forall k h, In (k, h) l <-> f k = Some h.

Lemma id_lt_irrefl a : ~ id_lt a a.
Proof. unfold id_lt. rewrite str_ltb_irrefl. discriminate. Qed.

Lemma id_lt_asym a b : id_lt a b -> id_lt b a -> False.
Proof. unfold id_lt. intros H1 H2. apply str_ltb_asym in H1. congruence. Qed.

Lemma id_lt_trans a b c : id_lt a b -> id_lt b c -> id_lt a c.
Proof. unfold id_lt. apply str_ltb_trans. Qed.

Lemma ssorted_unique l1 : forall l2,
  StronglySorted id_lt l1 -> StronglySorted id_lt l2 -> (forall x, In x l1 <-> In x l2) -> l1 = l2.
Proof.
  induction l1 as [|a l1 IH]; intros [|b l2] H1 H2 HI; auto.
  1, 2: exfalso; eapply in_nil, HI; left; reflexivity.
  inversion H1 as [|? ? HS1 HF1]; inversion H2 as [|? ? HS2 HF2]; subst.
  rewrite Forall_forall in HF1, HF2.
  assert (a = b) as <-.
  { destruct (proj1 (HI a) (or_introl eq_refl)) as [E|E]; auto.
    destruct (proj2 (HI b) (or_introl eq_refl)) as [E'|E']; auto.
    destruct (id_lt_asym a b); auto. }
  f_equal. apply IH; auto. intros x. split; intros Hx.
  - destruct (proj1 (HI x) (or_intror Hx)) as [<-|E]; auto. destruct (id_lt_irrefl a); auto.
  - destruct (proj2 (HI x) (or_intror Hx)) as [<-|E]; auto. destruct (id_lt_irrefl a); auto.
Qed.

Lemma bindings_of_ext f g l : feq f g -> bindings_of f l -> bindings_of g l.
Proof. intros H [HS HI]. split; auto. intros k h. rewrite HI, H. tauto. Qed.

(* the enumeration is unique (also across pointwise-equal maps) *)
Theorem bindings_unique f l1 l2 : bindings_of f l1 -> bindings_of f l2 -> l1 = l2.
Proof.
  intros [HS1 HI1] [HS2 HI2]. apply ssorted_unique; auto.
  intros [k h]. rewrite HI1, HI2. tauto.
Qed.

Corollary bindings_unique_ext f g l1 l2 : feq f g -> bindings_of f l1 -> bindings_of g l2 -> l1 = l2.
Proof. intros H H1 H2. eapply bindings_unique; [eapply bindings_of_ext; eauto | auto]. Qed.

Lemma ssorted_keys_nodup l : StronglySorted id_lt l -> NoDup (map fst l).
Proof.
  induction 1 as [|a l HS IH HF]; cbn; constructor; auto.
  intros Hin. apply in_map_iff in Hin. destruct Hin as (x & Hx & Hin).
  rewrite Forall_forall in HF. specialize (HF x Hin). unfold id_lt in HF.
  rewrite Hx, str_ltb_irrefl in HF. discriminate.
Qed.

(* the enumeration is sorted for the non-strict order used by PolicySetProofs too *)
Lemma ssorted_id_le l : StronglySorted id_lt l -> Sorted id_le l.
Proof.
  intros H. apply StronglySorted_Sorted in H. induction H as [|a l HS IH HH]; constructor; auto.
  destruct HH as [|b l Hab]; constructor. unfold id_le. apply str_ltb_asym. exact Hab.
Qed.

(* conversely, with unique ids: what sort_by_id_sorted gives is enough *)
Lemma sorted_uniq_ssorted l : Sorted id_le l -> NoDup (map fst l) -> StronglySorted id_lt l.
Proof.
  intros HS HN. apply Sorted_StronglySorted; [exact id_lt_trans|].
  induction HS as [|a l HS IH HH]; constructor; inversion HN as [|? ? Hn HN']; subst; auto.
  destruct HH as [|b l Hab]; constructor. unfold id_lt. destruct (str_ltb (fst a) (fst b)) eqn:E; auto.
  destruct Hn. left. symmetry. apply str_ltb_total; assumption.
Qed.

(* sort_by_id of a set with unique ids IS that enumeration *)
Lemma sort_by_id_ssorted s : uniq s -> StronglySorted id_lt (sort_by_id s).
Proof.
  intros HU. apply sorted_uniq_ssorted; [apply sort_by_id_sorted|].
  apply (perm_uniq s); auto using Permutation_sym, sort_by_id_perm.
Qed.

Theorem sort_bindings s : uniq s -> bindings_of (abs s) (sort_by_id s).
Proof.
  intros HU. split; [apply sort_by_id_ssorted, HU|].
  intros k h. unfold abs. rewrite ps_get_in by auto.
  split; apply Permutation_in; auto using Permutation_sym, sort_by_id_perm.
Qed.

(* any enumeration (in any order) of a map *)
Definition enum_of (f : fmap) (l : list (str * handle)) : Prop :=
  NoDup (map fst l) /\ forall k h, In (k, h) l <-> f k = Some h.

Lemma enum_of_ext f g l : feq f g -> enum_of f l -> enum_of g l.
Proof. intros H [HN HI]. split; auto. intros k h. rewrite HI, H. tauto. Qed.

Lemma bindings_enum f l : bindings_of f l -> enum_of f l.
Proof. intros [HS HI]. split; auto. apply ssorted_keys_nodup; auto. Qed.

Lemma uniq_enum s : uniq s -> enum_of (abs s) s.
Proof. intros HU. split; [exact HU|]. intros k h. unfold abs. rewrite ps_get_in by auto. tauto. Qed.

Lemma enum_perm f l1 l2 : enum_of f l1 -> enum_of f l2 -> Permutation l1 l2.
Proof.
  intros [HN1 HI1] [HN2 HI2]. apply NoDup_Permutation; try (eapply NoDup_map_inv; eassumption).
  intros [k h]. rewrite HI1, HI2. tauto.
Qed.

Lemma digits_nat_spec : forall fuel n acc, (n < fuel)%nat ->
  exists ds, digits_nat fuel n acc = ds ++ acc /\ ds <> [] /\ Forall (fun c => 48 <= c <= 57) ds /\
             (ds = [48] \/ hd 0 ds <> 48) /\
             Z.of_nat n = fold_left (fun a c => a * 10 + (c - 48)) ds 0.
Proof.
  induction fuel as [|f IH]; intros n acc Hn; [lia|].
  cbn [digits_nat].
  pose proof (Nat.div_mod n 10 ltac:(lia)) as Hdm.
  pose proof (Nat.mod_upper_bound n 10 ltac:(lia)) as Hm.
  destruct (Nat.ltb n 10) eqn:E.
  - apply Nat.ltb_lt in E. rewrite Nat.mod_small by auto. exists [48 + Z.of_nat n].
    split; [reflexivity|]. split; [discriminate|]. split; [repeat constructor; lia|].
    split; [|cbn [fold_left]; lia]. destruct n; [left; reflexivity | right; cbn [hd]; lia].
  - apply Nat.ltb_ge in E. set (d := 48 + Z.of_nat (n mod 10)).
    destruct (IH (n / 10)%nat (d :: acc)) as (ds & H1 & H2 & H3 & H4 & H5); [lia|].
    exists (ds ++ [d]). rewrite H1, <- app_assoc.
    split; [reflexivity|]. split; [destruct ds; discriminate|].
    split; [apply Forall_app; split; auto; repeat constructor; lia|]. split.
    + (* n / 10 is not 0, so its numeral is not "0" *)
      right. destruct H4 as [->|H4]; [cbn [fold_left] in H5; lia|]. destruct ds; [congruence | exact H4].
    + rewrite fold_left_app. cbn [fold_left]. rewrite <- H5. lia.
Qed.

Theorem policy_id_digits : forall i, exists ds,
  policy_id i = s_of "policy"%string ++ ds /\ ds <> [] /\ Forall (fun c => 48 <= c <= 57) ds /\
  (ds = [48] \/ hd 0 ds <> 48) /\
  Z.of_nat i = fold_left (fun acc c => acc * 10 + (c - 48)) ds 0.
Proof.
  intros i. destruct (digits_nat_spec (S i) i [] ltac:(lia)) as (ds & H1 & H2).
  rewrite app_nil_r in H1. exists ds. unfold policy_id. rewrite H1. split; [reflexivity | exact H2].
Qed.

Theorem policy_id_inj : forall i j, policy_id i = policy_id j -> i = j.
Proof.
  intros i j H.
  destruct (policy_id_digits i) as (di & Hi & _ & _ & _ & Vi).
  destruct (policy_id_digits j) as (dj & Hj & _ & _ & _ & Vj).
  rewrite Hi, Hj in H. apply app_inv_head in H. subst dj. lia.
Qed.

Lemma number_from_uniq k hs : uniq (number_from k hs).
Proof.
  unfold uniq. rewrite number_from_fst. apply Injective_map_NoDup; [|apply seq_NoDup].
  intros a b. apply policy_id_inj.
Qed.

(* the map "policy<i> |-> i-th element of hs", as a predicate on maps (it does not mention number_from) *)
Definition doc_map (hs : list handle) (f' : fmap) : Prop :=
  forall x h, f' x = Some h <-> exists i, x = policy_id i /\ nth_error hs i = Some h.

Lemma doc_map_ext hs f g : feq f g -> doc_map hs f -> doc_map hs g.
Proof. intros H HD x h. rewrite <- H. apply HD. Qed.

Lemma doc_map_functional hs f g : doc_map hs f -> doc_map hs g -> feq f g.
Proof. intros Hf Hg x. apply option_ext. intros h. rewrite (Hf x h). symmetry. apply Hg. Qed.

Lemma number_from_get hs : forall k x h,
  ps_get (number_from k hs) x = Some h <-> exists i, x = policy_id (k + i) /\ nth_error hs i = Some h.
Proof.
  induction hs as [|h0 hs IH]; intros k x h; cbn [number_from ps_get].
  - split; [discriminate | intros ([|i] & _ & H); discriminate].
  - destruct (str_eqb (policy_id k) x) eqn:E.
    + apply str_eqb_eq in E. subst x. split.
      * intros [= ->]. exists 0%nat. rewrite Nat.add_0_r. auto.
      * intros (i & Hi & H). apply policy_id_inj in Hi. replace i with 0%nat in H by lia. exact H.
    + apply str_eqb_neq in E. rewrite IH. split.
      * intros (i & -> & H). exists (S i). rewrite Nat.add_succ_r. auto.
      * intros ([|i] & -> & H); [rewrite Nat.add_0_r in E; congruence|].
        exists i. rewrite Nat.add_succ_r. auto.
Qed.

(* characterisation of the loader's result *)
Theorem number_from_doc_map hs : doc_map hs (abs (number_from 0 hs)).
Proof. intros x h. apply (number_from_get hs 0). Qed.

(* document order: the i-th policy of the document gets the id policy<i>; no other ids *)
Theorem loader_ids : forall hs,
  uniq (number_from 0 hs) /\
  (forall i, ps_get (number_from 0 hs) (policy_id i) = nth_error hs i) /\
  (forall k h, ps_get (number_from 0 hs) k = Some h -> exists i, k = policy_id i /\ nth_error hs i = Some h).
Proof.
  intros hs. split; [apply number_from_uniq|]. split.
  - intros i. apply option_ext. intros h. rewrite (number_from_get hs 0). split; [|exists i; auto].
    intros (j & E & H). apply policy_id_inj in E. subst i. exact H.
  - intros k h. apply (number_from_get hs 0).
Qed.

Definition load_map (bs : list (str * handle)) : fmap :=
  fold_left (fun g kv => f_set g (fst kv) (snd kv)) bs f_empty.

(* spec_next f o f' : f' is the map after operation o on the map f *)
Definition spec_next (f : fmap) (o : op) (f' : fmap) : Prop :=
  match o with
  | OAdd k h => feq f' (f_set f k h)
  | ORemove k => feq f' (f_del f k)
  | OFromDoc hs => doc_map hs f'
  | OLoadJson bs => feq f' (load_map bs)
  | OCedarRoundTrip => exists l, bindings_of f l /\ doc_map (map snd l) f'
  | OGet _ | OAll | OMapMutate _ _ | OMarshalCedar | OJsonRoundTrip | OAuthorize => feq f' f
  end.

Lemma spec_next_ext f g f' g' o : feq f g -> feq f' g' -> spec_next f o f' -> spec_next g o g'.
Proof.
  intros H H'. destruct o; cbn [spec_next]; intros HS.
  (* f' is given as a map built from f (or from nothing) *)
  1-7, 10-11: apply (feq_trans _ _ _ (feq_sym _ _ H')), (feq_trans _ _ _ HS); auto using f_set_ext, f_del_ext, feq_refl.
  - destruct HS as (l & Hl & Hd). exists l. split; [eapply bindings_of_ext | eapply doc_map_ext]; eauto.
  - eapply doc_map_ext; eauto.
Qed.

(* the next map is determined (pointwise) *)
Lemma spec_next_functional f o f1 f2 : spec_next f o f1 -> spec_next f o f2 -> feq f1 f2.
Proof.
  destruct o; cbn [spec_next]; intros H1 H2;
    try (eapply feq_trans; [exact H1 | apply feq_sym, H2]).
  - destruct H1 as (l1 & Hl1 & Hd1). destruct H2 as (l2 & Hl2 & Hd2).
    rewrite (bindings_unique _ _ _ Hl1 Hl2) in Hd1. eapply doc_map_functional; eauto.
  - eapply doc_map_functional; eauto.
Qed.

(* .. and exists whenever the map has an enumeration: given the enumeration the next map is computable *)
Definition spec_next_fn (l : list (str * handle)) (f : fmap) (o : op) : fmap :=
  match o with
  | OAdd k h => f_set f k h
  | ORemove k => f_del f k
  | OFromDoc hs => abs (number_from 0 hs)
  | OLoadJson bs => load_map bs
  | OCedarRoundTrip => abs (number_from 0 (map snd l))
  | _ => f
  end.

Lemma spec_next_total f l o : bindings_of f l -> spec_next f o (spec_next_fn l f o).
Proof.
  intros Hl. destruct o; cbn [spec_next spec_next_fn]; try apply feq_refl.
  - exists l. split; auto. apply number_from_doc_map.
  - apply number_from_doc_map.
Qed.

Section Spec.
  Variable eff : handle -> effect.
  Variable ev : handle -> outcome.

  (* decisions are compared with the id lists read as sets (see the comment at [out]) *)
  Definition decision_sim (r1 r2 : out) : Prop :=
    match r1, r2 with
    | RDecision d1 a1 e1, RDecision d2 a2 e2 => d1 = d2 /\ Permutation a1 a2 /\ Permutation e1 e2
    | _, _ => False
    end.

  (* spec_out f o r : r is the answer the map model predicts for operation o on the map f *)
  Definition spec_out (f : fmap) (o : op) (r : out) : Prop :=
    match o with
    | OAdd k h => r = RBool (match f k with None => true | Some _ => false end)
    | ORemove k => r = RBool (match f k with None => false | Some _ => true end)
    | OGet k => r = RGet (f k)
    | OAll | OMapMutate _ _ | OJsonRoundTrip => exists l, bindings_of f l /\ r = RBindings l
    | OMarshalCedar => exists l, bindings_of f l /\ r = RList (map snd l)
    | OCedarRoundTrip | OFromDoc _ | OLoadJson _ =>
        exists f' l, spec_next f o f' /\ bindings_of f' l /\ r = RBindings l
    | OAuthorize =>
        (exists l, enum_of f l) /\ forall l, enum_of f l -> decision_sim r (authz eff ev l)
    end.

  Lemma spec_out_ext f g o r : feq f g -> spec_out f o r -> spec_out g o r.
  Proof.
    intros H. destruct o; cbn [spec_out].
    (* by the shape of the answer: a lookup; the enumeration; the enumeration of the next map; a decision *)
    1-3: rewrite (H k); auto.
    1-4: intros (l & Hl & Hr); exists l; split; [eapply bindings_of_ext|]; eauto.
    1-3: intros (f' & l & Hn & Hr); exists f', l; split; [|exact Hr];
         eapply spec_next_ext; [exact H | apply feq_refl | exact Hn].
    intros [(l & Hl) HA]. split.
    - exists l. eapply enum_of_ext; eauto.
    - intros l' Hl'. apply HA. eapply enum_of_ext; [apply feq_sym, H | exact Hl'].
  Qed.

  Lemma decision_sim_trans_r r a b : decision_sim r a -> decision_sim r b -> decision_sim a b.
  Proof.
    unfold decision_sim. destruct r; try tauto. destruct a; try tauto. destruct b; try tauto.
    intros (-> & P1 & P2) (-> & P3 & P4).
    split; auto. split; (eapply perm_trans; [apply Permutation_sym|]; eauto).
  Qed.

  (* the prediction is unique: equal outputs, decisions up to the order of the id lists *)
  Theorem spec_out_functional f o r1 r2 : spec_out f o r1 -> spec_out f o r2 ->
    r1 = r2 \/ (o = OAuthorize /\ exists r, decision_sim r1 r /\ decision_sim r2 r).
  Proof.
    destruct o; cbn [spec_out].   (* the same four groups as in spec_out_ext *)
    1-3: intros -> ->; auto.
    1-4: intros (l1 & H1 & ->) (l2 & H2 & ->); rewrite (bindings_unique _ _ _ H1 H2); auto.
    1-3: intros (f1 & l1 & N1 & H1 & ->) (f2 & l2 & N2 & H2 & ->); left; f_equal;
         exact (bindings_unique_ext f1 f2 l1 l2 (spec_next_functional _ _ _ _ N1 N2) H1 H2).
    intros [(l & Hl) HA1] [_ HA2]. right. split; auto. exists (authz eff ev l). split; auto.
  Qed.

  (* the decision itself is a function of the contents only *)
  Theorem authorize_spec_decision f r : spec_out f OAuthorize r ->
    exists d ids errs, r = RDecision d ids errs /\
      (d = Allow <->
         (exists k h, f k = Some h /\ eff h = Permit /\ ev h = OTrue) /\
         ~ (exists k h, f k = Some h /\ eff h = Forbid /\ ev h = OTrue)).
  Proof.
    cbn [spec_out]. intros [(l & Hl) HA]. specialize (HA l Hl).
    destruct r as [| | | |d ids es]; cbn in HA; try tauto.
    exists d, ids, es. split; auto. unfold authz in HA. cbn in HA. destruct HA as (Hd & _ & _).
    destruct Hl as [_ HI].
    assert (HE : forall e, (exists p, In p l /\ eff (snd p) = e /\ ev (snd p) = OTrue) <->
                           (exists k h, f k = Some h /\ eff h = e /\ ev h = OTrue)).
    { intros e. split.
      - intros ([k h] & Hin & He). exists k, h. rewrite <- HI. auto.
      - intros (k & h & Hk & He). exists (k, h). rewrite HI. auto. }
    rewrite Hd, decision_spec, !HE. reflexivity.
  Qed.

  Lemma load_refines bs : forall s f, uniq s -> feq (abs s) f ->
    uniq (fold_left (fun acc kv => ps_set acc (fst kv) (snd kv)) bs s) /\
    feq (abs (fold_left (fun acc kv => ps_set acc (fst kv) (snd kv)) bs s))
        (fold_left (fun g kv => f_set g (fst kv) (snd kv)) bs f).
  Proof.
    induction bs as [|[k h] bs IH]; intros s f HU HF; cbn [fold_left fst snd]; [split; auto|].
    apply IH; [apply ps_set_uniq; auto|].
    intros x. rewrite add_refines. apply f_set_ext. exact HF.
  Qed.

  (* an operation that replaces the contents answers with the enumeration of the new map
     (the conclusion repeats the two premises: it is the goal of step_refines as it stands for such an operation) *)
  Lemma replace_refines f o s' : uniq s' -> spec_next f o (abs s') ->
    uniq s' /\ spec_next f o (abs s') /\
    exists f' l, spec_next f o f' /\ bindings_of f' l /\ RBindings (sort_by_id s') = RBindings l.
  Proof. intros HU HN. split; auto. split; auto. exists (abs s'), (sort_by_id s'). auto using sort_bindings. Qed.

  Theorem step_refines s o : uniq s ->
    let '(s', r) := step eff ev s o in
    uniq s' /\ spec_next (abs s) o (abs s') /\ spec_out (abs s) o r.
  Proof.
    intros HU. pose proof (sort_bindings s HU) as HB.
    (* the [try] goes through for the operations that leave the set as it is *)
    destruct o; cbn [step]; try (split; [exact HU | split; [apply feq_refl | cbn [spec_out]]]).
    4-7: exists (sort_by_id s); auto.   (* OAll, OMapMutate, OMarshalCedar, OJsonRoundTrip *)
    - (* OAdd *) split; [apply ps_set_uniq, HU|]. split; [intros x; apply add_refines | reflexivity].
    - (* ORemove *) split; [apply ps_del_uniq, HU|]. split; [intros x; apply remove_refines | reflexivity].
    - (* OGet *) reflexivity.
    - (* OCedarRoundTrip *)
      apply replace_refines; [apply number_from_uniq|]. exists (sort_by_id s). split; [exact HB | apply number_from_doc_map].
    - (* OFromDoc *) apply replace_refines; [apply number_from_uniq | apply number_from_doc_map].
    - (* OLoadJson *)
      destruct (load_refines bs [] f_empty) as [HU' HF']; [constructor | apply feq_refl |].
      apply replace_refines; assumption.
    - (* OAuthorize *)
      pose proof (uniq_enum s HU) as HE. split; [eauto|].
      intros l Hl. exact (authorize_contents_only eff ev s l (enum_perm _ _ _ HE Hl)).
  Qed.

  (* the same with the computable next map: the enumeration handed to spec_next_fn is the sorted current set *)
  Corollary step_refines_fn s o : uniq s ->
    forall x, abs (fst (step eff ev s o)) x = spec_next_fn (sort_by_id s) (abs s) o x.
  Proof.
    intros HU. pose proof (step_refines s o HU) as HS. destruct (step eff ev s o) as [s' r]. cbn [fst].
    destruct HS as (_ & HN & _).
    exact (spec_next_functional _ _ _ _ HN (spec_next_total (abs s) (sort_by_id s) o (sort_bindings s HU))).
  Qed.

  Fixpoint history_ok (f : fmap) (ops : list op) (rs : list out) : Prop :=
    match ops, rs with
    | [], [] => True
    | o :: ops', r :: rs' => spec_out f o r /\ exists f', spec_next f o f' /\ history_ok f' ops' rs'
    | _, _ => False
    end.

  Lemma history_ok_ext ops : forall f g rs, feq f g -> history_ok f ops rs -> history_ok g ops rs.
  Proof.
    induction ops as [|o ops IH]; intros f g rs H; destruct rs as [|r rs]; cbn [history_ok]; auto.
    intros [HO (f' & HN & HH)]. split; [eapply spec_out_ext; eauto|].
    exists f'. split; auto. eapply spec_next_ext; eauto. apply feq_refl.
  Qed.

  (* the existential in history_ok is harmless: EVERY next map works *)
  Lemma history_ok_all_next f o ops r rs :
    history_ok f (o :: ops) (r :: rs) -> forall f', spec_next f o f' -> history_ok f' ops rs.
  Proof.
    cbn [history_ok]. intros [_ (f1 & HN & HH)] f' HN'.
    apply (history_ok_ext ops f1 f' rs); [exact (spec_next_functional _ _ _ _ HN HN') | exact HH].
  Qed.

  Lemma history_ok_length ops : forall f rs, history_ok f ops rs -> List.length rs = List.length ops.
  Proof.
    induction ops as [|o ops IH]; intros f rs; destruct rs as [|r rs]; cbn [history_ok]; try tauto.
    intros [_ (f' & _ & HH)]. cbn. f_equal. eapply IH; eauto.
  Qed.

  Theorem run_refines : forall ops s, uniq s -> history_ok (abs s) ops (run eff ev s ops).
  Proof.
    induction ops as [|o ops IH]; intros s HU; cbn [run history_ok]; auto.
    pose proof (step_refines s o HU) as HS. destruct (step eff ev s o) as [s' r].
    destruct HS as (HU' & HN & HO). cbn [history_ok]. split; auto.
    exists (abs s'). split; auto.
  Qed.

  (* the state reached after a history, and the abstract map reached *)
  Definition run_state (s : pset) (ops : list op) : pset := fold_left (fun s o => fst (step eff ev s o)) ops s.

  Fixpoint spec_run (f : fmap) (ops : list op) (f' : fmap) : Prop :=
    match ops with
    | [] => feq f' f
    | o :: ops' => exists g, spec_next f o g /\ spec_run g ops' f'
    end.

  Theorem run_state_refines : forall ops s, uniq s ->
    uniq (run_state s ops) /\ spec_run (abs s) ops (abs (run_state s ops)).
  Proof.
    induction ops as [|o ops IH]; intros s HU; cbn [run_state fold_left spec_run].
    - split; auto. apply feq_refl.
    - pose proof (step_refines s o HU) as HS. destruct (step eff ev s o) as [s' r]. cbn [fst].
      destruct HS as (HU' & HN & _). destruct (IH s' HU') as [HU'' HR]. split; auto.
      exists (abs s'). split; auto.
  Qed.

  Lemma spec_run_functional ops : forall f g f' g', feq f g -> spec_run f ops f' -> spec_run g ops g' -> feq f' g'.
  Proof.
    induction ops as [|o ops IH]; intros f g f' g' H; cbn [spec_run].
    - intros H1 H2. eapply feq_trans; [exact H1|]. eapply feq_trans; [exact H | apply feq_sym, H2].
    - intros (f1 & N1 & R1) (g1 & N2 & R2). eapply (IH f1 g1); eauto.
      eapply spec_next_functional; [exact N1|]. eapply spec_next_ext; [apply feq_sym, H | apply feq_refl | exact N2].
  Qed.

  (* from the empty set every history is predicted by the map model, and every reachable state is a map *)
  Corollary history_from_empty ops :
    history_ok f_empty ops (run eff ev [] ops) /\
    uniq (run_state [] ops) /\ spec_run f_empty ops (abs (run_state [] ops)).
  Proof.
    assert (HU : uniq []) by constructor.
    split; [apply (run_refines ops [] HU)|]. apply (run_state_refines ops [] HU).
  Qed.

  (* lookups after a history: determined by the abstract run, whatever representation was reached *)
  Corollary lookup_after_history ops s1 s2 : uniq s1 -> uniq s2 -> feq (abs s1) (abs s2) ->
    forall k, ps_get (run_state s1 ops) k = ps_get (run_state s2 ops) k.
  Proof.
    intros H1 H2 HE k. destruct (run_state_refines ops s1 H1) as [_ R1]. destruct (run_state_refines ops s2 H2) as [_ R2].
    apply (spec_run_functional ops _ _ _ _ HE R1 R2).
  Qed.

  (* the Cedar round trip renumbers the id-sorted policies policy0, policy1, .. *)
  Theorem cedar_roundtrip_renumbers s : uniq s ->
    let l := sort_by_id s in
    let '(s', r) := step eff ev s OCedarRoundTrip in
    bindings_of (abs s) l /\
    uniq s' /\
    (forall i, ps_get s' (policy_id i) = nth_error (map snd l) i) /\
    (forall k h, ps_get s' k = Some h -> exists i, k = policy_id i /\ nth_error (map snd l) i = Some h) /\
    List.length s' = List.length s /\
    r = RBindings (sort_by_id s').
  Proof.
    intros HU. cbn [step]. destruct (loader_ids (map snd (sort_by_id s))) as (H1 & H2 & H3).
    split; [apply sort_bindings; auto|]. split; auto. split; auto. split; auto. split; auto.
    rewrite <- (map_length fst (number_from _ _)), number_from_fst, map_length, seq_length, map_length.
    apply Permutation_length, sort_by_id_perm.
  Qed.
End Spec.

Example policy_id_0 : policy_id 0 = [112; 111; 108; 105; 99; 121; 48].
Proof. vm_compute. reflexivity. Qed.
Example policy_id_10 : policy_id 10 = [112; 111; 108; 105; 99; 121; 49; 48].
Proof. vm_compute. reflexivity. Qed.
Example policy_id_123 : policy_id 123 = [112; 111; 108; 105; 99; 121; 49; 50; 51].
Proof. vm_compute. reflexivity. Qed.
Example policy_id_names : policy_id 0 = s_of "policy0"%string /\ policy_id 10 = s_of "policy10"%string /\
                          policy_id 123 = s_of "policy123"%string.
Proof. vm_compute. auto. Qed.

Definition ex_eff (h : handle) : effect := if h =? 9 then Forbid else Permit.
Definition ex_ev (h : handle) : outcome := if h =? 8 then OFalse else OTrue.

(* add, add, replace, marshal ("policy10" < "policy2" bytewise), remove, fromdoc, authorize, loadjson (replaces), all *)
Example history_example :
  run ex_eff ex_ev []
    [ OAdd (s_of "policy2"%string) 1;
      OAdd (s_of "policy10"%string) 2;
      OAdd (s_of "policy2"%string) 3;
      OMarshalCedar;
      ORemove (s_of "policy2"%string);
      OAll;
      OFromDoc [7; 8; 9];
      OAuthorize;
      OLoadJson [(s_of "b"%string, 5); (s_of "a"%string, 6); (s_of "b"%string, 4)];
      OGet (s_of "policy0"%string);
      OMarshalCedar ]
  = [ RBool true;
      RBool true;
      RBool false;
      RList [2; 3];
      RBool true;
      RBindings [(s_of "policy10"%string, 2)];
      RBindings [(s_of "policy0"%string, 7); (s_of "policy1"%string, 8); (s_of "policy2"%string, 9)];
      RDecision Deny [s_of "policy2"%string] [];
      RBindings [(s_of "a"%string, 6); (s_of "b"%string, 4)];
      RGet None;
      RList [6; 4] ].
Proof. vm_compute. reflexivity. Qed.

(* the Cedar round trip renumbers in id order: policy10 (handle 2) sorts before policy2 (handle 3) *)
Example roundtrip_example :
  run ex_eff ex_ev [] [ OAdd (s_of "policy2"%string) 3; OAdd (s_of "policy10"%string) 2; OCedarRoundTrip; OGet (s_of "policy0"%string) ]
  = [ RBool true; RBool true; RBindings [(s_of "policy0"%string, 2); (s_of "policy1"%string, 3)]; RGet (Some 2) ].
Proof. vm_compute. reflexivity. Qed.

Print Assumptions bindings_unique.
Print Assumptions spec_next_functional.
Print Assumptions spec_next_total.
Print Assumptions spec_out_ext.
Print Assumptions spec_out_functional.
Print Assumptions authorize_spec_decision.
Print Assumptions step_refines.
Print Assumptions step_refines_fn.
Print Assumptions run_refines.
Print Assumptions run_state_refines.
Print Assumptions history_from_empty.
Print Assumptions lookup_after_history.
Print Assumptions policy_id_digits.
Print Assumptions policy_id_inj.
Print Assumptions loader_ids.
Print Assumptions number_from_doc_map.
Print Assumptions cedar_roundtrip_renumbers.
