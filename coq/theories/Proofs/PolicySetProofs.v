(* The policy set as a finite map (Impl/PolicySet.v): a set with unique ids is determined by what its lookups return (abs);
   add / remove / replace refine the map operations, sorting by id keeps the contents, and an authorization decision
   depends on the contents only. *)
From Coq Require Import ZArith List Bool Permutation Sorted Lia.
Import ListNotations.
From Cedar Require Import Lang.Value Impl.Authorize Impl.PolicySet Proofs.AuthorizeProofs.
Local Open Scope Z_scope.

Definition uniq (s : pset) : Prop := NoDup (map fst s).

Lemma option_ext A (a b : option A) : (forall x, a = Some x <-> b = Some x) -> a = b.
Proof.
  intros H. destruct a as [x|]; [symmetry; apply H; reflexivity|].
  destruct b as [y|]; [apply H|]; reflexivity.
Qed.

Lemma ps_del_get s k x : ps_get (ps_del s k) x = if str_eqb k x then None else ps_get s x.
Proof.
  induction s as [|[k' h] s IH]; cbn; [destruct (str_eqb k x); auto|].
  destruct (str_eqb k' k) eqn:E1; cbn; rewrite IH.
  - apply str_eqb_eq in E1. subst k'. destruct (str_eqb k x); auto.
  - destruct (str_eqb k' x) eqn:E2; auto. apply str_eqb_eq in E2. subst k'.
    destruct (str_eqb k x) eqn:E3; auto. apply str_eqb_eq in E3. apply str_eqb_neq in E1. congruence.
Qed.

Lemma ps_del_keys s k : map fst (ps_del s k) = filter (fun x => negb (str_eqb x k)) (map fst s).
Proof. induction s as [|[k' h] s IH]; cbn; auto. destruct (str_eqb k' k); cbn; congruence. Qed.

Lemma ps_del_uniq s k : uniq s -> uniq (ps_del s k).
Proof. unfold uniq. rewrite ps_del_keys. apply NoDup_filter. Qed.

Lemma ps_set_uniq s k h : uniq s -> uniq (ps_set s k h).
Proof.
  intros H. constructor; [|apply ps_del_uniq, H].
  rewrite ps_del_keys, filter_In, str_eqb_refl. intros [_ E]. discriminate.
Qed.

Theorem add_refines s k h : forall x, abs (ps_set s k h) x = f_set (abs s) k h x.
Proof. intros x. unfold abs, ps_set, f_set. cbn. destruct (str_eqb k x) eqn:E; auto. rewrite ps_del_get, E. auto. Qed.

Theorem remove_refines s k : forall x, abs (ps_del s k) x = f_del (abs s) k x.
Proof. intros x. unfold abs, f_del. apply ps_del_get. Qed.

Lemma ins_sorted_perm kv l : Permutation (ins_sorted kv l) (kv :: l).
Proof.
  induction l as [|x l IH]; cbn; auto. destruct (str_ltb (fst x) (fst kv)); auto.
  eapply perm_trans; [apply perm_skip, IH | apply perm_swap].
Qed.

Lemma sort_by_id_perm s : Permutation (sort_by_id s) s.
Proof.
  induction s as [|x s IH]; cbn; auto. eapply perm_trans; [apply ins_sorted_perm | apply perm_skip, IH].
Qed.

Definition id_le (a b : str * handle) : Prop := str_ltb (fst b) (fst a) = false.

Lemma ins_sorted_hd kv l x : HdRel id_le x l -> id_le x kv -> HdRel id_le x (ins_sorted kv l).
Proof.
  destruct l as [|y l]; cbn; intros H1 H2; [constructor; auto|].
  destruct (str_ltb (fst y) (fst kv)); constructor; auto. inversion H1; auto.
Qed.

Lemma ins_sorted_sorted kv l : Sorted id_le l -> Sorted id_le (ins_sorted kv l).
Proof.
  induction l as [|x l IH]; cbn; intros H; [constructor; auto|].
  inversion H; subst.
  destruct (str_ltb (fst x) (fst kv)) eqn:E.
  - constructor; auto. apply ins_sorted_hd; auto. unfold id_le. apply str_ltb_asym; auto.
  - constructor; auto.
Qed.

Theorem sort_by_id_sorted s : Sorted id_le (sort_by_id s).
Proof. induction s as [|x s IH]; cbn; [constructor | apply ins_sorted_sorted; auto]. Qed.

Lemma perm_uniq (a b : pset) : Permutation a b -> uniq a -> uniq b.
Proof. unfold uniq. intros HP H. eapply Permutation_NoDup; [apply Permutation_map, HP | auto]. Qed.

Lemma ps_get_in s k h : uniq s -> (ps_get s k = Some h <-> In (k, h) s).
Proof.
  unfold uniq. induction s as [|[k' h'] s IH]; cbn; intros HU; [split; [discriminate | tauto]|].
  inversion HU as [|? ? Hn HU']; subst. destruct (str_eqb k' k) eqn:E.
  - apply str_eqb_eq in E. subst k'. split; [intros [= ->]; auto|].
    intros [[= ->]|H]; auto. destruct Hn. exact (in_map fst _ _ H).
  - rewrite IH by auto. apply str_eqb_neq in E. split; auto. intros [[= ? ?]|H]; auto. contradiction.
Qed.

(* a permutation does not change the map that is represented *)
Lemma perm_abs (a b : pset) : Permutation a b -> uniq a -> forall x, abs a x = abs b x.
Proof.
  intros HP HU x. apply option_ext. intros h. unfold abs.
  rewrite !ps_get_in by eauto using perm_uniq. split; apply Permutation_in; auto using Permutation_sym.
Qed.

Theorem sort_preserves_abs s : uniq s -> forall x, abs (sort_by_id s) x = abs s x.
Proof. intros HU x. symmetry. apply perm_abs; auto using Permutation_sym, sort_by_id_perm. Qed.

Lemma number_from_fst i hs : map fst (number_from i hs) = map policy_id (seq i (List.length hs)).
Proof. revert i; induction hs as [|h hs IH]; intros i; cbn; auto. rewrite IH; auto. Qed.

Section Contents.
  Variable eff : handle -> effect.
  Variable ev : handle -> outcome.

  (* authorization depends only on the contents: any two representations of the same bindings agree *)
  Theorem authorize_contents_only s1 s2 : Permutation s1 s2 ->
    match authz eff ev s1, authz eff ev s2 with
    | RDecision d1 r1 e1, RDecision d2 r2 e2 => d1 = d2 /\ Permutation r1 r2 /\ Permutation e1 e2
    | _, _ => False
    end.
  Proof.
    intros HP. unfold authz.
    destruct (authorize_order_irrelevant _ (fun p : str * handle => eff (snd p)) (fun p => ev (snd p)) s1 s2 HP) as (Hd & Hr & He).
    split; auto. split; apply Permutation_map; auto.
  Qed.
End Contents.
