(* Policy-level soundness of Validator.Policy (Impl/ValidatePolicy.v) in strict mode, on top of typeof_sound_strict
   (Proofs/TypeSoundProofs.v): a policy the validator accepts cannot fail with a type error (or any error other than a missing entity,
   an overflow, an extension error) in a request / store that conforms to the schema, and evaluates to a Boolean otherwise.

   MAIN THEOREM: validate_policy_sound, and the authorizer's view validate_policy_bool_eval (bool_eval never sees a type error).
   Hypotheses: schema_wf, agraph_wf, actions_conform, store_types_known, keys_small (TypeSoundLemmas.v / TypeSoundProofs.v), and
   acts_wf, request_env, policy_keys_small below.

   STRUCTURE.  policy_to_expr p = s1 && (s2 && (... && (c1 && ...))) with the scope tests first.  Every scope test evaluates to a
   Boolean on an entity-valued variable, true only if the entity is what the scope asks for (Proofs/ScopeProofs.v: scope_expr_eval,
   scope_holds_spec).  The validator's constraint for a scope contains the type (the action) of every entity that passes its test
   (entity_scope_covers by reach_types and is_descendant_ty_complete, action_scope_covers by reach_action and areach_complete).  So the scope tests guard
   (`guard`) env_matches: if the request's environment passes filterEnvsForPolicy, every condition was type checked in it
   (validate_policy_inv) and typeof_sound_strict applies; if it does not, one scope test evaluates to FALSE and the conditions are
   never evaluated (guard_chain, and_all_good).
   Permissive mode: not sound (F29, TypeSoundProofs.permissive_unsound); additionally validate_policy false skips the conditions
   when the action application check fails - no theorem. *)
From Coq Require Import ZArith List Bool String Lia Relations Arith.
Import ListNotations.
From Cedar Require Import Base.Int64 Lang.Value Impl.Like Lang.Expr Impl.InSearch Impl.Eval Impl.Partial Impl.TypeCheck Impl.ValidatePolicy Lang.TypeSound
  Proofs.ValueProofs Proofs.InSearchProofs Proofs.ScopeProofs Proofs.TypeSoundLemmas Proofs.TypeSoundProofs.
Local Open Scope Z_scope.

(* the model's three views of resolved.Schema.Actions (acts, ts_actions, the keys of ts_agraph - the latter by agraph_wf) list the same
   actions; every context record type has pairwise distinct keys at every depth (a Go map / resolved record type) *)
Definition acts_wf (sch : tschema) (acts : list (uid * applies)) : Prop :=
  (forall u, In u (map fst acts) <-> In u (ts_actions sch)) /\
  (forall u ps rs ctx, In (u, Some (ps, rs, ctx)) acts -> WT (CRec ctx)).

(* what Validator.Request checks of a request besides the values (env_ok): the action is declared, the principal / resource types are
   in its appliesTo lists, the context has the declared type, and both types are known (isKnownEntityType: a declared or enumerated
   entity type).  request_env implies In tv (gen_envs acts) (request_env_gen). *)
Definition request_env (sch : tschema) (acts : list (uid * applies)) (tv : tenv) : Prop :=
  (exists ps rs ctx, applies_of acts (tv_action tv) = Some (Some (ps, rs, ctx)) /\
                     In (tv_principal tv) ps /\ In (tv_resource tv) rs /\ tv_context tv = ctx) /\
  known_ty sch (tv_principal tv) = true /\ known_ty sch (tv_resource tv) = true.

(* keys_small of every condition body (attribute names below 10^39 bytes, see TypeSoundProofs.v) *)
Definition policy_keys_small (p : policy) : bool := forallb (fun c : bool * expr => keys_small (snd c)) (p_conds p).

Local Definition good (r : res) : Prop :=
  match r with Ok v => exists b, v = VBool b | Err k => allowed_error k = true end.

Lemma ent_of_eta u : VEntity (fst u) (snd u) = ent_of u.
Proof. reflexivity. Qed.

Section Chain.
  Variable en : env.
  Local Notation goods := (Forall (fun x => good (eval en x))).

  (* what e1 && (e2 && ...) needs: each conjunct is good, as far as evaluation gets *)
  Local Fixpoint chain (l : list expr) : Prop :=
    match l with
    | [] => True
    | x :: r => good (eval en x) /\ (eval en x = Ok (VBool true) -> chain r)
    end.

  Lemma and_all_good : forall es e, chain (e :: es) -> good (eval en (and_all e es)).
  Proof.
    induction es as [|e' es IH]; intros e [Hg Hc]; cbn [and_all]; [exact Hg|].
    cbn [eval]. destruct (eval en e) as [v|k]; cbn [good bindr] in *; [|exact Hg].
    destruct Hg as [[|] ->]; cbn [as_bool negb good]; [|eauto].
    specialize (IH e' (Hc eq_refl)). destruct (eval en (and_all e' es)) as [w|k]; cbn [good bindr] in *; [|exact IH].
    destruct IH as [b ->]. cbn [as_bool good]. eauto.
  Qed.

  (* tests that are all good and of which, unless b, one is false *)
  Local Definition guard (b : bool) (l : list expr) : Prop :=
    goods l /\ (b = false -> exists x, In x l /\ eval en x = Ok (VBool false)).

  Lemma guard_app b1 b2 l1 l2 : guard b1 l1 -> guard b2 l2 -> guard (b1 && b2) (l1 ++ l2).
  Proof.
    intros [G1 F1] [G2 F2]. split; [apply Forall_app; auto|]. intros E. apply andb_false_iff in E.
    destruct E as [E|E]; [destruct (F1 E) as (x & Hx & Ex) | destruct (F2 E) as (x & Hx & Ex)];
      exists x; (split; [apply in_or_app; auto | exact Ex]).
  Qed.

  (* what follows a guard is evaluated only if b *)
  Lemma guard_chain b l1 l2 : guard b l1 -> (b = true -> goods l2) -> chain (l1 ++ l2).
  Proof.
    intros [H1 Hf] H2.
    assert (H : goods l2 \/ exists x, In x l1 /\ eval en x = Ok (VBool false)) by (destruct b; auto). clear Hf H2.
    induction H1 as [|x r Hx Hr IH]; cbn [app].
    - destruct H as [H|(x & [] & _)]. induction H; cbn [chain]; auto.
    - cbn [chain]. split; [exact Hx|]. intros Et. apply IH.
      destruct H as [H|(y & [<-|Hy] & Ey)]; [left; exact H | congruence | right; eauto].
  Qed.
End Chain.

Section Scopes.
  Variable sch : tschema.
  Variable acts : list (uid * applies).
  Variable en : env.
  Hypothesis Hst : store_ok sch (e_store en).
  Hypothesis Hin : in_hyps sch (e_store en).
  Local Notation st := (e_store en).

  (* the nodes a scope contributes to the policy's conjunction guard every c that is true of `all` and of what passes the test
     (ScopeProofs: the test evaluates to Partial.scope_holds, which is reachability) *)
  Lemma scope_guard x s u c : var_value en x = ent_of u -> (is_all s = true -> c = true) -> (scope_holds st u s = true -> c = true) ->
    guard en c (if is_all s then [] else [scope_expr x s]).
  Proof.
    destruct u as [ty i]. intros Hx Hall Hc. pose proof (scope_expr_eval en x ty i s Hx) as E. destruct (is_all s).
    - split; [constructor | rewrite (Hall eq_refl); discriminate].
    - split; [constructor; [rewrite E; cbn; eauto | constructor]|].
      intros Hf. exists (scope_expr x s). split; [left; reflexivity|]. rewrite E.
      destruct (scope_holds st (ty, i) s); [|reflexivity]. rewrite (Hc eq_refl) in Hf. discriminate.
  Qed.

  (* principal / resource: an entity of a known type below w has one of the types getEntityTypesIn computes *)
  Lemma types_in_reach ty i w : known_ty sch ty = true -> reach_st st (ty, i) w -> In ty (types_in sch (fst w)).
  Proof.
    intros Hk Hr. unfold types_in. destruct (reach_types sch st (ty, i) w Hst Hin Hr) as [<-|[H|H]]; cbn [fst] in *.
    - left; reflexivity.
    - right. apply filter_In. split; [|apply is_descendant_ty_complete, H].
      destruct (tedge_first _ _ _ H) as (z & Hz). eapply tparents_declared; eauto.
    - exfalso. destruct Hin as (Hw & _). destruct (aclosure_first _ _ _ H) as (z & Hz).
      pose proof (akey_action sch (ty, i) Hw (aedge_key _ _ _ Hz)) as Ha. cbn [fst] in Ha.
      destruct Hw as (_ & _ & Hb & _). destruct (Hb _ Ha) as [He Hs']. unfold known_ty in Hk. rewrite He, Hs' in Hk. discriminate.
  Qed.

  Lemma entity_scope_covers s ty i l : known_ty sch ty = true -> entity_scope sch s = (Some l, true) -> scope_holds st (ty, i) s = true ->
    In ty l.
  Proof.
    intros Hk Hs Hh. apply scope_holds_spec in Hh. destruct s as [|w|w|ws|t|t w]; cbn [entity_scope fst] in *; try discriminate Hs.
    - destruct (scope_entity sch w); inversion Hs. subst w. left; reflexivity.
    - destruct (scope_entity sch w); inversion Hs. eapply types_in_reach; eauto.
    - destruct (scope_type sch t); inversion Hs. left. symmetry. exact Hh.
    - destruct (negb (scope_type sch t)); [discriminate Hs|]. destruct (negb (scope_entity sch w)); [discriminate Hs|].
      destruct Hh as [<- Hr]. destruct (smem ty (types_in sch (fst w))) eqn:Et; inversion Hs; [left; reflexivity|].
      apply (types_in_reach ty i w Hk), smem_In in Hr. congruence.
  Qed.

  Lemma entity_guard x s ty i ot : var_value en x = VEntity ty i -> known_ty sch ty = true -> entity_scope sch s = (ot, true) ->
    guard en (match ot with None => true | Some l => smem ty l end) (if is_all s then [] else [scope_expr x s]).
  Proof.
    intros Hx Hk Hs. apply (scope_guard x s (ty, i)); [exact Hx | |].
    - destruct s; try discriminate. inversion Hs. reflexivity.
    - destruct ot as [l|]; [|reflexivity]. intros Hh. apply smem_In. eapply entity_scope_covers; eauto.
  Qed.

  (* action: a declared action below one of ws is in what getActionsInSet computes *)
  Hypothesis Hacts : forall u, In u (map fst acts) <-> In u (ts_actions sch).

  Lemma actions_in_set_reach act w ws : In act (ts_actions sch) -> In w ws -> reach_st st act w -> In act (actions_in_set sch acts ws).
  Proof.
    intros Ha Hw Hr. unfold actions_in_set. apply in_flat_map. exists w. split; [exact Hw|].
    destruct (reach_action sch st act w Hst Hin Ha Hr) as [<-|[Hcl _]]; [left; reflexivity|].
    destruct (uid_dec w act) as [->|Hne]; [left; reflexivity|]. right. apply filter_In. split; [apply Hacts, Ha|].
    rewrite (areach_complete sch act w Hcl).
    destruct (uid_eqb act w) eqn:E; [apply uid_eqb_eq in E; congruence | reflexivity].
  Qed.

  Lemma action_scope_covers s act l : In act (ts_actions sch) -> action_scope sch acts s = (Some l, true) -> scope_holds st act s = true ->
    In act l.
  Proof.
    intros Ha Hs Hh. apply scope_holds_spec in Hh. destruct s as [|w|w|ws|t|t w]; cbn [action_scope] in *; try discriminate Hs; injection Hs as <- _.
    - left. symmetry. exact Hh.
    - apply (actions_in_set_reach act w [w]); [exact Ha | left; reflexivity | exact Hh].
    - destruct Hh as (w & Hw & Hr). apply (actions_in_set_reach act w ws); assumption.
  Qed.

  Lemma action_guard s act au : var_value en VAction = ent_of act -> In act (ts_actions sch) -> action_scope sch acts s = (au, true) ->
    guard en (match au with None | Some [] => true | Some l => umem act l end) (if is_all s then [] else [scope_expr VAction s]).
  Proof.
    intros Hx Ha Hs. apply (scope_guard VAction s act); [exact Hx | |].
    - destruct s; try discriminate. inversion Hs. reflexivity.
    - destruct au as [[|a l]|]; try reflexivity. intros Hh. apply umem_In. eapply action_scope_covers; eauto.
  Qed.
End Scopes.

Lemma applies_of_In acts u ap : applies_of acts u = Some ap -> In (u, ap) acts.
Proof.
  unfold applies_of. induction acts as [|[a ap'] r IH]; [discriminate|].
  destruct (uid_eqb a u) eqn:E.
  - apply uid_eqb_eq in E. subst a. intros H. inversion H; subst. left; reflexivity.
  - intros H. right. apply IH, H.
Qed.

Lemma request_env_gen sch acts tv : request_env sch acts tv -> In tv (gen_envs acts).
Proof.
  intros ((ps & rs & ctx & Ha & Hp & Hr & Hc) & _). apply applies_of_In in Ha.
  unfold gen_envs. apply in_flat_map. exists (tv_action tv, Some (ps, rs, ctx)). split; [exact Ha|]. cbn [snd fst].
  apply in_flat_map. exists (tv_principal tv). split; [exact Hp|]. apply in_map_iff. exists (tv_resource tv). split; [|exact Hr].
  destruct tv; cbn in *; subst; reflexivity.
Qed.

(* what an accepting verdict says: the three scopes are valid, and every condition has a Boolean type in every generated environment
   that the scope constraints leave *)
Lemma validate_policy_inv sch acts p : validate_policy true sch acts p = true ->
  exists pt au rt, entity_scope sch (p_principal p) = (pt, true) /\ action_scope sch acts (p_action p) = (au, true) /\
    entity_scope sch (p_resource p) = (rt, true) /\
    forall tv c, In tv (gen_envs acts) -> env_matches pt rt au tv = true -> In c (p_conds p) ->
      exists t caps, typeof true sch tv (snd c) [] = TOk t caps /\ is_bool_ty t = true.
Proof.
  unfold validate_policy. intros Hv.
  destruct (entity_scope sch (p_principal p)) as [pt pok], (action_scope sch acts (p_action p)) as [au aok],
    (entity_scope sch (p_resource p)) as [rt rok].
  destruct pok; [|discriminate Hv]. destruct aok; [|discriminate Hv]. destruct rok; [|discriminate Hv]. cbn [andb orb] in Hv. apply andb_true_iff in Hv. destruct Hv as [_ Hcok].
  exists pt, au, rt. do 3 (split; [reflexivity|]). intros tv c Hg Hm Hc.
  assert (Hin : In tv (filter (env_matches pt rt au) (gen_envs acts))) by (apply filter_In; auto).
  destruct (filter (env_matches pt rt au) (gen_envs acts)) as [|e0 envs]; [destruct Hin|].
  destruct (p_conds p) as [|c0 cs]; [destruct Hc|].
  unfold conds_ok in Hcok. rewrite forallb_forall in Hcok. specialize (Hcok _ Hc). rewrite forallb_forall in Hcok. specialize (Hcok _ Hin).
  destruct (typeof true sch tv (snd c) []) as [t caps| |]; try discriminate Hcok. eauto.
Qed.

Lemma good_not en e : good (eval en e) -> good (eval en (ENot e)).
Proof. cbn [eval]. destruct (eval en e) as [v|k]; cbn [good bindr]; [|auto]. intros [b ->]. cbn. eauto. Qed.

Theorem validate_policy_sound : forall sch acts p,
  schema_wf sch -> agraph_wf sch -> acts_wf sch acts -> policy_keys_small p = true ->
  validate_policy true sch acts p = true ->
  forall en tv, request_env sch acts tv -> env_ok sch tv en -> actions_conform sch (e_store en) -> store_types_known sch (e_store en) ->
    match eval en (policy_to_expr p) with
    | Ok v => exists b, v = VBool b
    | Err k => allowed_error k = true
    end.
Proof.
  intros sch acts p Hwf Hg (Hacts & Hctx) Hks Hv en tv Hreq Hen Hac Hkn.
  change (good (eval en (policy_to_expr p))).
  pose proof (request_env_gen sch acts tv Hreq) as Hgen.
  destruct Hreq as ((ps & rs & ctx & Hap & _ & _ & Hcx) & Hkp & Hkr). apply applies_of_In in Hap.
  pose proof Hen as (Hst & Hprin & Hact & Hres & _).
  assert (Hih : in_hyps sch (e_store en)) by (split; [exact Hg | split; assumption]).
  assert (Hadecl : In (tv_action tv) (ts_actions sch)) by (apply Hacts, in_map_iff; exists (tv_action tv, Some (ps, rs, ctx)); auto).
  destruct (vtyped_ent_inv _ _ Hprin) as (tp & ip & Ep & [<-|[]]). destruct (vtyped_ent_inv _ _ Hres) as (tr & ir & Er & [<-|[]]).
  destruct (validate_policy_inv sch acts p Hv) as (pt & au & rt & Esp & Esa & Esr & Hcok).
  unfold policy_to_expr, policy_nodes.
  set (conds := map (fun c : bool * expr => if fst c then snd c else ENot (snd c)) (p_conds p)).
  (* the scope tests guard the conditions: a request environment that filterEnvsForPolicy drops fails one of them *)
  match goal with |- context [?l ++ conds] => assert (G : guard en (env_matches pt rt au tv) l) end.
  { destruct (is_all (p_principal p) && is_all (p_action p) && is_all (p_resource p)) eqn:Eall.
    - destruct (p_principal p); try discriminate Eall. destruct (p_action p); try discriminate Eall.
      destruct (p_resource p); try discriminate Eall.
      inversion Esp; inversion Esa; inversion Esr. split; [repeat constructor; cbn; eauto | discriminate].
    - unfold env_matches. rewrite <- andb_assoc, (andb_comm (match rt with Some l => _ | None => _ end)).
      apply guard_app; [|apply guard_app].
      + eapply (entity_guard sch en Hst Hih); eauto.
      + eapply (action_guard sch acts en Hst Hih Hacts); eauto.
      + eapply (entity_guard sch en Hst Hih); eauto. }
  (* the conditions were type checked in every environment that is kept *)
  assert (Hconds : env_matches pt rt au tv = true -> Forall (fun x => good (eval en x)) conds).
  { intros Hm. apply Forall_map, Forall_forall. intros [k body] Hc. destruct (Hcok tv _ Hgen Hm Hc) as (t & caps & Ety & Hb). cbn [fst snd] in *.
    unfold policy_keys_small in Hks. rewrite forallb_forall in Hks. specialize (Hks _ Hc).
    assert (Htv : tenv_wf sch tv) by (unfold tenv_wf; rewrite Hcx; eapply Hctx; eauto).
    pose proof (typeof_sound_strict sch tv body Hwf Htv Hg (proj2 (umem_In _ _) Hadecl) Hks [] t caps Ety en Hen Hac Hkn (Forall_nil _)) as Hs.
    assert (Hbody : good (eval en body)).
    { destruct (eval en body); [destruct Hs as [Hvt _]; eapply vtyped_bool_inv; eauto | exact Hs]. }
    destruct k; [|apply good_not]; exact Hbody. }
  pose proof (guard_chain en _ _ conds G Hconds) as C.
  destruct (_ ++ conds); [cbn; eauto | apply and_all_good, C].
Qed.

(* the authorizer's view: BoolEvaler never reports a type error on a validated policy *)
Corollary validate_policy_bool_eval : forall sch acts p,
  schema_wf sch -> agraph_wf sch -> acts_wf sch acts -> policy_keys_small p = true ->
  validate_policy true sch acts p = true ->
  forall en tv, request_env sch acts tv -> env_ok sch tv en -> actions_conform sch (e_store en) -> store_types_known sch (e_store en) ->
    match bool_eval en (policy_to_expr p) with
    | Ok v => exists b, v = VBool b
    | Err k => allowed_error k = true
    end.
Proof.
  intros sch acts p H1 H2 H3 H4 H5 en tv H6 H7 H8 H9.
  pose proof (validate_policy_sound sch acts p H1 H2 H3 H4 H5 en tv H6 H7 H8 H9) as H.
  unfold bool_eval. destruct (eval en (policy_to_expr p)) as [v|k]; cbn [bindr]; [|exact H].
  destruct H as [b ->]. cbn. eauto.
Qed.

Print Assumptions validate_policy_sound.
Print Assumptions validate_policy_bool_eval.
