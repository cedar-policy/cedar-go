(* String and pattern literals read back: unquote (escape s) = s.
   Models: Base/Utf8.v, Base/Utf8Enc.v, Impl/Quote.v, Impl/Like.v, Lang/RoundTrip.v (str_ok, pat_ok).
   The Unicode tables is_printable / is_gext are Section variables: every theorem holds for all of them.

   NOTE on hypotheses.  Bytes are modelled as unbounded Z.  decode_rune accepts a NEGATIVE "byte" b as the rune b
   (b <? 128), which is not a valid rune, so `valid_utf8 [-5] = true` but `encode_runes (runes [-5]) = [239;191;189]`.
   The statements about `runes s` therefore carry the extra hypothesis `nonneg s` (every byte is >= 0; bytes >= 245
   are already rejected by valid_utf8).  See the counterexamples at the end of the file. *)
From Coq Require Import ZArith List Bool Lia Arith.
Import ListNotations.
From Cedar Require Import Base.Utf8 Base.Utf8Enc Lang.Value Impl.Like Impl.Quote Lang.RoundTrip.
Local Open Scope Z_scope.

(* decide one boolean integer test occurring in the goal, pruning impossible branches *)
Ltac dtest :=
  match goal with
  | |- context [?a <? ?b] => destruct (Z.ltb_spec a b); try lia
  | |- context [?a <=? ?b] => destruct (Z.leb_spec a b); try lia
  | |- context [?a =? ?b] => destruct (Z.eqb_spec a b); try lia
  end.

(* turn boolean facts in the context into Props *)
Ltac zb :=
  repeat match goal with
  | H : (_ && _) = true |- _ => apply andb_true_iff in H; destruct H
  | H : (_ <? _) = true |- _ => apply Z.ltb_lt in H
  | H : (_ <? _) = false |- _ => apply Z.ltb_ge in H
  | H : (_ <=? _) = true |- _ => apply Z.leb_le in H
  | H : (_ <=? _) = false |- _ => apply Z.leb_gt in H
  | H : (_ =? _) = true |- _ => apply Z.eqb_eq in H
  | H : (_ =? _) = false |- _ => apply Z.eqb_neq in H
  end.

Definition nonneg (s : list Z) : Prop := Forall (fun b => 0 <= b) s.

(* UTF-8: the encoder and the decoder are inverse to each other *)
Lemma valid_rune_range : forall r, valid_rune r = true -> (0 <= r < 55296) \/ (57344 <= r <= 1114111).
Proof.
  intros r H. unfold valid_rune in H. apply orb_true_iff in H. destruct H as [H|H]; zb; lia.
Qed.

Lemma valid_rune_intro : forall r, (0 <= r < 55296) \/ (57344 <= r <= 1114111) -> valid_rune r = true.
Proof.
  intros r H. unfold valid_rune. apply orb_true_iff.
  destruct H as [H|H]; [left|right]; apply andb_true_iff; split;
    first [apply Z.leb_le | apply Z.ltb_lt]; lia.
Qed.

Lemma decode1 : forall b0 rest, b0 < 128 -> decode_rune (b0 :: rest) = (b0, 1%nat).
Proof. intros b0 rest H. unfold decode_rune. dtest. reflexivity. Qed.

(* [utf8 r bs]: bs is the UTF-8 encoding of the rune r, one case per number of bytes.  The conditions on the second byte
   keep out overlong forms, the surrogates and what lies above U+10FFFF. *)
Inductive utf8 (r : Z) : list Z -> Prop :=
| utf8_1 : 0 <= r < 128 -> utf8 r [r]
| utf8_2 b0 b1 : 194 <= b0 < 224 -> 128 <= b1 <= 191 -> r = (b0 - 192) * 64 + (b1 - 128) -> utf8 r [b0; b1]
| utf8_3 b0 b1 b2 : 224 <= b0 < 240 -> 128 <= b1 <= 191 -> 128 <= b2 <= 191 ->
    (b0 = 224 -> 160 <= b1) -> (b0 = 237 -> b1 <= 159) ->
    r = (b0 - 224) * 4096 + (b1 - 128) * 64 + (b2 - 128) -> utf8 r [b0; b1; b2]
| utf8_4 b0 b1 b2 b3 : 240 <= b0 < 245 -> 128 <= b1 <= 191 -> 128 <= b2 <= 191 -> 128 <= b3 <= 191 ->
    (b0 = 240 -> 144 <= b1) -> (b0 = 244 -> b1 <= 143) ->
    r = (b0 - 240) * 262144 + (b1 - 128) * 4096 + (b2 - 128) * 64 + (b3 - 128) -> utf8 r [b0; b1; b2; b3].

Lemma utf8_valid : forall r bs, utf8 r bs -> valid_rune r = true.
Proof. intros r bs H. apply valid_rune_intro. destruct H; lia. Qed.

Lemma utf8_fun : forall r bs bs', utf8 r bs -> utf8 r bs' -> bs = bs'.
Proof. intros r bs bs' H H'. destruct H; destruct H'; subst; try lia; repeat f_equal; lia. Qed.

Lemma utf8_decode : forall r bs rest, utf8 r bs -> decode_rune (bs ++ rest) = (r, length bs).
Proof.
  intros r bs rest H. destruct H; subst; cbn [app length]; unfold decode_rune, is_cont; cbv zeta.
  (* the tests on the first byte *)
  all: repeat match goal with |- context [?b <? ?k] => destruct (Z.ltb_spec b k); try lia end.
  1: reflexivity.
  (* the condition on the other bytes holds *)
  all: match goal with |- (if ?c then _ else _) = _ => assert (E : c = true); [|rewrite E; reflexivity] end.
  all: repeat (apply andb_true_intro; split); apply Z.leb_le.
  all: repeat match goal with |- context [?b =? ?k] => destruct (Z.eqb_spec b k) end; lia.
Qed.

(* the encoder produces it: the digits of r in base 64 are the payloads of the bytes *)
Lemma encode_rune_utf8 : forall r, valid_rune r = true -> utf8 r (encode_rune r).
Proof.
  intros r Hv. pose proof (valid_rune_range r Hv) as Hr. unfold encode_rune. rewrite Hv. cbv zeta iota.
  pose proof (Z.div_mod r 64 ltac:(lia)) as D1. pose proof (Z.mod_pos_bound r 64 ltac:(lia)) as M1.
  pose proof (Z.div_mod (r / 64) 64 ltac:(lia)) as D2. pose proof (Z.mod_pos_bound (r / 64) 64 ltac:(lia)) as M2.
  pose proof (Z.div_mod (r / 64 / 64) 64 ltac:(lia)) as D3. pose proof (Z.mod_pos_bound (r / 64 / 64) 64 ltac:(lia)) as M3.
  replace (r / 4096) with (r / 64 / 64) by (rewrite Z.div_div by lia; reflexivity).
  replace (r / 262144) with (r / 64 / 64 / 64) by (rewrite !Z.div_div by lia; reflexivity).
  destruct (Z.ltb_spec r 128); [apply utf8_1; lia|].
  destruct (Z.ltb_spec r 2048); [apply utf8_2; lia|].
  destruct (Z.ltb_spec r 65536); [apply utf8_3; lia|].
  apply utf8_4; lia.
Qed.

Lemma utf8_encode : forall r bs, utf8 r bs -> valid_rune r = true /\ encode_rune r = bs.
Proof.
  intros r bs H. pose proof (utf8_valid r bs H) as Hv. split; [exact Hv|].
  exact (utf8_fun r _ _ (encode_rune_utf8 r Hv) H).
Qed.

(* the decoder accepts nothing else, but for one oddity of the model: a negative "byte" is decoded as itself *)
Lemma decode_rune_cases : forall b0 s ch w, decode_rune (b0 :: s) = (ch, w) ->
  (rune_error, 1%nat) = (ch, w) \/ (b0 < 0 /\ (b0, 1%nat) = (ch, w)) \/
  exists bs rest, b0 :: s = bs ++ rest /\ utf8 ch bs /\ w = length bs.
Proof.
  intros b0 s ch w. unfold decode_rune, is_cont.
  destruct (Z.ltb_spec b0 128) as [H1|H1].
  { intros E. destruct (Z.ltb_spec b0 0); [right; left; split; assumption|].
    inversion E; subst. right; right. exists [ch], s. repeat split. apply utf8_1. lia. }
  destruct (Z.ltb_spec b0 194) as [H2|H2]; [auto|].
  destruct (Z.ltb_spec b0 224) as [H3|H3].
  { destruct s as [|b1 s]; [auto|].
    destruct ((128 <=? b1) && (b1 <=? 191)) eqn:E1; [|auto]. zb.
    intros E; inversion E; subst. right; right. exists [b0; b1], s. repeat split. apply utf8_2; lia. }
  destruct (Z.ltb_spec b0 240) as [H4|H4].
  { destruct s as [|b1 [|b2 s]]; [auto..|]. cbv zeta.
    match goal with |- (if ?c then _ else _) = _ -> _ => destruct c eqn:E1; [|auto] end.
    intros E; inversion E; subst. right; right. exists [b0; b1; b2], s. repeat split. zb.
    assert (128 <= b1 <= 191 /\ (b0 = 224 -> 160 <= b1) /\ (b0 = 237 -> b1 <= 159))
      by (destruct (Z.eqb_spec b0 224); destruct (Z.eqb_spec b0 237); lia).
    apply utf8_3; lia. }
  destruct (Z.ltb_spec b0 245) as [H5|H5]; [|auto].
  destruct s as [|b1 [|b2 [|b3 s]]]; [auto..|]. cbv zeta.
  match goal with |- (if ?c then _ else _) = _ -> _ => destruct c eqn:E1; [|auto] end.
  intros E; inversion E; subst. right; right. exists [b0; b1; b2; b3], s. repeat split. zb.
  assert (128 <= b1 <= 191 /\ (b0 = 240 -> 144 <= b1) /\ (b0 = 244 -> b1 <= 143))
    by (destruct (Z.eqb_spec b0 240); destruct (Z.eqb_spec b0 244); lia).
  apply utf8_4; lia.
Qed.

Lemma encode_rune_1 : forall r, 0 <= r < 128 -> encode_rune r = [r].
Proof. intros r H. apply utf8_encode, utf8_1, H. Qed.

Lemma decode_encode_rune : forall r rest, valid_rune r = true ->
  decode_rune (encode_rune r ++ rest) = (r, length (encode_rune r)).
Proof. intros r rest Hv. apply utf8_decode, encode_rune_utf8, Hv. Qed.

Lemma encode_rune_length : forall r, valid_rune r = true ->
  (1 <= length (encode_rune r))%nat /\ ((length (encode_rune r) <= 1)%nat -> r < 128).
Proof. intros r Hv. destruct (encode_rune_utf8 r Hv); cbn [length]; lia. Qed.

(* the bytes of an encoding: a single ASCII byte, or bytes >= 128 *)
Lemma encode_rune_bytes : forall r, valid_rune r = true ->
  (r < 128 /\ encode_rune r = [r]) \/ (128 <= r /\ Forall (fun b => 128 <= b) (encode_rune r)).
Proof.
  intros r Hv. destruct (encode_rune_utf8 r Hv); [left; split; [lia | reflexivity] | right; split; [lia | repeat constructor; lia] ..].
Qed.

Lemma skipn_app_length : forall (A : Type) (l r : list A), skipn (length l) (l ++ r) = r.
Proof. intros A l r. induction l as [|x l IH]; [reflexivity|]. cbn. exact IH. Qed.

Lemma next_rune_encode : forall r rest, valid_rune r = true -> next_rune (encode_rune r ++ rest) = Some (r, rest).
Proof.
  intros r rest Hv. unfold next_rune. rewrite decode_encode_rune by exact Hv.
  rewrite skipn_app_length.
  destruct (encode_rune_length r Hv) as [_ Hl].
  destruct ((r =? rune_error) && Nat.leb (length (encode_rune r)) 1) eqn:E; [|reflexivity].
  apply andb_true_iff in E. destruct E as [E1 E2]. apply Z.eqb_eq in E1. apply Nat.leb_le in E2.
  specialize (Hl E2). unfold rune_error in E1. lia.
Qed.

(* a successfully decoded rune is valid and the bytes consumed are its encoding *)
Lemma decode_rune_inv : forall s ch w, nonneg s -> decode_rune s = (ch, w) ->
  (ch =? rune_error) && Nat.leb w 1 = false ->
  valid_rune ch = true /\ exists rest, s = encode_rune ch ++ rest /\ w = length (encode_rune ch).
Proof.
  intros s ch w Hnn Hd Hc.
  destruct s as [|b0 s]; [cbn in Hd; inversion Hd; subst; cbn in Hc; discriminate|].
  destruct (decode_rune_cases _ _ _ _ Hd) as [E|[[Hneg _]|(bs & rest & Hs & Hu & Hw)]].
  - inversion E; subst. cbn in Hc. discriminate.
  - inversion Hnn; lia.
  - destruct (utf8_encode _ _ Hu) as [Hv He]. split; [exact Hv|]. exists rest. rewrite He. split; assumption.
Qed.

Lemma nonneg_app_r : forall a b, nonneg (a ++ b) -> nonneg b.
Proof. intros a b H. unfold nonneg in *. apply Forall_app in H. tauto. Qed.

Lemma runes_of_spec : forall fuel s, (length s <= fuel)%nat -> nonneg s -> valid_utf8_fuel fuel s = true ->
  encode_runes (runes_of fuel s) = s /\ Forall (fun r => valid_rune r = true) (runes_of fuel s).
Proof.
  induction fuel as [|f IH]; intros s Hl Hnn Hv.
  { destruct s as [|x s]; [|cbn in Hl; lia]. cbn. split; [reflexivity|constructor]. }
  destruct s as [|x s]; [cbn; split; [reflexivity|constructor]|].
  cbn [valid_utf8_fuel runes_of] in *.
  destruct (decode_rune (x :: s)) as [ch w] eqn:Hd.
  destruct ((ch =? rune_error) && Nat.leb w 1) eqn:Hc; [discriminate|].
  destruct (decode_rune_inv _ _ _ Hnn Hd Hc) as (Hvr & rest & Hs & Hw).
  destruct (encode_rune_length ch Hvr) as [Hlen _].
  rewrite Nat.max_l by lia.
  rewrite Hs in Hv |- *. rewrite Hw in Hv |- *. rewrite skipn_app_length in Hv |- *.
  assert (Hl' : (length rest <= f)%nat).
  { apply (f_equal (@length Z)) in Hs. rewrite app_length in Hs. cbn [length] in Hl, Hs. lia. }
  assert (Hnn' : nonneg rest) by (rewrite Hs in Hnn; exact (nonneg_app_r _ _ Hnn)).
  destruct (IH rest Hl' Hnn' Hv) as [IH1 IH2].
  split.
  - cbn [encode_runes flat_map]. fold (encode_runes (runes_of f rest)). rewrite IH1. reflexivity.
  - constructor; assumption.
Qed.

Lemma runes_encode : forall s, nonneg s -> valid_utf8 s = true -> encode_runes (runes s) = s.
Proof. intros s Hnn Hv. apply (runes_of_spec (length s) s (le_n _) Hnn Hv). Qed.

Lemma runes_valid : forall s, nonneg s -> valid_utf8 s = true -> Forall (fun r => valid_rune r = true) (runes s).
Proof. intros s Hnn Hv. apply (runes_of_spec (length s) s (le_n _) Hnn Hv). Qed.

Lemma next_rune_ascii : forall c l, c < 128 -> next_rune (c :: l) = Some (c, l).
Proof.
  intros c l H. unfold next_rune. rewrite decode1 by lia. cbn [skipn].
  destruct (Z.eqb_spec c rune_error) as [E|E]; [unfold rune_error in E; lia|reflexivity].
Qed.

Lemma next_rune_nil : next_rune [] = None.
Proof. reflexivity. Qed.

Definition lowhex (c : Z) : Prop := (48 <= c <= 57) \/ (97 <= c <= 102).

Lemma lowhex_props : forall c, lowhex c ->
  c < 128 /\ (c =? 125) = false /\ is_hexd c = true /\ 0 <= digit_val c < 16 /\ c <> 42.
Proof.
  intros c H. unfold lowhex in H. unfold is_hexd, digit_val, is_dec.
  split; [lia|]. split; [apply Z.eqb_neq; lia|].
  destruct H as [H|H]; repeat dtest; cbn [andb orb]; (split; [reflexivity|]); lia.
Qed.

Definition hexc (d : Z) : Z := if d <? 10 then 48 + d else 87 + d.

Lemma hexc_spec : forall d, 0 <= d < 16 -> lowhex (hexc d) /\ digit_val (hexc d) = d.
Proof.
  intros d H. unfold hexc, lowhex, digit_val, is_dec.
  destruct (Z.ltb_spec d 10); repeat dtest; cbn [andb orb]; lia.
Qed.

Lemma hex_rev_S : forall f z,
  hex_rev (S f) z = if z <? 16 then [hexc (z mod 16)] else hexc (z mod 16) :: hex_rev f (z / 16).
Proof. reflexivity. Qed.

(* value of a little-endian / big-endian digit string *)
Fixpoint valr (l : list Z) : Z := match l with [] => 0 | d :: l' => digit_val d + 16 * valr l' end.
Definition valL (res : Z) (ds : list Z) : Z := fold_left (fun a d => 16 * a + digit_val d) ds res.

Lemma hex_rev_spec : forall n fuel z, (1 <= n <= fuel)%nat -> 0 <= z < 16 ^ Z.of_nat n ->
  (1 <= length (hex_rev fuel z) <= n)%nat /\ Forall lowhex (hex_rev fuel z) /\ valr (hex_rev fuel z) = z.
Proof.
  induction n as [|n IH]; intros fuel z Hn Hz; [lia|].
  destruct fuel as [|f]; [lia|].
  rewrite hex_rev_S.
  pose proof (Z.mod_pos_bound z 16 ltac:(lia)) as Hm.
  pose proof (Z.div_mod z 16 ltac:(lia)) as Hdm.
  destruct (hexc_spec (z mod 16) Hm) as [Hlow Hval].
  destruct (Z.ltb_spec z 16) as [Hs|Hs].
  - cbn [length valr]. split; [lia|]. split; [constructor; [exact Hlow|constructor]|].
    rewrite Hval. rewrite Z.mod_small by lia. lia.
  - rewrite Nat2Z.inj_succ, Z.pow_succ_r in Hz by lia.
    destruct n as [|n'].
    { change (16 ^ Z.of_nat 0) with 1 in Hz. lia. }
    assert (Hq : 0 <= z / 16 < 16 ^ Z.of_nat (S n')).
    { split; [apply Z.div_pos; lia|apply Z.div_lt_upper_bound; lia]. }
    destruct (IH f (z / 16) ltac:(lia) Hq) as (Hl & Hf & Hv).
    cbn [length valr]. split; [lia|]. split; [constructor; assumption|].
    rewrite Hval, Hv. lia.
Qed.

Lemma valL_snoc : forall res a d, valL res (a ++ [d]) = 16 * valL res a + digit_val d.
Proof. intros res a d. unfold valL. rewrite fold_left_app. reflexivity. Qed.

Lemma valL_rev : forall l, valL 0 (rev l) = valr l.
Proof.
  induction l as [|d l IH]; [reflexivity|].
  cbn [rev valr]. rewrite valL_snoc, IH. lia.
Qed.

Lemma hex_lower_spec : forall r, 0 <= r <= 1114111 ->
  (1 <= length (hex_lower r) <= 6)%nat /\ Forall lowhex (hex_lower r) /\ valL 0 (hex_lower r) = r.
Proof.
  intros r Hr. unfold hex_lower.
  assert (Hz : 0 <= r < 16 ^ Z.of_nat 6) by (change (16 ^ Z.of_nat 6) with 16777216; lia).
  destruct (hex_rev_spec 6 16 r ltac:(lia) Hz) as (Hl & Hf & Hv).
  rewrite rev_length, valL_rev. split; [exact Hl|]. split; [|exact Hv].
  apply Forall_rev. exact Hf.
Qed.

Lemma unicode_digits_spec : forall ds fuel rest res n, Forall lowhex ds -> (length ds < fuel)%nat ->
  unicode_digits fuel (ds ++ 125 :: rest) res n = Some (valL res ds, (n + length ds)%nat, rest).
Proof.
  induction ds as [|d ds IH]; intros fuel rest res n Hf Hl.
  - destruct fuel as [|f]; [cbn in Hl; lia|].
    cbn [app unicode_digits length]. rewrite next_rune_ascii by lia.
    change (125 =? 125) with true. cbv iota. rewrite Nat.add_0_r. reflexivity.
  - destruct fuel as [|f]; [cbn in Hl; lia|].
    inversion Hf as [|d' ds' Hd Hds]; subst.
    destruct (lowhex_props d Hd) as (H128 & H125 & Hhex & _).
    cbn [app unicode_digits length]. rewrite next_rune_ascii by lia.
    rewrite H125, Hhex. cbn [negb]. cbv iota.
    rewrite IH by (try assumption; cbn [length] in Hl; lia).
    rewrite Nat.add_succ_r. reflexivity.
Qed.

Lemma parse_unicode_escape_spec : forall r rest, valid_rune r = true ->
  parse_unicode_escape (123 :: hex_lower r ++ 125 :: rest) = Some (r, rest).
Proof.
  intros r rest Hv. pose proof (valid_rune_range r Hv) as Hr.
  destruct (hex_lower_spec r ltac:(lia)) as (Hl & Hf & Hval).
  unfold parse_unicode_escape. rewrite next_rune_ascii by lia.
  change (negb (123 =? 123)) with false. cbv iota.
  rewrite unicode_digits_spec by (try exact Hf; rewrite app_length; lia).
  rewrite Hval, Hv. cbn [Nat.add negb].
  destruct (Nat.eqb_spec (length (hex_lower r)) 0) as [E|E]; [lia|].
  destruct (Nat.ltb_spec 6 (length (hex_lower r))) as [E'|E']; [lia|].
  reflexivity.
Qed.

Lemma unquote_plain : forall f b star acc ch b1, next_rune b = Some (ch, b1) -> ch <> 92 -> (star = false \/ ch <> 42) ->
  unquote_fuel (S f) b star acc = unquote_fuel f b1 star (acc ++ encode_rune ch).
Proof.
  intros f b star acc ch b1 Hn H92 Hs.
  destruct b as [|x b]; [rewrite next_rune_nil in Hn; discriminate|].
  cbn [unquote_fuel]. rewrite Hn.
  assert (E1 : star && (ch =? 42) = false).
  { destruct Hs as [->|Hs]; [reflexivity|]. apply andb_false_iff. right. apply Z.eqb_neq. exact Hs. }
  rewrite E1. apply Z.eqb_neq in H92. rewrite H92. reflexivity.
Qed.

Lemma unquote_bs : forall f e b2 star acc, e < 128 ->
  unquote_fuel (S f) (92 :: e :: b2) star acc =
    let lit (r : Z) := unquote_fuel f b2 star (acc ++ encode_rune r) in
    if e =? 110 then lit 10 else if e =? 114 then lit 13 else if e =? 116 then lit 9
    else if e =? 92 then lit 92 else if e =? 48 then lit 0 else if e =? 39 then lit 39 else if e =? 34 then lit 34
    else if e =? 120 then
      match parse_hex_escape b2 with Some (r, b3) => unquote_fuel f b3 star (acc ++ encode_rune r) | None => None end
    else if e =? 117 then
      match parse_unicode_escape b2 with Some (r, b3) => unquote_fuel f b3 star (acc ++ encode_rune r) | None => None end
    else if e =? 42 then (if star then lit 42 else None)
    else None.
Proof.
  intros f e b2 star acc He. cbn [unquote_fuel].
  rewrite next_rune_ascii by lia. cbv iota beta.
  rewrite next_rune_ascii by lia. cbv iota beta.
  destruct star; reflexivity.
Qed.

Lemma unquote_bs_u : forall f b2 star acc,
  unquote_fuel (S f) (92 :: 117 :: b2) star acc =
    match parse_unicode_escape b2 with Some (r, b3) => unquote_fuel f b3 star (acc ++ encode_rune r) | None => None end.
Proof. intros f b2 star acc. rewrite unquote_bs by lia. reflexivity. Qed.

(* the escaped text u stands for the rune r: unquote consumes exactly u, using one unit of fuel *)
Definition step_ok (star : bool) (u : list Z) (r : Z) : Prop :=
  u <> [] /\ forall f rest acc, unquote_fuel (S f) (u ++ rest) star acc = unquote_fuel f rest star (acc ++ encode_rune r).

Lemma step_named : forall star e r,
  In (e, r) [(110, 10); (114, 13); (116, 9); (92, 92); (48, 0); (39, 39); (34, 34)] -> step_ok star [92; e] r.
Proof.
  intros star e r Hin. split; [discriminate|]. intros f rest acc. cbn [app].
  cbn [In] in Hin.
  repeat (destruct Hin as [Hin|Hin]; [inversion Hin; subst; rewrite unquote_bs by lia; reflexivity|]).
  contradiction.
Qed.

Lemma step_bs_star : step_ok true [92; 42] 42.
Proof. split; [discriminate|]. intros f rest acc. cbn [app]. rewrite unquote_bs by lia. reflexivity. Qed.

Lemma step_u : forall star r, valid_rune r = true -> step_ok star (u_escape r) r.
Proof.
  intros star r Hv. split; [discriminate|]. intros f rest acc.
  unfold u_escape. cbn [app]. rewrite <- app_assoc. cbn [app].
  rewrite unquote_bs_u. rewrite parse_unicode_escape_spec by exact Hv. reflexivity.
Qed.

Lemma step_raw : forall star r, valid_rune r = true -> r <> 92 -> (star = false \/ r <> 42) -> step_ok star (encode_rune r) r.
Proof.
  intros star r Hv H92 Hs. split.
  { destruct (encode_rune_length r Hv) as [Hl _]. intro E. rewrite E in Hl. cbn in Hl. lia. }
  intros f rest acc. apply unquote_plain; [apply next_rune_encode; exact Hv|exact H92|exact Hs].
Qed.

(* iterating: a sequence of units *)
Lemma unquote_flat_map : forall star (esc : Z -> list Z) rs,
  Forall (fun r => step_ok star (esc r) r) rs ->
  forall f rest acc, (length rs <= f)%nat ->
  (forall f' acc', unquote_fuel (S f') rest star acc' = Some (acc', rest)) ->
  unquote_fuel (S f) (flat_map esc rs ++ rest) star acc = Some (acc ++ encode_runes rs, rest).
Proof.
  intros star esc rs Hall. induction Hall as [|r rs Hr Hrs IH]; intros f rest acc Hl Hterm.
  - cbn [flat_map app encode_runes]. rewrite app_nil_r. apply Hterm.
  - cbn [length] in Hl. destruct f as [|f]; [lia|].
    cbn [flat_map]. rewrite <- app_assoc. destruct Hr as [_ Hr]. rewrite Hr.
    rewrite IH by (try exact Hterm; lia).
    unfold encode_runes. cbn [flat_map]. rewrite app_assoc. reflexivity.
Qed.

Lemma flat_map_length_ge : forall star (esc : Z -> list Z) rs,
  Forall (fun r => step_ok star (esc r) r) rs -> (length rs <= length (flat_map esc rs))%nat.
Proof.
  intros star esc rs Hall. induction Hall as [|r rs Hr Hrs IH]; [cbn; lia|].
  cbn [flat_map length]. rewrite app_length. destruct Hr as [Hne _].
  destruct (esc r) as [|x u]; [contradiction|]. cbn [length]. lia.
Qed.

Lemma term_nil : forall star f acc, unquote_fuel (S f) [] star acc = Some (acc, []).
Proof. reflexivity. Qed.

Lemma term_star : forall t f acc, unquote_fuel (S f) (42 :: t) true acc = Some (acc, 42 :: t).
Proof. intros t f acc. cbn [unquote_fuel]. rewrite next_rune_ascii by lia. reflexivity. Qed.

Lemma unquote_units : forall star (esc : Z -> list Z) rs rest,
  Forall (fun r => step_ok star (esc r) r) rs ->
  (forall f' acc', unquote_fuel (S f') rest star acc' = Some (acc', rest)) ->
  unquote (flat_map esc rs ++ rest) star = Some (encode_runes rs, rest).
Proof.
  intros star esc rs rest Hall Hterm. unfold unquote.
  rewrite (unquote_flat_map star esc rs Hall _ rest [] ); [reflexivity| |exact Hterm].
  rewrite app_length. pose proof (flat_map_length_ge star esc rs Hall). lia.
Qed.

Lemma trim_quotes_quoted : forall body, trim_quotes ([34] ++ body ++ [34]) = body.
Proof.
  intros body. unfold trim_quotes. cbn [app]. rewrite rev_unit. rewrite rev_involutive. reflexivity.
Qed.

Section Escape.
  Variable is_printable : Z -> bool.
  Variable is_gext : Z -> bool.

  (* the three shapes of an escaped rune: a named escape, \u{..}, or the rune itself *)
  Lemma escape_rune_cases : forall r b,
    (exists e, In (e, r) [(110, 10); (114, 13); (116, 9); (92, 92); (48, 0); (39, 39); (34, 34)] /\
               escape_rune is_printable is_gext r b = [92; e]) \/
    escape_rune is_printable is_gext r b = u_escape r \/
    (r <> 92 /\ escape_rune is_printable is_gext r b = encode_rune r).
  Proof.
    intros r b. unfold escape_rune.
    destruct (Z.eqb_spec r 0) as [->|N0]; [left; eexists; split; [|reflexivity]; cbn [In]; repeat first [left; reflexivity | right]|].
    destruct (Z.eqb_spec r 9) as [->|N9]; [left; eexists; split; [|reflexivity]; cbn [In]; repeat first [left; reflexivity | right]|].
    destruct (Z.eqb_spec r 13) as [->|N13]; [left; eexists; split; [|reflexivity]; cbn [In]; repeat first [left; reflexivity | right]|].
    destruct (Z.eqb_spec r 10) as [->|N10]; [left; eexists; split; [|reflexivity]; cbn [In]; repeat first [left; reflexivity | right]|].
    destruct (Z.eqb_spec r 92) as [->|N92]; [left; eexists; split; [|reflexivity]; cbn [In]; repeat first [left; reflexivity | right]|].
    destruct (Z.eqb_spec r 34) as [->|N34]; [left; eexists; split; [|reflexivity]; cbn [In]; repeat first [left; reflexivity | right]|].
    destruct (Z.eqb_spec r 39) as [->|N39]; [left; eexists; split; [|reflexivity]; cbn [In]; repeat first [left; reflexivity | right]|].
    destruct (b && is_gext r); [right; left; reflexivity|].
    destruct (is_printable r); [right; right; split; [exact N92 | reflexivity] | right; left; reflexivity].
  Qed.

  Lemma step_escape_rune : forall r b, valid_rune r = true -> step_ok false (escape_rune is_printable is_gext r b) r.
  Proof.
    intros r b Hv. destruct (escape_rune_cases r b) as [(e & Hin & ->)|[->|[N92 ->]]].
    - apply step_named. exact Hin.
    - apply step_u. exact Hv.
    - apply step_raw; [exact Hv | exact N92 | left; reflexivity].
  Qed.

  Theorem unquote_escape_runes : forall rs, Forall (fun r => valid_rune r = true) rs ->
    unquote (escape_runes is_printable is_gext rs) false = Some (encode_runes rs, []).
  Proof.
    intros rs Hall. destruct rs as [|r rs]; [reflexivity|].
    inversion Hall as [|r' rs' Hr Hrs]; subst.
    cbn [escape_runes].
    set (esc := fun x => escape_rune is_printable is_gext x false).
    assert (Hsteps : Forall (fun x => step_ok false (esc x) x) rs).
    { apply Forall_forall. intros x Hx. apply step_escape_rune. rewrite Forall_forall in Hrs. apply Hrs. exact Hx. }
    destruct (step_escape_rune r true Hr) as [Hne Hstep].
    unfold unquote. rewrite app_length.
    pose proof (flat_map_length_ge false esc rs Hsteps) as Hlen.
    destruct (length (escape_rune is_printable is_gext r true)) as [|k] eqn:Ek.
    { apply length_zero_iff_nil in Ek. contradiction. }
    cbn [Nat.add]. rewrite Hstep.
    remember (k + length (flat_map esc rs))%nat as n eqn:En.
    rewrite <- (app_nil_r (flat_map esc rs)).
    rewrite (unquote_flat_map false esc rs Hsteps); [reflexivity|lia|apply term_nil].
  Qed.

  Theorem string_value_quote : forall s, nonneg s -> valid_utf8 s = true ->
    string_value (quote_string is_printable is_gext s) = Some s.
  Proof.
    intros s Hnn Hv. unfold string_value, quote_string. rewrite trim_quotes_quoted.
    unfold escape_string. rewrite unquote_escape_runes by (apply runes_valid; assumption).
    rewrite runes_encode by assumption. reflexivity.
  Qed.
End Escape.

Theorem string_value_plain : forall s, Forall (fun c => 32 <= c < 127 /\ c <> 34 /\ c <> 92) s ->
  string_value ([34] ++ s ++ [34]) = Some s.
Proof.
  intros s Hs. unfold string_value. rewrite trim_quotes_quoted.
  assert (Hsteps : Forall (fun c => step_ok false ((fun x => [x]) c) c) s).
  { apply Forall_forall. intros c Hc. rewrite Forall_forall in Hs. specialize (Hs c Hc).
    rewrite <- (encode_rune_1 c) by lia.
    apply step_raw; [apply valid_rune_intro; lia|lia|left; reflexivity]. }
  assert (E1 : flat_map (fun x => [x]) s = s).
  { clear. induction s as [|x s IH]; [reflexivity|]. cbn [flat_map app]. rewrite IH. reflexivity. }
  assert (E2 : encode_runes s = s).
  { clear Hsteps E1. induction Hs as [|x s Hx Hs IH]; [reflexivity|].
    unfold encode_runes in *. cbn [flat_map]. rewrite IH. rewrite encode_rune_1 by lia. reflexivity. }
  pose proof (unquote_units false (fun x => [x]) s [] Hsteps (term_nil false)) as H.
  rewrite app_nil_r, E1, E2 in H. rewrite H. reflexivity.
Qed.

Lemma escape_stars_app : forall a b, escape_stars (a ++ b) = escape_stars a ++ escape_stars b.
Proof. intros a b. unfold escape_stars. apply flat_map_app. Qed.

Lemma escape_stars_id : forall l, Forall (fun c => c <> 42) l -> escape_stars l = l.
Proof.
  intros l H. induction H as [|c l Hc Hl IH]; [reflexivity|].
  unfold escape_stars in *. cbn [flat_map]. rewrite IH.
  destruct (Z.eqb_spec c 42) as [E|E]; [contradiction|reflexivity].
Qed.

Lemma escape_stars_flat_map : forall (g : Z -> list Z) rs,
  escape_stars (flat_map g rs) = flat_map (fun r => escape_stars (g r)) rs.
Proof.
  intros g rs. induction rs as [|r rs IH]; [reflexivity|].
  cbn [flat_map]. rewrite escape_stars_app, IH. reflexivity.
Qed.

Lemma strip_stars_cons : forall f c b comps,
  strip_stars (S f) (c :: b) comps = if c =? 42 then strip_stars f b (comps ++ [None]) else (c :: b, comps).
Proof.
  intros f c b comps. destruct (Z.eqb_spec c 42) as [->|N]; [reflexivity|].
  destruct c as [|p|p]; try reflexivity.
  do 6 (destruct p as [p|p|]; try reflexivity).
  exfalso. apply N. reflexivity.
Qed.

Definition no_star_head (b : list Z) : Prop := b = [] \/ exists c t, b = c :: t /\ c <> 42.

Lemma strip_stars_stop : forall n b comps, no_star_head b -> strip_stars n b comps = (b, comps).
Proof.
  intros n b comps [->|(c & t & -> & Hc)].
  - destruct n; reflexivity.
  - destruct n; [reflexivity|]. rewrite strip_stars_cons.
    destruct (Z.eqb_spec c 42); [contradiction|reflexivity].
Qed.

Definition star_or_end (rest : list Z) : Prop := rest = [] \/ exists t, rest = 42 :: t.

Lemma star_or_end_term : forall rest, star_or_end rest ->
  forall f acc, unquote_fuel (S f) rest true acc = Some (acc, rest).
Proof. intros rest [->|(t & ->)] f acc; [apply term_nil|apply term_star]. Qed.

Lemma runes_nonempty : forall s, s <> [] -> runes s <> [].
Proof.
  intros s H. destruct s as [|x s]; [contradiction|].
  unfold runes. cbn [length runes_of]. destruct (decode_rune (x :: s)) as [ch w]. discriminate.
Qed.

Section Pattern.
  Variable is_printable : Z -> bool.
  Variable is_gext : Z -> bool.

  Definition pu (r : Z) : list Z := escape_stars (escape_rune is_printable is_gext r true).
  Definition pesc (l : list Z) : list Z := escape_stars (escape_char_all is_printable is_gext l).
  Definition ptext (c : pcomp) : list Z := (if fst c then [42] else []) ++ pesc (snd c).

  Lemma pesc_flat : forall l, pesc l = flat_map pu (runes l).
  Proof. intros l. unfold pesc, escape_char_all. rewrite escape_stars_flat_map. reflexivity. Qed.

  Lemma quote_pattern_eq : forall p, quote_pattern is_printable is_gext p = [34] ++ flat_map ptext p ++ [34].
  Proof. reflexivity. Qed.

  Lemma u_escape_no_star : forall r, valid_rune r = true -> escape_stars (u_escape r) = u_escape r.
  Proof.
    intros r Hv. apply escape_stars_id. pose proof (valid_rune_range r Hv) as Hr.
    destruct (hex_lower_spec r ltac:(lia)) as (_ & Hf & _).
    unfold u_escape. cbn [app]. constructor; [lia|]. constructor; [lia|]. constructor; [lia|].
    apply Forall_app. split.
    - eapply Forall_impl; [|exact Hf]. intros c Hc. apply (lowhex_props c Hc).
    - constructor; [lia|constructor].
  Qed.

  (* a unit of pattern text: consumed by unquote in star mode, and never begins with a star *)
  Lemma step_pu : forall r, valid_rune r = true ->
    step_ok true (pu r) r /\ exists c t, pu r = c :: t /\ c <> 42.
  Proof.
    intros r Hv. unfold pu.
    destruct (escape_rune_cases is_printable is_gext r true) as [(e & Hin & ->)|[->|[N92 ->]]].
    - assert (He : escape_stars [92; e] = [92; e]).
      { apply escape_stars_id. cbn [In] in Hin.
        repeat (destruct Hin as [Hin|Hin]; [inversion Hin; subst; repeat constructor; lia|]). contradiction. }
      rewrite He. split; [apply step_named; exact Hin|]. exists 92, [e]. split; [reflexivity|lia].
    - rewrite u_escape_no_star by exact Hv. split; [apply step_u; exact Hv|].
      unfold u_escape. cbn [app]. eexists _, _. split; [reflexivity|lia].
    - destruct (Z.eqb_spec r 42) as [->|N42].
      { rewrite encode_rune_1 by lia. change (escape_stars [42]) with [92; 42].
        split; [apply step_bs_star|]. exists 92, [42]. split; [reflexivity|lia]. }
      (* no byte of the encoding of another rune is a star *)
      assert (Hns : Forall (fun c => c <> 42) (encode_rune r) /\ exists c t, encode_rune r = c :: t /\ c <> 42)
        by (destruct (encode_rune_utf8 r Hv); (split; [repeat constructor; lia | eexists _, _; split; [reflexivity | lia]])).
      destruct Hns as [Hns Hhd]. rewrite escape_stars_id by exact Hns.
      split; [apply step_raw; [exact Hv|exact N92|right; exact N42] | exact Hhd].
  Qed.

  Definition lit_ok (l : list Z) : Prop := nonneg l /\ valid_utf8 l = true.

  Lemma unquote_pesc : forall l rest, lit_ok l -> star_or_end rest -> unquote (pesc l ++ rest) true = Some (l, rest).
  Proof.
    intros l rest [Hnn Hv] Hrest. rewrite pesc_flat.
    rewrite (unquote_units true pu (runes l) rest).
    - rewrite runes_encode by assumption. reflexivity.
    - pose proof (runes_valid l Hnn Hv) as Hrv. eapply Forall_impl; [|exact Hrv].
      intros r Hr. cbv beta in Hr. apply (step_pu r Hr).
    - apply star_or_end_term. exact Hrest.
  Qed.

  Lemma pesc_nil : pesc [] = [].
  Proof. reflexivity. Qed.

  Lemma pesc_head : forall l, lit_ok l -> l <> [] -> exists c t, pesc l = c :: t /\ c <> 42.
  Proof.
    intros l [Hnn Hv] Hne. rewrite pesc_flat.
    pose proof (runes_valid l Hnn Hv) as Hrv. pose proof (runes_nonempty l Hne) as Hrn.
    destruct (runes l) as [|r rs]; [contradiction|].
    inversion Hrv as [|r' rs' Hr Hrs]; subst.
    destruct (step_pu r Hr) as [_ (c & t & E & Hc)].
    cbn [flat_map]. rewrite E. exists c, (t ++ flat_map pu rs). split; [reflexivity|exact Hc].
  Qed.

  Lemma body_head : forall l rest, lit_ok l -> (l <> [] \/ rest = []) -> no_star_head (pesc l ++ rest).
  Proof.
    intros l rest Hl H. destruct l as [|x l].
    - destruct H as [H| ->]; [contradiction|]. left. reflexivity.
    - destruct (pesc_head (x :: l) Hl ltac:(discriminate)) as (c & t & E & Hc).
      right. exists c, (t ++ rest). rewrite E. split; [reflexivity|exact Hc].
  Qed.

  (* one iteration of the ParsePattern loop *)
  Lemma pp_step : forall f w l rest comps, lit_ok l ->
    (w = true \/ l <> []) -> (l <> [] \/ rest = []) -> star_or_end rest ->
    parse_pattern_fuel (S f) ((if w then [42] else []) ++ pesc l ++ rest) comps
    = parse_pattern_fuel f rest (comps ++ (if w then [None] else []) ++ [Some l]).
  Proof.
    intros f w l rest comps Hl Hw Hlr Hrest.
    pose proof (body_head l rest Hl Hlr) as Hhead.
    destruct w.
    - cbn [app parse_pattern_fuel length].
      rewrite strip_stars_cons. change (42 =? 42) with true. cbv iota.
      rewrite strip_stars_stop by exact Hhead.
      rewrite unquote_pesc by assumption. rewrite <- app_assoc. reflexivity.
    - destruct Hw as [Hw|Hw]; [discriminate|].
      destruct (pesc_head l Hl Hw) as (c & t & E & Hc).
      cbn [app]. pose proof (unquote_pesc l rest Hl Hrest) as Hu.
      rewrite E in Hu, Hhead |- *. cbn [app] in Hu, Hhead |- *.
      cbn [parse_pattern_fuel]. rewrite strip_stars_stop by exact Hhead.
      rewrite Hu. reflexivity.
  Qed.

  Definition raw (p : pattern) : list (option str) :=
    flat_map (fun c : pcomp => (if fst c then [None] else []) ++ [Some (snd c)]) p.

  Definition lits_nonneg (p : pattern) : Prop := Forall (fun c : pcomp => nonneg (snd c)) p.

  Lemma flat_ptext_cons : forall w l r,
    flat_map ptext ((w, l) :: r) = (if w then [42] else []) ++ pesc l ++ flat_map ptext r.
  Proof. intros w l r. cbn [flat_map]. unfold ptext at 1. cbn [fst snd]. rewrite <- app_assoc. reflexivity. Qed.

  Lemma raw_cons : forall w l r, raw ((w, l) :: r) = (if w then [None] else []) ++ [Some l] ++ raw r.
  Proof. intros w l r. unfold raw. cbn [flat_map fst snd]. rewrite <- app_assoc. reflexivity. Qed.

  Lemma tail_text_shape : forall r, pat_tail_ok r = true -> star_or_end (flat_map ptext r).
  Proof.
    intros r H. destruct r as [|[w l] r]; [left; reflexivity|].
    cbn [pat_tail_ok] in H. destruct w; [|discriminate].
    right. rewrite flat_ptext_cons. cbn [app]. eexists. reflexivity.
  Qed.

  Lemma tail_text_length : forall r, pat_tail_ok r = true -> (length r <= length (flat_map ptext r))%nat.
  Proof.
    induction r as [|[w l] r IH]; intros H; [cbn; lia|].
    cbn [pat_tail_ok] in H. destruct w; [|discriminate].
    cbn [andb] in H. apply andb_true_iff in H. destruct H as [_ H].
    rewrite flat_ptext_cons. cbn [app length]. specialize (IH H). rewrite !app_length. lia.
  Qed.

  Lemma pp_loop : forall q f comps, pat_tail_ok q = true -> lits_nonneg q -> (length q <= f)%nat ->
    parse_pattern_fuel (S f) (flat_map ptext q) comps = Some (comps ++ raw q).
  Proof.
    induction q as [|[w l] r IH]; intros f comps Hq Hnn Hlen.
    - cbn. rewrite app_nil_r. reflexivity.
    - cbn [length] in Hlen. destruct f as [|f]; [lia|].
      inversion Hnn as [|c' r' Hnl Hnr]; subst. cbn [snd] in Hnl.
      cbn [pat_tail_ok] in Hq. destruct w; [|discriminate]. cbn [andb] in Hq.
      apply andb_true_iff in Hq. destruct Hq as [Hq Htail].
      apply andb_true_iff in Hq. destruct Hq as [Hstr Hshape].
      rewrite flat_ptext_cons. cbv iota.
      rewrite (pp_step _ true).
      + rewrite IH by (try assumption; lia). rewrite raw_cons. rewrite <- !app_assoc. reflexivity.
      + split; assumption.
      + left. reflexivity.
      + destruct l as [|x l]; [|left; discriminate]. destruct r as [|c r]; [right; reflexivity|discriminate].
      + apply tail_text_shape. exact Htail.
  Qed.

  (* NewPattern is the identity on the raw component list of a well-formed pattern *)
  Lemma compile_rev_tail : forall q acc, pat_tail_ok q = true ->
    (acc = [] \/ exists w l acc', acc = (w, l) :: acc' /\ (negb w || negb (match l with [] => true | _ => false end)) = true) ->
    compile_rev (raw q) acc = rev q ++ acc.
  Proof.
    induction q as [|[w l] r IH]; intros acc Hq Hacc; [reflexivity|].
    cbn [pat_tail_ok] in Hq. destruct w; [|discriminate]. cbn [andb] in Hq.
    apply andb_true_iff in Hq. destruct Hq as [Hq Htail].
    apply andb_true_iff in Hq. destruct Hq as [_ Hshape].
    rewrite raw_cons. cbn [app].
    assert (E : compile_rev (None :: Some l :: raw r) acc = compile_rev (raw r) ((true, l) :: acc)).
    { destruct Hacc as [->|(w' & l' & acc' & -> & Hc)].
      - reflexivity.
      - cbn [compile_rev]. rewrite Hc. reflexivity. }
    rewrite E. cbn [rev]. rewrite <- app_assoc. cbn [app].
    destruct l as [|x l].
    - destruct r as [|c r]; [reflexivity|discriminate].
    - apply IH; [exact Htail|]. right. exists true, (x :: l), acc. split; reflexivity.
  Qed.

  Lemma compile_raw : forall p, pat_ok p = true -> compile_pattern (raw p) = p.
  Proof.
    intros p Hp. destruct p as [|[w l] r]; [discriminate|].
    cbn [pat_ok] in Hp. apply andb_true_iff in Hp. destruct Hp as [Hp Htail].
    apply andb_true_iff in Hp. destruct Hp as [Hstr Hshape].
    unfold compile_pattern. destruct w.
    - rewrite compile_rev_tail.
      + rewrite app_nil_r. apply rev_involutive.
      + cbn [pat_tail_ok andb]. rewrite Hstr, Htail.
        destruct l as [|x l]; [destruct r as [|c r]; [reflexivity|discriminate]|reflexivity].
      + left. reflexivity.
    - rewrite raw_cons. cbn [app compile_rev].
      rewrite compile_rev_tail.
      + rewrite <- (rev_involutive [(false, l)]). rewrite <- rev_app_distr. rewrite rev_involutive. reflexivity.
      + exact Htail.
      + right. exists false, l, []. split; reflexivity.
  Qed.

  Theorem parse_pattern_quote : forall p, lits_nonneg p -> pat_ok p = true ->
    parse_pattern (trim_quotes (quote_pattern is_printable is_gext p)) = Some p.
  Proof.
    intros p Hnn Hp. rewrite quote_pattern_eq, trim_quotes_quoted.
    pose proof (compile_raw p Hp) as Hcomp.
    destruct p as [|[w l] r]; [discriminate|].
    cbn [pat_ok] in Hp. apply andb_true_iff in Hp. destruct Hp as [Hp Htail].
    apply andb_true_iff in Hp. destruct Hp as [Hstr Hshape].
    inversion Hnn as [|c' r' Hnl Hnr]; subst. cbn [snd] in Hnl.
    (* the pattern "" apart, the first component is one round of the loop like the others, with or without its star *)
    assert (Hw : (w = true \/ l <> []) \/ (w, l) :: r = [(false, [])]).
    { destruct w; [left; left; reflexivity|]. destruct l; [|left; right; discriminate].
      destruct r; [right; reflexivity | discriminate Hshape]. }
    destruct Hw as [Hw|Hsingle]; [|inversion Hsingle; subst; reflexivity].
    assert (Hlr : l <> [] \/ flat_map ptext r = []).
    { destruct l; [|left; discriminate]. destruct r; [right; reflexivity | destruct w; discriminate Hshape]. }
    pose proof (tail_text_length r Htail) as Hlen.
    unfold parse_pattern. rewrite flat_ptext_cons.
    rewrite pp_step; [|split; assumption | exact Hw | exact Hlr | apply tail_text_shape; exact Htail].
    rewrite pp_loop; [|exact Htail | exact Hnr | rewrite !app_length; lia].
    cbn [app]. rewrite <- app_assoc, <- raw_cons.
    destruct (raw ((w, l) :: r)) as [|c cs] eqn:Eraw; [rewrite raw_cons in Eraw; destruct w; discriminate Eraw|].
    cbv iota beta. rewrite <- Eraw. f_equal. exact Hcomp.
  Qed.
End Pattern.

(* str_ok / pat_ok of Lang/RoundTrip.v plus: every byte is non-negative *)
Definition str_ok' (s : str) : Prop := nonneg s /\ str_ok s = true.
Definition pat_ok' (p : pattern) : Prop := lits_nonneg p /\ pat_ok p = true.

Lemma bytes_nonneg : forall s, Forall (fun b => 0 <= b < 256) s -> nonneg s.
Proof. intros s H. unfold nonneg. eapply Forall_impl; [|exact H]. intros b Hb. cbv beta in Hb. lia. Qed.

Corollary string_value_quote' : forall is_printable is_gext s, str_ok' s ->
  string_value (quote_string is_printable is_gext s) = Some s.
Proof. intros ip ig s [Hnn Hv]. apply string_value_quote; assumption. Qed.

Corollary parse_pattern_quote' : forall is_printable is_gext p, pat_ok' p ->
  parse_pattern (trim_quotes (quote_pattern is_printable is_gext p)) = Some p.
Proof. intros ip ig p [Hnn Hp]. apply parse_pattern_quote; assumption. Qed.

(* counterexamples: why `nonneg` is needed (bytes are unbounded Z in the model) *)
Example cex_runes_encode : valid_utf8 [-5] = true /\ encode_runes (runes [-5]) = [239; 191; 189].
Proof. vm_compute. split; reflexivity. Qed.

Example cex_runes_valid : valid_utf8 [-5] = true /\ runes [-5] = [-5] /\ valid_rune (-5) = false.
Proof. vm_compute. repeat split; reflexivity. Qed.

Example cex_string_value_quote_printable :
  valid_utf8 [-5] = true /\ string_value (quote_string (fun _ => true) (fun _ => false) [-5]) = Some [239; 191; 189].
Proof. vm_compute. split; reflexivity. Qed.

Example cex_string_value_quote_unprintable :
  valid_utf8 [-5] = true /\ string_value (quote_string (fun _ => false) (fun _ => false) [-5]) = Some [11].
Proof. vm_compute. split; reflexivity. Qed.

Example cex_parse_pattern_quote :
  pat_ok [(false, [-5])] = true /\
  parse_pattern (trim_quotes (quote_pattern (fun _ => false) (fun _ => false) [(false, [-5])])) = Some [(false, [11])].
Proof. vm_compute. split; reflexivity. Qed.

Print Assumptions decode_encode_rune.
Print Assumptions runes_encode.
Print Assumptions runes_valid.
Print Assumptions next_rune_encode.
Print Assumptions unquote_escape_runes.
Print Assumptions string_value_quote.
Print Assumptions string_value_plain.
Print Assumptions parse_pattern_quote.
Print Assumptions string_value_quote'.
Print Assumptions parse_pattern_quote'.
