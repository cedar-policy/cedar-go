(* Round trips of the JSON codecs of Decision, Diagnostic and Request (Impl/RequestJson.v) on JSON trees.
   Section hypotheses (as in EntityJsonProofs.v): ord_perm (the member order of an encoded set is some permutation) and ip_roundtrip
   (net/netip's printer is not modelled); both are discharged for the concrete printer at the end of the file (the rq_concrete theorems).
   Decision
   - dec_enc_decision
   Diagnostic
   - dec_enc_diagnostic         : for diag_wf diagnostics (every offset / line / column fits 64 bits) decode (encode d) = d exactly,
                                  including when reasons and / or errors are empty (= omitted)
   - diagnostic_second_encoding : corollary
   - enc_diagnostic_guards, dec_diagnostic_total
   - diag_int_range             : a decoded diagnostic never holds an out-of-range int
   - diag_wf_needed             : diag_wf is also necessary for the exact round trip
   Request
   - dec_enc_request            : for request_wf requests, decode (encode rq) = a request with the same three uids and a Cedar-equal
                                  (veq both ways) context
   - dec_enc_request_eq         : with the identity member order, decode (encode rq) = rq exactly
   - request_second_encoding    : with the identity member order, encoding what was decoded gives the identical document
   - request_spellings          : every accepted spelling of the three uids decodes to the same request
   - dec_enc_request_canon      : the decoded context is well-formed
   - enc_request_guards         : the encoder output never hits the two document-wide DUnk guards (any_fold_in req_fields, any_dups)
   - dec_request_total          : the decoder never answers DFuel
   - rq_ex_keys_plain_all_fields_insufficient : request_wf must ask for plain keys with respect to req_fields (the request decoder's own
                                  field names); EntityJsonProofs.keys_plain (= with respect to all_fields) is neither sufficient nor necessary *)
From Coq Require Import ZArith List Bool Lia Arith String Permutation.
Import ListNotations.
From Cedar Require Import Base.Int64 Base.Json Lang.Value Lang.Expr Impl.IPAddr Impl.IPPrint Impl.ValueJson Impl.PolicyJson
  Impl.EntityJson Impl.RequestJson.
From Cedar Require Import Proofs.ValueProofs Proofs.ValueJsonProofs Proofs.PolicyJsonProofs Proofs.EntityJsonProofs Proofs.IPProofs.
Local Open Scope Z_scope.

Section Names.
  Variable names : list string.

  (* exactly a field name, or not a field name even up to case (and without one of the four special characters) *)
  Definition plain_key_in (key : str) : bool :=
    negb (negb (existsb (fun n => str_eqb (k n) key) names) &&
          (existsb (fun n => fold_eq (k n) key) names || has_special key)).

  (* keys_all plain_key_in, written out *)
  Fixpoint keys_plain_in (v : value) : bool :=
    match v with
    | VSet l => (fix all (l : list value) : bool := match l with [] => true | x :: l' => keys_plain_in x && all l' end) l
    | VRecord l => (fix all (l : list (str * value)) : bool :=
                      match l with [] => true | (key, x) :: l' => plain_key_in key && keys_plain_in x && all l' end) l
    | _ => true
    end.
End Names.

(* the entity codec's predicate is the instance for its own field names *)
Lemma keys_plain_in_all_fields v : keys_plain_in all_fields v = keys_plain v.
Proof. reflexivity. Qed.

(* plain with respect to the request decoder's field names *)
Notation rkeys_plain := (keys_plain_in req_fields).

Lemma dall_ok_Forall2 {A B} (f : A -> dres B) l : forall rs, dall (map f l) = DOk rs -> Forall2 (fun x r => f x = DOk r) l rs.
Proof.
  induction l as [|x l IH]; intros rs H; cbn [map dall] in H.
  - injection H as <-. constructor.
  - destruct (f x) as [a| | |] eqn:Ex; cbn [dbind] in H; try discriminate.
    destruct (dall (map f l)) as [rs'| | |] eqn:El; cbn [dbind] in H; try discriminate.
    injection H as <-. constructor; [exact Ex | apply IH; reflexivity].
Qed.

Lemma dbind_ok {A B} (x : dres A) (f : A -> dres B) b : dbind x f = DOk b -> exists a, x = DOk a /\ f a = DOk b.
Proof. destruct x as [a| | |]; cbn [dbind]; try discriminate. intros H. exists a. auto. Qed.

(* The shape of an encoded request, with the four members abstract *)

Definition req_json (jp ja jr jc : json) : json :=
  JObj [(k "principal", jp); (k "action", ja); (k "resource", jr); (k "context", jc)].

Lemma dec_request_obj jp ja jr jc : guards_ok req_fields (req_json jp ja jr jc) ->
  dec_request (req_json jp ja jr jc) =
  dbind (EntityJson.dec_uid jp) (fun p =>
  dbind (EntityJson.dec_uid ja) (fun a =>
  dbind (EntityJson.dec_uid jr) (fun r =>
  dbind (dec_record (Some jc)) (fun c =>
  DOk {| rq_principal := p; rq_action := a; rq_resource := r; rq_context := c |})))).
Proof. intros H. destruct (guards_ok_run _ _ H) as [G1 G2]. unfold dec_request. rewrite G1, G2. reflexivity. Qed.

(* The decoders never run out of fuel (there is none) *)

Theorem dec_request_total : forall j, dec_request j <> DFuel.
Proof. intros j. unfold dec_request, uid_member. nofuel. Qed.

Lemma ifield_nofuel key m : ifield key m <> DFuel.
Proof. unfold ifield. nofuel. Qed.
#[local] Hint Resolve ifield_nofuel : nofuel.

Lemma dec_position_nofuel j : dec_position j <> DFuel.
Proof. unfold dec_position. nofuel. Qed.
#[local] Hint Resolve dec_position_nofuel : nofuel.

Lemma dec_reason_nofuel j : dec_reason j <> DFuel.
Proof. unfold dec_reason. nofuel. Qed.

Lemma dec_derror_nofuel j : dec_derror j <> DFuel.
Proof. unfold dec_derror. nofuel. Qed.
#[local] Hint Resolve dec_reason_nofuel dec_derror_nofuel : nofuel.

Theorem dec_diagnostic_total : forall j, dec_diagnostic j <> DFuel.
Proof. intros j. unfold dec_diagnostic, dec_list. nofuel. Qed.

Theorem dec_enc_decision : forall b, dec_decision (enc_decision b) = b.
Proof. intros [|]; reflexivity. Qed.

Definition pos_wfb (p : position) : bool := in64b (ps_offset p) && in64b (ps_line p) && in64b (ps_column p).
Definition diag_wfb (d : diagnostic) : bool :=
  forallb (fun r => pos_wfb (rs_pos r)) (dg_reasons d) && forallb (fun e => pos_wfb (de_pos e)) (dg_errors d).
(* every offset / line / column of every reason and error fits 64 bits; nothing else *)
Definition diag_wf (d : diagnostic) : Prop := diag_wfb d = true.

Lemma pos_wfb_spec p : pos_wfb p = true <-> in64 (ps_offset p) /\ in64 (ps_line p) /\ in64 (ps_column p).
Proof. unfold pos_wfb. rewrite !andb_true_iff, !in64b_spec. tauto. Qed.

Lemma diag_wf_spec d : diag_wf d <->
  (forall r, In r (dg_reasons d) -> in64 (ps_offset (rs_pos r)) /\ in64 (ps_line (rs_pos r)) /\ in64 (ps_column (rs_pos r))) /\
  (forall e, In e (dg_errors d) -> in64 (ps_offset (de_pos e)) /\ in64 (ps_line (de_pos e)) /\ in64 (ps_column (de_pos e))).
Proof.
  unfold diag_wf, diag_wfb. rewrite andb_true_iff, !forallb_forall.
  split; intros [H1 H2]; split; intros x Hx; apply pos_wfb_spec; auto.
Qed.

Lemma dec_enc_position p : pos_wfb p = true -> dec_position (Some (enc_position p)) = DOk p.
Proof.
  destruct p as [f o l c]. unfold pos_wfb. cbn [ps_offset ps_line ps_column]. rewrite !andb_true_iff. intros [[Ho Hl] Hc].
  (* the four members are found by their literal keys; what is left are the three range tests *)
  cbv - [in64b]. rewrite Ho, Hl, Hc. reflexivity.
Qed.

Lemma dec_enc_reason r : pos_wfb (rs_pos r) = true -> dec_reason (enc_reason r) = DOk r.
Proof.
  destruct r as [id p]. cbn [rs_pos]. intros Hp. cbv - [dec_position enc_position]. rewrite (dec_enc_position p Hp). reflexivity.
Qed.

Lemma dec_enc_derror e : pos_wfb (de_pos e) = true -> dec_derror (enc_derror e) = DOk e.
Proof.
  destruct e as [id p msg]. cbn [de_pos]. intros Hp. cbv - [dec_position enc_position]. rewrite (dec_enc_position p Hp). reflexivity.
Qed.

(* the whole diagnostic: each of the two lists is a member of the object, or omitted when empty *)

Lemma enc_diagnostic_members d : exists m, enc_diagnostic d = JObj m /\
  jget (k "reasons") m = match dg_reasons d with [] => None | l => Some (JArr (map enc_reason l)) end /\
  jget (k "errors") m = match dg_errors d with [] => None | l => Some (JArr (map enc_derror l)) end.
Proof. destruct d as [[|r rs] [|e es]]; eexists; repeat split. Qed.

Lemma dec_list_omitted {A} (dec : json -> dres A) (enc : A -> json) l : dall (map dec (map enc l)) = DOk l ->
  dec_list dec (match l with [] => None | x :: r => Some (JArr (map enc (x :: r))) end) = DOk l.
Proof. destruct l; [reflexivity | exact (fun H => H)]. Qed.

(* all keys are literal field names, strings and numbers are leaves *)
Lemma guards_enc_diagnostic d : guards_ok diag_fields (enc_diagnostic d).
Proof.
  assert (Hr : forall l, guards_ok diag_fields (JArr (map enc_reason l))).
  { intros l. apply guards_ok_arr, Forall_map, Forall_forall. intros r _. split; reflexivity. }
  assert (He : forall l, guards_ok diag_fields (JArr (map enc_derror l))).
  { intros l. apply guards_ok_arr, Forall_map, Forall_forall. intros e _. split; reflexivity. }
  destruct d as [[|r rs] [|e es]];
    (apply guards_ok_obj; [reflexivity | reflexivity | repeat apply Forall_cons; try apply Forall_nil; cbn [snd]; auto]).
Qed.

(* the encoder output never hits the two document-wide DUnk guards of the decoder (no premise at all) *)
Theorem enc_diagnostic_guards : forall d,
  any_fold_in diag_fields (S (jdepth (enc_diagnostic d))) (enc_diagnostic d) = false /\
  any_dups (S (jdepth (enc_diagnostic d))) (enc_diagnostic d) = false.
Proof. intros d. apply guards_ok_run, guards_enc_diagnostic. Qed.

(* exact equality, including when reasons and / or errors are empty (= omitted by the encoder) *)
Theorem dec_enc_diagnostic : forall d, diag_wf d -> dec_diagnostic (enc_diagnostic d) = DOk d.
Proof.
  intros d Hw. unfold diag_wf, diag_wfb in Hw. apply andb_true_iff in Hw. rewrite !forallb_forall in Hw. destruct Hw as [Hr He].
  destruct (enc_diagnostic_guards d) as [G1 G2]. destruct (enc_diagnostic_members d) as (m & E & E1 & E2).
  rewrite E in *. unfold dec_diagnostic. rewrite G1, G2, E1, E2.
  rewrite !dec_list_omitted by (apply dall_dec_enc; intros x Hx; (apply dec_enc_reason || apply dec_enc_derror); auto).
  destruct d; reflexivity.
Qed.

Theorem diagnostic_second_encoding : forall d d', diag_wf d ->
  dec_diagnostic (enc_diagnostic d) = DOk d' -> enc_diagnostic d' = enc_diagnostic d.
Proof. intros d d' Hw Hd. rewrite (dec_enc_diagnostic d Hw) in Hd. injection Hd as <-. reflexivity. Qed.

(* a decoded diagnostic never holds an out-of-range int (no silent wrap) *)

Lemma ifield_range key m z : ifield key m = DOk z -> in64b z = true.
Proof.
  unfold ifield. destruct (jget (k key) m) as [[| |z'| | | |]|]; try discriminate; try (intros H; injection H as <-; reflexivity).
  destruct (in64b z') eqn:E; [|discriminate]. intros H. injection H as <-. exact E.
Qed.

Lemma dec_position_range j p : dec_position j = DOk p -> pos_wfb p = true.
Proof.
  unfold dec_position. destruct j as [[| | | | | |m]|]; try discriminate; intros H; try (injection H as <-; reflexivity).
  apply dbind_ok in H. destruct H as (f & _ & H).
  apply dbind_ok in H. destruct H as (o & Ho & H).
  apply dbind_ok in H. destruct H as (l & Hl & H).
  apply dbind_ok in H. destruct H as (c & Hc & H).
  injection H as <-. unfold pos_wfb. cbn [ps_offset ps_line ps_column].
  rewrite (ifield_range _ _ _ Ho), (ifield_range _ _ _ Hl), (ifield_range _ _ _ Hc). reflexivity.
Qed.

Lemma dec_reason_range j r : dec_reason j = DOk r -> pos_wfb (rs_pos r) = true.
Proof.
  unfold dec_reason. destruct j as [| | | | | |m]; try discriminate; intros H; try (injection H as <-; reflexivity).
  apply dbind_ok in H. destruct H as (id & _ & H).
  apply dbind_ok in H. destruct H as (p & Hp & H).
  injection H as <-. exact (dec_position_range _ _ Hp).
Qed.

Lemma dec_derror_range j e : dec_derror j = DOk e -> pos_wfb (de_pos e) = true.
Proof.
  unfold dec_derror. destruct j as [| | | | | |m]; try discriminate; intros H; try (injection H as <-; reflexivity).
  apply dbind_ok in H. destruct H as (id & _ & H).
  apply dbind_ok in H. destruct H as (p & Hp & H).
  apply dbind_ok in H. destruct H as (msg & _ & H).
  injection H as <-. exact (dec_position_range _ _ Hp).
Qed.

Lemma dec_list_range {A} (f : json -> dres A) (ok : A -> bool) j l :
  (forall x a, f x = DOk a -> ok a = true) -> dec_list f j = DOk l -> forallb ok l = true.
Proof.
  intros Hf. unfold dec_list. destruct j as [[| | | | |js|]|]; try discriminate; intros H; try (injection H as <-; reflexivity).
  apply dall_ok_Forall2 in H. induction H as [|x a js l Hx _ IH]; [reflexivity|].
  cbn [forallb]. rewrite (Hf _ _ Hx), IH. reflexivity.
Qed.

Theorem diag_int_range : forall j d, dec_diagnostic j = DOk d -> diag_wf d.
Proof.
  intros j d. unfold dec_diagnostic.
  destruct (any_fold_in diag_fields (S (jdepth j)) j); [discriminate|].
  destruct (any_dups (S (jdepth j)) j); [discriminate|].
  destruct j as [| | | | | |m]; try discriminate; intros H; try (injection H as <-; reflexivity).
  apply dbind_ok in H. destruct H as (rs & Hrs & H).
  apply dbind_ok in H. destruct H as (es & Hes & H).
  injection H as <-. unfold diag_wf, diag_wfb. cbn [dg_reasons dg_errors].
  rewrite (dec_list_range dec_reason (fun r => pos_wfb (rs_pos r)) _ _ dec_reason_range Hrs).
  exact (dec_list_range dec_derror (fun e => pos_wfb (de_pos e)) _ _ dec_derror_range Hes).
Qed.

(* hence diag_wf is exactly the domain of the exact round trip *)
Corollary diag_wf_needed : forall d, dec_diagnostic (enc_diagnostic d) = DOk d -> diag_wf d.
Proof. intros d H. eapply diag_int_range. exact H. Qed.

Corollary dec_enc_diagnostic_iff : forall d, dec_diagnostic (enc_diagnostic d) = DOk d <-> diag_wf d.
Proof. intros d. split; [apply diag_wf_needed | apply dec_enc_diagnostic]. Qed.

Section RequestJsonProofs.
  Variable print_ip : bool -> Z -> Z -> str.
  Variable ord : list json -> list json.
  Hypothesis ord_perm : forall l, Permutation (ord l) l.
  (* net/netip's printer is Go's standard library and is not modelled: its round trip is assumed for the ip values considered *)
  Variable ip_ok : bool -> Z -> Z -> bool.
  Hypothesis ip_roundtrip : forall v6 a p, ip_ok v6 a p = true -> parse_ip (print_ip v6 a p) = Some (v6, a, p).

  Notation safe := (json_safe ip_ok).
  Notation encr := (EntityJson.enc_record print_ip ord).
  Notation spelling := (EntityJsonProofs.spelling print_ip ord).

  (* what entity_wf demands of attrs, with the request decoder's own field names; the three uids are unconstrained.
     json_safe implies wf_value (request_wf_context_wf below): a key-sorted record of well-formed values *)
  Definition request_wf (rq : request) : Prop :=
    safe (VRecord (rq_context rq)) = true /\ rkeys_plain (VRecord (rq_context rq)) = true.

  Lemma request_wf_context_wf rq : request_wf rq -> wf_value (VRecord (rq_context rq)) = true.
  Proof. intros [Hs _]. eapply json_safe_wf. exact Hs. Qed.

  Definition request_equiv (rq rq' : request) : Prop :=
    rq_principal rq = rq_principal rq' /\ rq_action rq = rq_action rq' /\ rq_resource rq = rq_resource rq' /\
    veq (VRecord (rq_context rq)) (VRecord (rq_context rq')) = true /\
    veq (VRecord (rq_context rq')) (VRecord (rq_context rq)) = true.

  Definition enc_request_sp (sp1 sp2 sp3 : uid -> json) (rq : request) : json :=
    req_json (sp1 (rq_principal rq)) (sp2 (rq_action rq)) (sp3 (rq_resource rq)) (encr (rq_context rq)).

  Lemma enc_request_explicit rq :
    enc_request print_ip ord rq = enc_request_sp (enc_uid_explicit print_ip ord) (enc_uid_explicit print_ip ord)
                                                 (enc_uid_explicit print_ip ord) rq.
  Proof. reflexivity. Qed.

  Lemma escapes_req_fields : escapes_ok print_ip ord req_fields.
  Proof. repeat split. Qed.

  Lemma guards_enc_request_sp sp1 sp2 sp3 rq : spelling sp1 -> spelling sp2 -> spelling sp3 -> request_wf rq ->
    guards_ok req_fields (enc_request_sp sp1 sp2 sp3 rq).
  Proof.
    intros H1 H2 H3 [Hs Hp]. apply guards_ok_obj; [reflexivity | reflexivity |].
    repeat apply Forall_cons; try apply Forall_nil; cbn [snd];
      try (apply (spelling_guards print_ip ord _ _ escapes_req_fields); assumption).
    apply (guards_ok_enc print_ip ord ord_perm ip_ok _ (plain_key_in req_fields) (fun _ => eq_refl) escapes_req_fields);
      assumption.
  Qed.

  (* the encoder output never hits the two document-wide DUnk guards of the decoder *)
  Theorem enc_request_guards : forall rq, request_wf rq ->
    any_fold_in req_fields (S (jdepth (enc_request print_ip ord rq))) (enc_request print_ip ord rq) = false /\
    any_dups (S (jdepth (enc_request print_ip ord rq))) (enc_request print_ip ord rq) = false.
  Proof.
    intros rq Hw. rewrite enc_request_explicit. apply guards_ok_run, guards_enc_request_sp; try exact Hw; apply spelling_explicit.
  Qed.

  (* what an encoded request decodes to, in terms of the record decoder alone *)
  Lemma dec_request_sp sp1 sp2 sp3 rq : spelling sp1 -> spelling sp2 -> spelling sp3 -> request_wf rq ->
    dec_request (enc_request_sp sp1 sp2 sp3 rq) =
    dbind (dec_record (Some (encr (rq_context rq)))) (fun c =>
      DOk {| rq_principal := rq_principal rq; rq_action := rq_action rq; rq_resource := rq_resource rq; rq_context := c |}).
  Proof.
    intros H1 H2 H3 Hw. pose proof (guards_enc_request_sp sp1 sp2 sp3 rq H1 H2 H3 Hw) as G.
    unfold enc_request_sp in *. rewrite (dec_request_obj _ _ _ _ G).
    rewrite (spelling_dec print_ip ord sp1 H1), (spelling_dec print_ip ord sp2 H2), (spelling_dec print_ip ord sp3 H3).
    reflexivity.
  Qed.

  (* the round trip under any spelling *)
  Theorem dec_enc_request_sp : forall sp1 sp2 sp3 rq, spelling sp1 -> spelling sp2 -> spelling sp3 -> request_wf rq ->
    exists rq', dec_request (enc_request_sp sp1 sp2 sp3 rq) = DOk rq' /\ request_equiv rq rq' /\
                wf_value (VRecord (rq_context rq')) = true /\ ((forall l, ord l = l) -> rq' = rq).
  Proof.
    intros sp1 sp2 sp3 rq H1 H2 H3 Hw. rewrite (dec_request_sp sp1 sp2 sp3 rq H1 H2 H3 Hw).
    destruct Hw as [Hs _].
    destruct (dec_enc_record print_ip ord ord_perm ip_ok ip_roundtrip _ Hs) as (Hd & R1 & R2 & W & E).
    exists {| rq_principal := rq_principal rq; rq_action := rq_action rq; rq_resource := rq_resource rq;
              rq_context := dec_rec print_ip ord (rq_context rq) |}.
    rewrite Hd. cbn [dbind]. split; [reflexivity|]. split; [|split].
    - unfold request_equiv. cbn [rq_principal rq_action rq_resource rq_context]. tauto.
    - exact W.
    - intros Hid. rewrite (E Hid). destruct rq; reflexivity.
  Qed.

  (* the encoder's own spelling *)
  Lemma dec_enc_request_explicit rq : request_wf rq ->
    exists rq', dec_request (enc_request print_ip ord rq) = DOk rq' /\ request_equiv rq rq' /\
                wf_value (VRecord (rq_context rq')) = true /\ ((forall l, ord l = l) -> rq' = rq).
  Proof.
    intros Hw. rewrite enc_request_explicit. apply dec_enc_request_sp; try exact Hw; apply spelling_explicit.
  Qed.

  Theorem dec_enc_request : forall rq, request_wf rq ->
    exists rq', dec_request (enc_request print_ip ord rq) = DOk rq' /\ request_equiv rq rq'.
  Proof. intros rq Hw. destruct (dec_enc_request_explicit rq Hw) as (rq' & Hd & He & _). exists rq'. auto. Qed.

  (* the decoded context is in canonical form (key-sorted, canonical sets) *)
  Theorem dec_enc_request_canon : forall rq rq', request_wf rq ->
    dec_request (enc_request print_ip ord rq) = DOk rq' -> wf_value (VRecord (rq_context rq')) = true.
  Proof.
    intros rq rq' Hw Hd. destruct (dec_enc_request_explicit rq Hw) as (rq'' & Hd' & _ & W & _).
    rewrite Hd' in Hd. injection Hd as <-. exact W.
  Qed.

  (* contexts are key-sorted (json_safe), so with the identity member order the decoded request is the original one *)
  Theorem dec_enc_request_eq : forall rq, (forall l, ord l = l) -> request_wf rq ->
    dec_request (enc_request print_ip ord rq) = DOk rq.
  Proof.
    intros rq Hid Hw. destruct (dec_enc_request_explicit rq Hw) as (rq' & Hd & _ & _ & E). rewrite Hd, (E Hid). reflexivity.
  Qed.

  Theorem request_second_encoding : forall rq rq', (forall l, ord l = l) -> request_wf rq ->
    dec_request (enc_request print_ip ord rq) = DOk rq' -> enc_request print_ip ord rq' = enc_request print_ip ord rq.
  Proof. intros rq rq' Hid Hw Hd. rewrite (dec_enc_request_eq rq Hid Hw) in Hd. injection Hd as <-. reflexivity. Qed.

  (* every accepted spelling of the three uids decodes to the same request *)
  Theorem request_spellings : forall sp1 sp2 sp3 rq, spelling sp1 -> spelling sp2 -> spelling sp3 -> request_wf rq ->
    dec_request (JObj [(k "principal", sp1 (rq_principal rq)); (k "action", sp2 (rq_action rq));
                       (k "resource", sp3 (rq_resource rq)); (k "context", encr (rq_context rq))])
    = dec_request (enc_request print_ip ord rq).
  Proof.
    intros sp1 sp2 sp3 rq H1 H2 H3 Hw. rewrite enc_request_explicit.
    change (JObj [(k "principal", sp1 (rq_principal rq)); (k "action", sp2 (rq_action rq));
                  (k "resource", sp3 (rq_resource rq)); (k "context", encr (rq_context rq))])
      with (enc_request_sp sp1 sp2 sp3 rq).
    rewrite !dec_request_sp by (assumption || apply spelling_explicit). reflexivity.
  Qed.

  (* the decoded request is again well-formed when the member order is the identity, so the round trip can be iterated *)
  Theorem request_wf_decoded : forall rq rq', (forall l, ord l = l) -> request_wf rq ->
    dec_request (enc_request print_ip ord rq) = DOk rq' -> request_wf rq'.
  Proof. intros rq rq' Hid Hw Hd. rewrite (dec_enc_request_eq rq Hid Hw) in Hd. injection Hd as <-. exact Hw. Qed.
End RequestJsonProofs.


(* The concrete printer (Impl/IPPrint.v) and the identity member order: no hypothesis left *)

Definition rq_id : list json -> list json := fun l => l.

Lemma rq_id_perm : forall l, Permutation (rq_id l) l.
Proof. intros l. apply Permutation_refl. Qed.

Theorem rq_concrete_roundtrip : forall rq, request_wf ip_ok rq -> dec_request (enc_request print_ip rq_id rq) = DOk rq.
Proof.
  intros rq Hw. apply (dec_enc_request_eq print_ip rq_id rq_id_perm ip_ok parse_print_ip rq); [reflexivity | exact Hw].
Qed.

Theorem rq_concrete_spellings : forall sp1 sp2 sp3 rq,
  spelling print_ip rq_id sp1 -> spelling print_ip rq_id sp2 -> spelling print_ip rq_id sp3 -> request_wf ip_ok rq ->
  dec_request (JObj [(k "principal", sp1 (rq_principal rq)); (k "action", sp2 (rq_action rq));
                     (k "resource", sp3 (rq_resource rq)); (k "context", EntityJson.enc_record print_ip rq_id (rq_context rq))])
  = DOk rq.
Proof.
  intros sp1 sp2 sp3 rq H1 H2 H3 Hw.
  rewrite (request_spellings print_ip rq_id rq_id_perm ip_ok sp1 sp2 sp3 rq H1 H2 H3 Hw).
  apply rq_concrete_roundtrip. exact Hw.
Qed.

(* a non-empty context with a nested set, a nested record, entity / decimal / datetime / duration / ip (v4 and v6) values; the keys
   "type", "id", "principal" are exact field names (fine), "uid" / "UID" are field names of the ENTITY codec only (fine here) *)
Definition rq_ex_request : request :=
  {| rq_principal := (s_of "User", s_of "alice");
     rq_action := (s_of "Action", s_of "view");
     rq_resource := (s_of "Photo::Album", s_of "a ""quoted"" id");
     rq_context :=
       [ (s_of "UID", VLong 7);
         (s_of "addr", VIP false 3232235777 24);
         (s_of "addr6", VIP true 42540766411282592856903984951653826561 64);
         (s_of "id", VSet [VLong 1; VDecimal 12500; VString (s_of "x"); VSet [VBool true; VBool false]; VSet []]);
         (s_of "principal", VRecord [(s_of "d", VDatetime 1700000000123); (s_of "e", VEntity (s_of "User") (s_of "bob"));
                                     (s_of "type", VDuration 90061001)]);
         (s_of "uid", VBool true) ] |}.

Example rq_ex_wf : request_wf ip_ok rq_ex_request.
Proof. split; vm_compute; reflexivity. Qed.

Example rq_ex_roundtrip : dec_request (enc_request print_ip (fun l => l) rq_ex_request) = DOk rq_ex_request.
Proof. vm_compute. reflexivity. Qed.

(* the same by the theorem *)
Example rq_ex_roundtrip_thm : dec_request (enc_request print_ip rq_id rq_ex_request) = DOk rq_ex_request.
Proof. apply rq_concrete_roundtrip. exact rq_ex_wf. Qed.

(* the implicit spelling of principal and resource decodes to the same request *)
Example rq_ex_spellings :
  dec_request (JObj [(k "principal", enc_uid_implicit (rq_principal rq_ex_request));
                     (k "action", enc_uid_explicit print_ip (fun l => l) (rq_action rq_ex_request));
                     (k "resource", enc_uid_implicit (rq_resource rq_ex_request));
                     (k "context", EntityJson.enc_record print_ip (fun l => l) (rq_context rq_ex_request))])
  = DOk rq_ex_request.
Proof. vm_compute. reflexivity. Qed.

(* with the reversed member order the decoded request is Cedar-equal (but its sets list their members in another order) *)
Example rq_ex_roundtrip_rev :
  match dec_request (enc_request print_ip (@rev json) rq_ex_request) with
  | DOk rq' => uid_eqb (rq_principal rq') (rq_principal rq_ex_request) && uid_eqb (rq_action rq') (rq_action rq_ex_request) &&
               uid_eqb (rq_resource rq') (rq_resource rq_ex_request) &&
               veq (VRecord (rq_context rq_ex_request)) (VRecord (rq_context rq')) &&
               veq (VRecord (rq_context rq')) (VRecord (rq_context rq_ex_request))
  | _ => false
  end = true.
Proof. vm_compute. reflexivity. Qed.

(* COUNTEREXAMPLE to the statement with EntityJsonProofs.keys_plain (plain with respect to the ENTITY codec's all_fields): the context key
   "Principal" is json_safe, wf and keys_plain, but it is one of the REQUEST decoder's field names up to case, so the model's decoder
   answers DUnk (outside its domain).  Conversely "UID" is not keys_plain but is fine for the request decoder.  request_wf therefore
   uses keys_plain_in req_fields. *)
Definition rq_ex_ctx (key : str) : request :=
  {| rq_principal := (s_of "U", s_of "a"); rq_action := (s_of "A", s_of "b"); rq_resource := (s_of "R", s_of "c");
     rq_context := [(key, VLong 1)] |}.

Example rq_ex_keys_plain_all_fields_insufficient :
  json_safe (fun _ _ _ => false) (VRecord (rq_context (rq_ex_ctx (s_of "Principal")))) = true /\
  wf_value (VRecord (rq_context (rq_ex_ctx (s_of "Principal")))) = true /\
  keys_plain (VRecord (rq_context (rq_ex_ctx (s_of "Principal")))) = true /\
  rkeys_plain (VRecord (rq_context (rq_ex_ctx (s_of "Principal")))) = false /\
  dec_request (enc_request print_ip (fun l => l) (rq_ex_ctx (s_of "Principal"))) = DUnk.
Proof. repeat split; vm_compute; reflexivity. Qed.

Example rq_ex_keys_plain_all_fields_unnecessary :
  keys_plain (VRecord (rq_context (rq_ex_ctx (s_of "UID")))) = false /\
  rkeys_plain (VRecord (rq_context (rq_ex_ctx (s_of "UID")))) = true /\
  dec_request (enc_request print_ip (fun l => l) (rq_ex_ctx (s_of "UID"))) = DOk (rq_ex_ctx (s_of "UID")).
Proof. repeat split; vm_compute; reflexivity. Qed.

(* a key with a special character (long s, C5 BF) is outside the model's decoder domain as for entities *)
Example rq_ex_special_key :
  json_safe (fun _ _ _ => false) (VRecord (rq_context (rq_ex_ctx [120; 197; 191]))) = true /\
  rkeys_plain (VRecord (rq_context (rq_ex_ctx [120; 197; 191]))) = false /\
  dec_request (enc_request print_ip (fun l => l) (rq_ex_ctx [120; 197; 191])) = DUnk.
Proof. repeat split; vm_compute; reflexivity. Qed.

(* null / missing members: the zero request *)
Example rq_ex_null :
  dec_request JNull = DOk {| rq_principal := ([], []); rq_action := ([], []); rq_resource := ([], []); rq_context := [] |} /\
  dec_request (JObj []) = DOk {| rq_principal := ([], []); rq_action := ([], []); rq_resource := ([], []); rq_context := [] |} /\
  dec_request (JObj [(k "principal", JNull)]) = DErr.
Proof. repeat split; vm_compute; reflexivity. Qed.

(* a diagnostic with two reasons and an error, at the edges of the int range *)
Definition rq_ex_diag : diagnostic :=
  {| dg_reasons :=
       [ {| rs_policy := s_of "policy0"; rs_pos := {| ps_file := s_of "a.cedar"; ps_offset := 0; ps_line := 1; ps_column := 1 |} |};
         {| rs_policy := s_of "policy1"; rs_pos := {| ps_file := []; ps_offset := max64; ps_line := min64; ps_column := -1 |} |} ];
     dg_errors :=
       [ {| de_policy := s_of "policy2"; de_pos := {| ps_file := s_of "b.cedar"; ps_offset := 120; ps_line := 7; ps_column := 3 |};
            de_message := s_of "type error: expected long, got string" |} ] |}.

Example rq_ex_diag_wf : diag_wf rq_ex_diag.
Proof. vm_compute. reflexivity. Qed.

Example rq_ex_diag_roundtrip : dec_diagnostic (enc_diagnostic rq_ex_diag) = DOk rq_ex_diag.
Proof. vm_compute. reflexivity. Qed.

(* the three shapes with an omitted list *)
Example rq_ex_diag_omitted :
  enc_diagnostic {| dg_reasons := []; dg_errors := [] |} = JObj [] /\
  dec_diagnostic (JObj []) = DOk {| dg_reasons := []; dg_errors := [] |} /\
  dec_diagnostic (enc_diagnostic {| dg_reasons := dg_reasons rq_ex_diag; dg_errors := [] |})
    = DOk {| dg_reasons := dg_reasons rq_ex_diag; dg_errors := [] |} /\
  dec_diagnostic (enc_diagnostic {| dg_reasons := []; dg_errors := dg_errors rq_ex_diag |})
    = DOk {| dg_reasons := []; dg_errors := dg_errors rq_ex_diag |}.
Proof. repeat split; vm_compute; reflexivity. Qed.

(* an int that does not fit 64 bits is rejected by the decoder (no silent wrap), so diag_wf is needed for the round trip *)
Example rq_ex_diag_out_of_range :
  let d := {| dg_reasons := [ {| rs_policy := []; rs_pos := {| ps_file := []; ps_offset := max64 + 1; ps_line := 0; ps_column := 0 |} |} ];
              dg_errors := [] |} in
  diag_wfb d = false /\ dec_diagnostic (enc_diagnostic d) = DErr.
Proof. split; vm_compute; reflexivity. Qed.

Example rq_ex_decision :
  dec_decision (enc_decision true) = true /\ dec_decision (enc_decision false) = false /\
  dec_decision (JStr (s_of "Allow")) = false /\ dec_decision JNull = false /\ dec_decision (JBool true) = false.
Proof. repeat split; vm_compute; reflexivity. Qed.

Print Assumptions dec_enc_request.
Print Assumptions dec_enc_request_eq.
Print Assumptions request_second_encoding.
Print Assumptions request_spellings.
Print Assumptions dec_enc_request_sp.
Print Assumptions dec_enc_request_canon.
Print Assumptions enc_request_guards.
Print Assumptions request_wf_decoded.
Print Assumptions dec_request_total.
Print Assumptions rq_concrete_roundtrip.
Print Assumptions rq_concrete_spellings.
Print Assumptions dec_enc_diagnostic.
Print Assumptions diagnostic_second_encoding.
Print Assumptions enc_diagnostic_guards.
Print Assumptions dec_diagnostic_total.
Print Assumptions diag_int_range.
Print Assumptions dec_enc_diagnostic_iff.
Print Assumptions dec_enc_decision.
