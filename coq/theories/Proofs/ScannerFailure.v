(* A reader failure in mid-document is reported as an error, never as a
   (truncated) token list.

   Without a hypothesis on the bytes of the document the statement is FALSE for the model:
   the model's bytes are arbitrary integers, and a "byte" -1 delivered on the ASCII fast path of next() is
   indistinguishable from rune_eof = -1, so the tokenizer emits TEOF with no error pending and the rest of the
   document (including the reader failure) is never looked at (reader_failure_is_error_as_stated_false below).
   The theorems are therefore proved under the additional hypothesis  ~ In rune_eof (r_rest r)  (implied by
   "all bytes are in 0..255", see reader_failure_is_error_bytes).

   The theorems hold for EVERY failure mode of the reader (r_fail_mode): a sticky failure (no data, fails forever), a
   one-off failure without data, and a one-off failure that delivers its bytes together with the error (after
   which the reader may go on to a clean io.EOF).  The invariant is "the reader still fails early OR the error
   flag is already set": a failing read sets s_err in all three modes, and s_err is sticky. *)
From Coq Require Import ZArith List Bool Lia Arith.
Import ListNotations.
From Cedar Require Import Base.Utf8 Lang.Value Impl.Scanner Impl.Tokenizer Proofs.ScannerProofs Proofs.TokenizerParam.

(* bytes the reader can still deliver before its first failing step; None if it never fails *)
Fixpoint avail (sched : list (nat * bool)) : option nat :=
  match sched with
  | [] => None
  | (_, true) :: _ => Some 0%nat
  | (n, false) :: s => option_map (Nat.add n) (avail s)
  end.

(* the reader fails strictly before the document is exhausted *)
Definition fails_early (r : reader) : Prop := exists a, avail (r_sched r) = Some a /\ (a < length (r_rest r))%nat.

(* no element of the list is confused with the end-of-input marker *)
Definition clean (l : list Z) : Prop := Forall (fun x => x <> rune_eof) l.

Lemma clean_skipn : forall n l, clean l -> clean (skipn n l).
Proof.
  induction n as [|n IH]; intros l H; [exact H|].
  destruct l as [|x l]; [exact H|]. cbn [skipn]. apply IH. inversion H; assumption.
Qed.

Lemma clean_firstn : forall n l, clean l -> clean (firstn n l).
Proof.
  induction n as [|n IH]; intros l H; [constructor|].
  destruct l as [|x l]; [constructor|]. cbn [firstn]. inversion H; subst. constructor; [assumption|]. apply IH; assumption.
Qed.

Lemma clean_nth : forall l n, clean l -> nth n l 128%Z <> rune_eof.
Proof.
  intros l n H. destruct (Nat.lt_ge_cases n (length l)) as [Hlt|Hge].
  - unfold clean in H. rewrite Forall_forall in H. apply H. apply nth_In. exact Hlt.
  - rewrite nth_overflow by lia. discriminate.
Qed.

(* under fails_early a read never reports io.EOF: it either fails (in whichever mode: with or without data, the
   reader unchanged or advanced) or delivers data without an error, and the reader still fails early afterwards *)
Lemma read_fails_early : forall r cap data err r',
    fails_early r -> read r cap = (data, err, r') ->
    err = Some RFail \/ (err = None /\ fails_early r').
Proof.
  intros r cap data err r' [a [Ha Hlt]]. rewrite read_unfold.
  destruct (r_sched r) as [|[n [|]] sch]; cbn [avail] in Ha; [discriminate| |].
  - destruct (r_fail_mode r); intros H; inversion H; subst; left; reflexivity.
  - destruct (avail sch) as [a'|] eqn:Hav; [|discriminate]. injection Ha as <-.
    (* the step asks for fewer bytes than are left, so it cannot end the input *)
    intros H. apply read_ok_spec in H. destruct H as (Hs & Hrest & Hlen & [(-> & _) | (_ & Hnil)]).
    + right. split; [reflexivity|]. exists a'. rewrite Hs. split; [exact Hav|].
      rewrite Hrest, app_length in Hlt. lia.
    + rewrite Hrest, Hnil, app_nil_r in Hlt. lia.
Qed.

(* the character produced after the refill loop is a byte of the buffer, U+FFFD, or a decoded rune >= 0x80 *)
Lemma finish_ne : forall s1, byte_at s1 <> rune_eof -> snd (finish s1) <> rune_eof.
Proof.
  intros s1 Hb. unfold finish. destruct (byte_at s1 <? 128)%Z eqn:Hlt; [exact Hb|].
  destruct (window s1) as [|x xs] eqn:Hw.
  - cbn. discriminate.
  - rewrite (byte_at_window _ _ _ Hw) in Hlt.
    destruct (decode_rune (x :: xs)) as [ch w] eqn:Hd.
    pose proof (decode_rune_ge128 _ _ _ _ Hlt Hd) as Hge.
    assert (Hne : ch <> rune_eof) by (unfold rune_eof; lia).
    destruct ((ch =? rune_error)%Z && Nat.eqb w 1); exact Hne.
Qed.

(* the invariant of the failure argument: the reader still fails early or a failure has already been recorded
   (a non-sticky failing step is consumed, so "fails early" alone is not preserved), and neither the buffer nor
   the undelivered bytes contain the end-of-input marker *)
Definition Pf (s : scanner) : Prop :=
  (fails_early (s_rd s) \/ s_err s = true) /\ clean (s_buf s) /\ clean (r_rest (s_rd s)).

Lemma Pf_byte_at : forall s, Pf s -> byte_at s <> rune_eof.
Proof. intros s [_ [Hb _]]. unfold byte_at. apply clean_nth. exact Hb. Qed.

(* a refill step keeps the invariant and returns end-of-input only with the error recorded.  Cleanliness: the delivered
   bytes (also those delivered together with an error) come from the undelivered ones *)
Lemma refill_step_Pf : forall b s s' out,
    Pf s -> refill_step b s = (s', out) -> Pf s' /\ (out = ReturnEOF -> s_err s' = true).
Proof.
  intros b s s' out [HJ [Hb Hr]] Hst.
  destruct (refill_step_fields _ _ _ _ Hst) as (data & err & rd' & Hrd & Eb & _ & Er & Ee & Ho).
  unfold clean in Hr. rewrite (read_rest _ _ _ _ _ Hrd) in Hr. apply Forall_app in Hr. destruct Hr as [Hd Hr'].
  assert (HJ' : (fails_early rd' \/ s_err s' = true) /\ (out = ReturnEOF -> s_err s' = true)).
  { rewrite Ee. destruct HJ as [HJ | ->]; [|split; [right|]; reflexivity].
    destruct (read_fails_early _ _ _ _ _ HJ Hrd) as [-> | [-> HJ']].
    - rewrite orb_true_r. split; [right|]; reflexivity.
    - split; [left; exact HJ' | intros ->; destruct Ho; congruence]. }
  split; [|apply HJ']. unfold Pf. rewrite Eb, Er. split; [apply HJ'|]. split; [|exact Hr'].
  apply Forall_app. split; [apply clean_skipn; exact Hb | exact Hd].
Qed.

Lemma refill_Pf : forall b fuel s s1 eof,
    Pf s -> refill fuel b s = Some (s1, eof) -> Pf s1 /\ (eof = true -> s_err s1 = true).
Proof.
  intros b fuel; induction fuel as [|f IH]; intros s s1 eof HP; cbn [refill]; [discriminate|].
  destruct (need_refill s).
  - destruct (refill_step b s) as [s' out] eqn:Hst.
    destruct (refill_step_Pf _ _ _ _ HP Hst) as [HP' He].
    destruct out.
    + intros H. eapply IH; eauto.
    + intros H; inversion H; subst. split; [exact HP'|discriminate].
    + intros H; inversion H; subst. split; [exact HP'|]. intros _. apply He. reflexivity.
  - intros H; inversion H; subst. split; [exact HP|discriminate].
Qed.

Lemma char_step_Pf : forall s s', char_step s s' -> Pf s -> Pf s'.
Proof.
  intros s s' (Eb & Er & He & _) ([HJ | HJ] & Hb & Hr); unfold Pf; rewrite Eb, Er; auto.
Qed.

(* next(): the invariant is preserved, and end-of-input is only ever returned with the error flag set *)
Lemma next_Pf : forall fuel b s s' ch,
    Pf s -> next fuel b s = Some (s', ch) -> Pf s' /\ (ch = rune_eof -> s_err s' = true).
Proof.
  intros fuel b s s' ch HP. rewrite next_unfold.
  destruct (byte_at s <? 128)%Z.
  - intros H; inversion H; subst. split; [exact (char_step_Pf _ _ (ascii_char_step _ _) HP)|].
    intros He. exfalso. exact (Pf_byte_at _ HP He).
  - destruct (refill fuel b s) as [[s1 eof]|] eqn:Hrf; [|discriminate].
    destruct (refill_Pf _ _ _ _ _ HP Hrf) as [HP1 He].
    destruct eof.
    + intros H; inversion H; subst. split; [exact HP1|]. intros _. apply He. reflexivity.
    + pose proof (char_step_Pf _ _ (finish_char_step s1) HP1) as HP'.
      pose proof (finish_ne s1 (Pf_byte_at _ HP1)) as Hfn.
      destruct (finish s1) as [sf chf]. cbn [fst snd] in *.
      intros H; inversion H; subst. split; [exact HP' | intros Hc; contradiction].
Qed.

(* whenever the lookahead character is end-of-input, an error is pending *)
Definition honest (s : scanner) (ch : Z) : Prop := Pf s /\ (ch = rune_eof -> s_err s = true).

(* the EOF token is only produced on an end-of-input lookahead, so with an error pending: the loop never returns a list *)
Lemma tokenize_loop_never_ok : forall fuel b n s ch acc ts, honest s ch ->
    tokenize_loop scanner (next fuel b) token_start token_stop set_err token_position token_text s_err n s ch acc <> Some (Some ts).
Proof.
  intros fuel b. induction n as [|n IH]; intros s ch acc ts HQ; cbn [tokenize_loop]; [discriminate|].
  destruct (next_token scanner (next fuel b) token_start token_stop set_err token_position token_text (S n) s ch)
    as [[[t s1] c1]|] eqn:Hn; [|discriminate].
  eapply (next_token_inv scanner (next fuel b) token_start token_stop set_err token_position token_text honest
            (fun _ _ => True)) in Hn as (HQ1 & s0 & c0 & (_ & He0) & _ & _ & _ & Hcase); auto.
  - destruct (s_err s1) eqn:He; [discriminate|].
    destruct (t_type t) eqn:Hty; try (apply IH; exact HQ1).
    destruct Hcase as [(Hc & _ & ->) | (_ & Hne & _)]; [|congruence].
    rewrite (He0 Hc : s_err (token_start s0) = true) in He. discriminate.
  - intros a c a' c' [HP _] H. split; [exact (next_Pf _ _ _ _ _ HP H) | exact I].
  - intros a c [(_ & Hb & Hr) _]. split; [|exact I]. split; [|reflexivity]. split; [right; reflexivity | auto].
Qed.

Theorem reader_failure_is_error : forall fuel b r ts,
    (4 <= b)%nat -> fails_early r -> ~ In rune_eof (r_rest r) -> tokenize fuel b r <> Some (Some ts).
Proof.
  intros fuel b r ts _ HJ Hcl. unfold tokenize.
  assert (HP0 : Pf (init r)).
  { unfold Pf. cbn [init s_rd s_buf]. split; [left; exact HJ|]. split; [constructor|].
    unfold clean. apply Forall_forall. intros x Hin Hx. subst x. exact (Hcl Hin). }
  destruct (next fuel b (init r)) as [[s ch]|] eqn:Hn; [|discriminate].
  apply tokenize_loop_never_ok. exact (next_Pf _ _ _ _ _ HP0 Hn).
Qed.

(* the natural reading: the document consists of bytes *)
Corollary reader_failure_is_error_bytes : forall fuel b r ts,
    (4 <= b)%nat -> fails_early r -> Forall (fun x => 0 <= x < 256)%Z (r_rest r) -> tokenize fuel b r <> Some (Some ts).
Proof.
  intros fuel b r ts Hb HJ Hbytes. apply reader_failure_is_error; [exact Hb|exact HJ|].
  intros Hin. rewrite Forall_forall in Hbytes. specialize (Hbytes _ Hin). unfold rune_eof in Hbytes. lia.
Qed.

(* The statement without a hypothesis on the bytes does not hold: a "byte" -1 is taken for end-of-input. *)
Definition cex_reader_mode (m : fmode) : reader :=
  {| r_rest := [65; -1; 66]%Z; r_sched := [(2, false); (0, true)]; r_eof_with_data := false; r_fail_mode := m |}.
Definition cex_reader : reader := cex_reader_mode FSticky.

Lemma reader_failure_is_error_as_stated_false :
  ~ (forall fuel b r ts, (4 <= b)%nat -> fails_early r -> tokenize fuel b r <> Some (Some ts)).
Proof.
  intros H.
  refine (H 10 4 cex_reader _ (le_n 4) _ _).
  - exists 2. split; [reflexivity|]. cbn. lia.
  - vm_compute. reflexivity.
Qed.

(* ... and in every failure mode *)
Lemma reader_failure_is_error_as_stated_false_modes : forall m,
    fails_early (cex_reader_mode m) /\ exists ts, tokenize 10 4 (cex_reader_mode m) = Some (Some ts).
Proof.
  intros m. split.
  - exists 2. split; [reflexivity|]. cbn. lia.
  - destruct m; eexists; vm_compute; reflexivity.
Qed.

(* termination: with fuel > length of the document (and enough fuel for next()) the tokenizer always returns, for ANY
   reader (failing or not, any bytes).  The input ahead is measured on the state alone (M: bytes not yet consumed, in the
   buffer window or still in the reader); a lookahead that is a real character counts one more (N). *)
Section Total.
  Variable A : Type.
  Variables (nxt : A -> option (A * Z)) (start stop seterr : A -> A) (pos : A -> Z * Z * Z)
            (text : A -> list Z) (err : A -> bool).
  Variable P : A -> Prop.
  Variable M : A -> nat.
  Hypothesis T_nxt : forall s, P s ->
    exists s' c, nxt s = Some (s', c) /\ P s' /\ M s' <= M s /\ (c <> rune_eof -> M s' < M s).
  Hypothesis T_start : forall s, P s -> P (start s) /\ M (start s) = M s.
  Hypothesis T_stop : forall s, P s -> P (stop s) /\ M (stop s) = M s.
  Hypothesis T_seterr : forall s, P s -> P (seterr s) /\ M (seterr s) = M s.

  Definition N (s : A) (ch : Z) : nat := M s + (if (ch =? rune_eof)%Z then 0 else 1).

  (* next() against N: a real lookahead is paid for by the step that moves past it *)
  Lemma N_nxt : forall s ch, P s ->
    exists s' c, nxt s = Some (s', c) /\ P s' /\ N s' c <= N s ch /\ (ch <> rune_eof -> N s' c < N s ch).
  Proof.
    intros s ch HP. destruct (T_nxt s HP) as (s' & c & E & HP' & Hle & Hlt).
    exists s', c. split; [exact E|]. split; [exact HP'|]. unfold N.
    destruct (Z.eqb_spec c rune_eof) as [Hc|Hc]; [|specialize (Hlt Hc)];
      destruct (Z.eqb_spec ch rune_eof); (split; [|intros Hne]; lia).
  Qed.

  (* an operation that leaves M alone leaves N alone *)
  Lemma N_same : forall s s' ch, M s' = M s -> N s' ch = N s ch.
  Proof. intros s s' ch E. unfold N. rewrite E. reflexivity. Qed.
  Lemma N_start : forall s ch, P s -> N (start s) ch = N s ch.
  Proof. intros s ch HP. exact (N_same _ _ _ (proj2 (T_start s HP))). Qed.
  Lemma N_stop : forall s ch, P s -> N (stop s) ch = N s ch.
  Proof. intros s ch HP. exact (N_same _ _ _ (proj2 (T_stop s HP))). Qed.
  Lemma N_seterr : forall s ch, P s -> N (seterr s) ch = N s ch.
  Proof. intros s ch HP. exact (N_same _ _ _ (proj2 (T_seterr s HP))). Qed.

  Theorem tokenize_loop_total_N : forall fuel s ch acc, P s -> N s ch < fuel ->
    tokenize_loop A nxt start stop seterr pos text err fuel s ch acc <> None.
  Proof.
    intros fuel s ch acc HP Hf.
    apply (tokenize_loop_total A nxt start stop seterr pos text err (fun s _ => P s) N); auto using N_nxt.
    - intros s0 c HP0. split; [apply T_start | apply N_start]; exact HP0.
    - intros s0 c HP0. split; [apply T_stop | apply N_stop]; exact HP0.
    - intros s0 c HP0. split; [apply T_seterr | apply N_seterr]; exact HP0.
  Qed.
End Total.

(* the measure on the buffered scanner: bytes in the window plus bytes still in the reader *)
Definition Mz (s : scanner) : nat := length (window s) + length (r_rest (s_rd s)).

Lemma window_len : forall s, length (window s) = length (s_buf s) - s_pos s.
Proof. intros s. unfold window. apply skipn_length. Qed.

(* a step over a character consumes at least one byte *)
Lemma char_step_Mz : forall s s', char_step s s' -> window s <> [] -> Mz s' < Mz s.
Proof.
  intros s s' (Eb & Er & _ & w & Ep & Hw) Hne. specialize (Hw Hne).
  assert (Hl : 0 < length (window s)) by (destruct (window s); [congruence|cbn [length]; lia]).
  rewrite window_len in Hl.
  unfold Mz. rewrite (window_len s'), (window_len s), Eb, Ep, Er. lia.
Qed.

(* a refill step consumes nothing *)
Lemma refill_step_Mz : forall b s s' out,
    refill_step b s = (s', out) -> Mz s' = Mz s /\ (out = Break -> window s' <> []).
Proof.
  intros b s s' out Hst.
  destruct (refill_step_fields _ _ _ _ Hst) as (data & err & rd' & Hrd & Eb & Ep & Er & _ & Ho).
  assert (Hw : window s' = window s ++ data) by (unfold window at 1; rewrite Eb, Ep; reflexivity).
  split; [|intros ->; rewrite Hw; apply Ho].
  unfold Mz. rewrite Hw, Er, (read_rest _ _ _ _ _ Hrd), !app_length. lia.
Qed.

Lemma refill_Mz : forall b fuel s s1 eof,
    refill fuel b s = Some (s1, eof) -> Mz s1 <= Mz s /\ (eof = false -> window s1 <> []).
Proof.
  intros b fuel; induction fuel as [|f IH]; intros s s1 eof; cbn [refill]; [discriminate|].
  destruct (need_refill s) eqn:Hneed.
  - destruct (refill_step b s) as [s' out] eqn:Hst.
    destruct (refill_step_Mz _ _ _ _ Hst) as [Hle Hbr].
    destruct out.
    + intros H. destruct (IH _ _ _ H) as [Hle' Hw]. split; [lia|exact Hw].
    + intros H; inversion H; subst. split; [lia|]. intros _. apply Hbr. reflexivity.
    + intros H; inversion H; subst. split; [lia|discriminate].
  - intros H; inversion H; subst. split; [lia|]. intros _.
    destruct (no_need_refill_decode s1 [] Hneed) as [Hne _]. exact Hne.
Qed.

(* next() never un-reads, and every real character consumes at least one byte *)
Lemma next_Mz : forall fuel b s s' ch,
    next fuel b s = Some (s', ch) -> Mz s' <= Mz s /\ (ch <> rune_eof -> Mz s' < Mz s).
Proof.
  intros fuel b s s' ch. rewrite next_unfold.
  destruct (byte_at s <? 128)%Z eqn:Hb.
  - destruct (byte_at_ascii _ Hb) as [xs Hw].
    intros H; inversion H; subst.
    assert (Hlt : Mz (ascii_step s (byte_at s)) < Mz s) by (apply char_step_Mz; [apply ascii_char_step | congruence]).
    split; [lia|intros _; exact Hlt].
  - destruct (refill fuel b s) as [[s1 eof]|] eqn:Hrf; [|discriminate].
    destruct (refill_Mz _ _ _ _ _ Hrf) as [Hle Hw].
    destruct eof.
    + intros H; inversion H; subst. split; [exact Hle|]. intros Hc. congruence.
    + pose proof (char_step_Mz _ _ (finish_char_step s1) (Hw eq_refl)) as Hfin.
      destruct (finish s1) as [sf chf]. cbn [fst] in Hfin.
      intros H; inversion H; subst. split; [lia|intros _; lia].
Qed.

(* totality of the whole pipeline, for any reader *)
Theorem tokenize_total_gen : forall b r fuel,
    (4 <= b)%nat -> (length (r_rest r) < fuel)%nat -> (length (r_sched r) + 2 <= fuel)%nat ->
    tokenize fuel b r <> None.
Proof.
  intros b r fuel Hb Hlen Hsched. unfold tokenize.
  set (Pt := fun s : scanner => length (r_sched (s_rd s)) + 2 <= fuel).
  assert (Hnxt : forall s, Pt s ->
            exists s' c, next fuel b s = Some (s', c) /\ Pt s' /\ Mz s' <= Mz s /\ (c <> rune_eof -> Mz s' < Mz s)).
  { intros s HP. pose proof (next_total_gen b fuel s Hb HP) as Ht.
    destruct (next fuel b s) as [[s' c]|] eqn:Hn; [|congruence].
    exists s', c. split; [reflexivity|]. split.
    - unfold Pt in *. pose proof (next_sched_le _ _ _ _ _ Hn). lia.
    - exact (next_Mz _ _ _ _ _ Hn). }
  assert (HP0 : Pt (init r)) by exact Hsched.
  destruct (Hnxt _ HP0) as (s & ch & E & HP & Hle & Hlt). rewrite E.
  apply (tokenize_loop_total_N scanner (next fuel b) token_start token_stop set_err token_position token_text s_err Pt Mz Hnxt).
  - intros s0 H0. split; [exact H0|reflexivity].
  - intros s0 H0. split; [exact H0|reflexivity].
  - intros s0 H0. split; [exact H0|reflexivity].
  - exact HP.
  - assert (HM0 : Mz (init r) = length (r_rest r)) by reflexivity.
    unfold N. destruct (Z.eqb_spec ch rune_eof) as [Hc|Hc]; [lia|]. specialize (Hlt Hc). lia.
Qed.

(* the positive form: with enough fuel, a reader that fails early yields exactly "error" *)
Theorem reader_failure_is_error_total : forall b r fuel,
    (4 <= b)%nat -> fails_early r -> ~ In rune_eof (r_rest r) ->
    (length (r_rest r) < fuel)%nat -> (length (r_sched r) + 2 <= fuel)%nat -> tokenize fuel b r = Some None.
Proof.
  intros b r fuel Hb HJ Hcl Hlen Hsched.
  pose proof (tokenize_total_gen b r fuel Hb Hlen Hsched) as Ht.
  destruct (tokenize fuel b r) as [[ts|]|] eqn:E; [|reflexivity|congruence].
  exfalso. exact (reader_failure_is_error fuel b r ts Hb HJ Hcl E).
Qed.

Corollary reader_failure_is_error_total_bytes : forall b r fuel,
    (4 <= b)%nat -> fails_early r -> Forall (fun x => 0 <= x < 256)%Z (r_rest r) ->
    (length (r_rest r) < fuel)%nat -> (length (r_sched r) + 2 <= fuel)%nat -> tokenize fuel b r = Some None.
Proof.
  intros b r fuel Hb HJ Hbytes Hlen Hsched. apply reader_failure_is_error_total; auto.
  intros Hin. rewrite Forall_forall in Hbytes. specialize (Hbytes _ Hin). unfold rune_eof in Hbytes. lia.
Qed.

(* the positive form without the hypothesis on the bytes fails on the same witness *)
Lemma reader_failure_is_error_total_as_stated_false :
  ~ (forall b r fuel, (4 <= b)%nat -> fails_early r ->
       (length (r_rest r) < fuel)%nat -> (length (r_sched r) + 2 <= fuel)%nat -> tokenize fuel b r = Some None).
Proof.
  intros H.
  assert (HJ : fails_early cex_reader) by (exists 2; split; [reflexivity|cbn; lia]).
  specialize (H 4 cex_reader 10 (le_n 4) HJ ltac:(cbn; lia) ltac:(cbn; lia)).
  vm_compute in H. discriminate H.
Qed.

(* non-vacuity for the data-with-error mode: the two-token document "a b" ; the failing step delivers the last byte
   ("b") TOGETHER with the error and is followed by a clean io.EOF.  The tokenizer reports the error; the same reader
   without the failing flag gives the two tokens (and the EOF token). *)
Definition ex_fd_reader (fail : bool) : reader :=
  {| r_rest := [97; 32; 98]%Z; r_sched := [(2, false); (1, fail)]; r_eof_with_data := false; r_fail_mode := FOnceData |}.

Example ex_fail_once_data :
  fails_early (ex_fd_reader true) /\
  (* the failing read really delivers the last byte with the error, and the next read is a clean EOF *)
  (let r1 := snd (read (ex_fd_reader true) 4) in
   read r1 4 = ([98]%Z, Some RFail, snd (read r1 4)) /\ read (snd (read r1 4)) 4 = ([], Some REOF, snd (read r1 4))) /\
  tokenize 10 4 (ex_fd_reader true) = Some None /\
  tokenize 10 1024 (ex_fd_reader true) = Some None /\
  (exists ts, tokenize 10 4 (ex_fd_reader false) = Some (Some ts) /\
              map t_type ts = [TIdent; TIdent; TEOF] /\ map t_text ts = [[97]; [98]; []]%Z /\ map t_off ts = [0; 2; 3]%Z).
Proof.
  split; [exists 2; split; [reflexivity|cbn; lia]|].
  split; [vm_compute; split; reflexivity|].
  split; [vm_compute; reflexivity|].
  split; [vm_compute; reflexivity|].
  eexists. split; [vm_compute; reflexivity|]. repeat split; reflexivity.
Qed.

(* the general theorem applies to it *)
Example ex_fail_once_data_thm : forall b fuel, (4 <= b)%nat -> (4 <= fuel)%nat -> tokenize fuel b (ex_fd_reader true) = Some None.
Proof.
  intros b fuel Hb Hf. apply reader_failure_is_error_total_bytes.
  - exact Hb.
  - exists 2. split; [reflexivity|cbn; lia].
  - repeat constructor; lia.
  - cbn. lia.
  - cbn. lia.
Qed.

Print Assumptions reader_failure_is_error.
Print Assumptions reader_failure_is_error_bytes.
Print Assumptions reader_failure_is_error_as_stated_false.
Print Assumptions tokenize_total_gen.
Print Assumptions reader_failure_is_error_total.
Print Assumptions reader_failure_is_error_total_bytes.
Print Assumptions reader_failure_is_error_total_as_stated_false.
Print Assumptions reader_failure_is_error_as_stated_false_modes.
Print Assumptions ex_fail_once_data.
Print Assumptions ex_fail_once_data_thm.
