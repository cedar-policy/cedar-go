(* The buffered scanner (Impl.Scanner) refines the reader-free cursor (Lang.Cursor):
   for every read schedule without reader failures and every bufLen >= 4 the two run in lock step.
   Also: totality of next() (fuel = remaining schedule length + 2), monotonicity of the schedule and of the
   error flag, and "a failing read sets the error flag". *)
From Coq Require Import ZArith List Bool Lia Arith.
Import ListNotations.
From Cedar Require Import Base.Utf8 Impl.Scanner Impl.Tokenizer Lang.Cursor Proofs.CursorProofs.

Section ListLemmas.
  Context {A : Type}.

  Lemma firstn_plus : forall (n m : nat) (l : list A), firstn (n + m) l = firstn n l ++ firstn m (skipn n l).
  Proof.
    intros n; induction n as [|n IH]; intros m l.
    - reflexivity.
    - destruct l as [|x l]; cbn [plus firstn skipn app].
      + now rewrite firstn_nil.
      + f_equal. apply IH.
  Qed.

  Lemma nth_hd_skipn : forall (n : nat) (l : list A) (d : A), nth n l d = hd d (skipn n l).
  Proof.
    intros n; induction n as [|n IH]; intros [|x l] d; try reflexivity. apply IH.
  Qed.

  Lemma firstn_app_le : forall (n : nat) (l1 l2 : list A), n <= length l1 -> firstn n (l1 ++ l2) = firstn n l1.
  Proof.
    intros n l1 l2 H. rewrite firstn_app.
    replace (n - length l1) with 0 by lia. cbn [firstn]. apply app_nil_r.
  Qed.

  (* shortening both sides of "collected = source slice" by k trailing bytes *)
  Lemma firstn_trim : forall (X B C : list A) (n m k : nat),
      X ++ firstn n B = firstn m C -> n <= length B -> m <= length C -> k <= n ->
      X ++ firstn (n - k) B = firstn (m - k) C.
  Proof.
    intros X B C n m k H Hn Hm Hk.
    assert (Hlen : length X + n = m).
    { apply (f_equal (@length A)) in H. rewrite app_length, !firstn_length in H. lia. }
    assert (H1 : firstn (m - k) (firstn m C) = firstn (m - k) C).
    { rewrite firstn_firstn. f_equal. lia. }
    rewrite <- H1, <- H.
    replace (m - k) with (length X + (n - k)) by lia.
    rewrite firstn_app_2. f_equal. rewrite firstn_firstn. f_equal. lia.
  Qed.
End ListLemmas.

(* utf8: no range assumption on the bytes *)
Local Ltac lead_byte b0 :=
  destruct (Z.ltb_spec b0 128); destruct (Z.ltb_spec b0 194); destruct (Z.ltb_spec b0 224);
  destruct (Z.ltb_spec b0 240); destruct (Z.ltb_spec b0 245); try (exfalso; lia).

Local Ltac bool_atoms :=
  repeat (match goal with
          | |- context [Z.leb ?a ?b] => destruct (Z.leb a b) eqn:?
          | |- context [is_cont ?a] => destruct (is_cont a) eqn:?
          end; cbn [andb orb negb]).

Lemma decode_rune_app_long : forall (w r : list Z), 4 <= length w -> decode_rune (w ++ r) = decode_rune w.
Proof.
  intros w r H. destruct w as [|b0 [|b1 [|b2 [|b3 l]]]]; cbn [length] in H; try lia. reflexivity.
Qed.

Lemma decode_rune_app_full : forall (w r : list Z), full_rune w = true -> decode_rune (w ++ r) = decode_rune w.
Proof.
  intros w r H. destruct w as [|b0 [|b1 [|b2 [|b3 l]]]].
  - discriminate.
  - revert H. cbn [app]. unfold full_rune, decode_rune. lead_byte b0; cbn [negb]; intros Hf; try discriminate; reflexivity.
  - revert H. cbn [app]. unfold full_rune, decode_rune. lead_byte b0; cbn [negb]; try reflexivity.
    + bool_atoms; intros Hf; try discriminate; destruct r; reflexivity.
    + bool_atoms; intros Hf; try discriminate; destruct r as [|r0 [|r1 r]]; reflexivity.
  - revert H. cbn [app]. unfold full_rune, decode_rune. lead_byte b0; cbn [negb]; try reflexivity.
    bool_atoms; intros Hf; try discriminate; destruct r; reflexivity.
  - reflexivity.
Qed.

Lemma decode_rune_width : forall (x : Z) (xs : list Z) (ch : Z) (w : nat),
    decode_rune (x :: xs) = (ch, w) -> 1 <= w /\ w <= S (length xs).
Proof. intros x xs ch w H. rewrite <- dec1_decode in H. exact (dec1_width _ _ _ _ H). Qed.

(* a rune decoded from a non-ASCII leading byte is never NUL or newline (it is U+FFFD or >= 0x80) *)
Lemma decode_rune_ge128 : forall (x : Z) (xs : list Z) (ch : Z) (w : nat),
    (x <? 128)%Z = false -> decode_rune (x :: xs) = (ch, w) -> (128 <= ch)%Z.
Proof.
  intros x xs ch w Hx. apply Z.ltb_ge in Hx. unfold decode_rune, rune_error, is_cont. lead_byte x.
  - intros Hdec; inversion Hdec; subst; lia.
  - destruct xs as [|b1 xs]; [intros Hdec; inversion Hdec; subst; lia|].
    destruct (Z.leb_spec 128 b1); destruct (Z.leb_spec b1 191); cbn [andb]; intros Hdec; inversion Hdec; subst; lia.
  - destruct xs as [|b1 [|b2 xs]]; try (intros Hdec; inversion Hdec; subst; lia).
    destruct (Z.eqb_spec x 224); destruct (Z.eqb_spec x 237);
      repeat match goal with |- context [Z.leb ?a ?b] => destruct (Z.leb_spec a b); cbn [andb] end;
      intros Hdec; inversion Hdec; subst; lia.
  - destruct xs as [|b1 [|b2 [|b3 xs]]]; try (intros Hdec; inversion Hdec; subst; lia).
    destruct (Z.eqb_spec x 240); destruct (Z.eqb_spec x 244);
      repeat match goal with |- context [Z.leb ?a ?b] => destruct (Z.leb_spec a b); cbn [andb] end;
      intros Hdec; inversion Hdec; subst; lia.
  - intros Hdec; inversion Hdec; subst; lia.
Qed.

Lemma full_rune_nil : full_rune [] = false.
Proof. reflexivity. Qed.

Lemma full_rune_ascii : forall x xs, (x <? 128)%Z = true -> full_rune (x :: xs) = true.
Proof.
  intros x xs H. apply Z.ltb_lt in H. unfold full_rune.
  destruct (Z.ltb_spec x 194); [reflexivity|lia].
Qed.

Local Opaque decode_rune full_rune.

Definition no_fail (r : reader) : Prop := forall n f, In (n, f) (r_sched r) -> f = false.

(* a step of the schedule that does not fail and asks for [n] bytes: an exhausted schedule asks for the whole capacity *)
Definition read_ok (r : reader) (n : nat) (sched' : list (nat * bool)) (cap : nat) : list Z * option rerr * reader :=
  let r' (rest : list Z) :=
    {| r_rest := rest; r_sched := sched'; r_eof_with_data := r_eof_with_data r; r_fail_mode := r_fail_mode r |} in
  match r_rest r with
  | [] => ([], Some REOF, r' [])
  | rest =>
      let k := Nat.min (Nat.min n cap) (length rest) in
      if Nat.eqb k (length rest) && r_eof_with_data r && negb (Nat.eqb k 0)
      then (rest, Some REOF, r' [])
      else (firstn k rest, None, r' (skipn k rest))
  end.

Lemma read_unfold : forall r cap,
    read r cap =
    match r_sched r with
    | [] => read_ok r cap [] cap
    | (n, false) :: s => read_ok r n s cap
    | (n, true) :: s =>
        let r' (rest : list Z) :=
          {| r_rest := rest; r_sched := s; r_eof_with_data := r_eof_with_data r; r_fail_mode := r_fail_mode r |} in
        match r_fail_mode r with
        | FSticky => ([], Some RFail, r)
        | FOnce => ([], Some RFail, r' (r_rest r))
        | FOnceData => let k := Nat.min (Nat.min n cap) (length (r_rest r)) in
                       (firstn k (r_rest r), Some RFail, r' (skipn k (r_rest r)))
        end
    end.
Proof. intros r cap. unfold read, read_ok. destruct (r_sched r) as [|[n [|]] s]; reflexivity. Qed.

(* it delivers a prefix of at most min n cap bytes; without an error it has delivered that many or everything, and io.EOF
   comes only with the last byte *)
Lemma read_ok_spec : forall r n sched' cap data err r',
    read_ok r n sched' cap = (data, err, r') ->
    r_sched r' = sched' /\ r_rest r = data ++ r_rest r' /\ length data <= Nat.min n cap /\
    (err = None /\ r_rest r <> [] /\ (r_rest r' = [] \/ length data = Nat.min n cap) \/ err = Some REOF /\ r_rest r' = []).
Proof.
  intros r n sched' cap data err r'. unfold read_ok.
  destruct (r_rest r) as [|x rest]; [intros H; inversion H; subst; cbn; repeat split; auto; lia|].
  set (l := x :: rest). set (k := Nat.min (Nat.min n cap) (length l)).
  destruct (Nat.eqb k (length l) && r_eof_with_data r && negb (Nat.eqb k 0)) eqn:Hc; intros H; inversion H; subst; cbn [r_sched r_rest].
  - apply andb_prop in Hc. destruct Hc as [Hc _]. apply andb_prop in Hc. destruct Hc as [Hc _]. apply Nat.eqb_eq in Hc.
    rewrite app_nil_r. repeat split; auto. lia.
  - rewrite firstn_skipn, firstn_length. repeat split; auto; [lia|]. left. split; [reflexivity|]. split; [discriminate|].
    destruct (Nat.le_gt_cases (Nat.min n cap) (length l)); [right; lia | left; apply skipn_all2; lia].
Qed.

(* facts that hold for every reader, failing or not *)
Lemma read_rest : forall r cap data err r', read r cap = (data, err, r') -> r_rest r = data ++ r_rest r'.
Proof.
  intros r cap data err r'. rewrite read_unfold.
  destruct (r_sched r) as [|[n [|]] s]; try (intros H; apply read_ok_spec in H; apply H).
  destruct (r_fail_mode r); intros H; inversion H; subst; cbn [r_rest]; auto using firstn_skipn.
Qed.

Lemma read_sched_le : forall r cap data err r',
    read r cap = (data, err, r') -> length (r_sched r') <= length (r_sched r).
Proof.
  intros r cap data err r'. rewrite read_unfold.
  destruct (r_sched r) as [|[n [|]] s] eqn:Hs; try (intros H; apply read_ok_spec in H; destruct H as [-> _]; cbn [length]; lia).
  destruct (r_fail_mode r); intros H; inversion H; subst; rewrite ?Hs; cbn [r_sched length]; lia.
Qed.

(* a successful read (err = nil) consumes a schedule entry, or the schedule is exhausted and the read
   fills the whole capacity or drains the reader *)
Lemma read_continue : forall r cap data r',
    read r cap = (data, None, r') ->
    r_rest r <> [] /\
    (length (r_sched r') + 1 <= length (r_sched r) \/
     (r_sched r = [] /\ r_sched r' = [] /\ (r_rest r' = [] \/ length data = cap))).
Proof.
  intros r cap data r'. rewrite read_unfold.
  destruct (r_sched r) as [|[n [|]] s]; [| destruct (r_fail_mode r); discriminate |];
    intros H; apply read_ok_spec in H; destruct H as (-> & _ & _ & [(_ & Hne & Hd) | (He & _)]); try discriminate He;
    (split; [exact Hne|]).
  - right. rewrite Nat.min_id in Hd. auto.
  - left. cbn [length]. lia.
Qed.

(* a failing step reports the failure, whatever the failure mode (it may deliver data with it: FOnceData) *)
Lemma read_fail : forall r cap n sch,
    r_sched r = (n, true) :: sch -> exists data r', read r cap = (data, Some RFail, r').
Proof.
  intros r cap n sch H. rewrite read_unfold, H.
  destruct (r_fail_mode r); do 2 eexists; reflexivity.
Qed.

(* the sticky mode: no data, the reader is unchanged *)
Lemma read_fail_sticky : forall r cap n sch,
    r_sched r = (n, true) :: sch -> r_fail_mode r = FSticky -> read r cap = ([], Some RFail, r).
Proof. intros r cap n sch H Hm. unfold read. rewrite H, Hm. reflexivity. Qed.

Lemma read_no_fail : forall r cap data err r',
    no_fail r -> read r cap = (data, err, r') ->
    r_rest r = data ++ r_rest r' /\ length data <= cap /\ no_fail r' /\
    (err = None \/ (err = Some REOF /\ r_rest r' = [])).
Proof.
  intros r cap data err r' Hnf. rewrite read_unfold.
  assert (Hok : forall n s, (forall m f, In (m, f) s -> In (m, f) (r_sched r)) -> read_ok r n s cap = (data, err, r') ->
            r_rest r = data ++ r_rest r' /\ length data <= cap /\ no_fail r' /\ (err = None \/ (err = Some REOF /\ r_rest r' = []))).
  { intros n s Hin H. apply read_ok_spec in H. destruct H as (Hs & Hrest & Hlen & Herr).
    split; [exact Hrest|]. split; [lia|]. split; [|tauto].
    intros m f Hm. rewrite Hs in Hm. eapply Hnf, Hin, Hm. }
  destruct (r_sched r) as [|[n [|]] s] eqn:Hs.
  - apply Hok. intros m f [].
  - specialize (Hnf n true). rewrite Hs in Hnf. discriminate (Hnf (or_introl eq_refl)).
  - apply Hok. intros m f Hm. right. exact Hm.
Qed.

(* the state after one read inside the refill loop *)
Definition rs1 (s : scanner) (data : list Z) (rd' : reader) : scanner :=
  {| s_buf := window s ++ data; s_pos := 0; s_off := (s_off s + Z.of_nat (s_pos s))%Z; s_line := s_line s; s_col := s_col s;
     s_lastLineLen := s_lastLineLen s; s_lastCharLen := s_lastCharLen s;
     s_tokBuf := match s_tokPos s with
                 | Some tp => s_tokBuf s ++ firstn (s_pos s - tp) (skipn tp (s_buf s))
                 | None => s_tokBuf s end;
     s_tokPos := match s_tokPos s with Some _ => Some 0 | None => None end;
     s_tokEnd := s_tokEnd s; s_err := s_err s; s_rd := rd' |}.

(* the state in which next() returns EOF *)
Definition eof_state (s2 : scanner) : scanner :=
  {| s_buf := []; s_pos := 0; s_off := s_off s2; s_line := s_line s2;
     s_col := if Nat.ltb 0 (s_lastCharLen s2) then (s_col s2 + 1)%Z else s_col s2;
     s_lastLineLen := s_lastLineLen s2; s_lastCharLen := 0; s_tokBuf := s_tokBuf s2; s_tokPos := s_tokPos s2;
     s_tokEnd := s_tokEnd s2; s_err := s_err s2; s_rd := s_rd s2 |}.

Lemma refill_step_unfold : forall b s data err rd',
    read (s_rd s) (b - length (window s)) = (data, err, rd') ->
    refill_step b s =
    match err with
    | None => (rs1 s data rd', Continue)
    | Some e =>
        let s2 := match e with RFail => set_err (rs1 s data rd') | REOF => rs1 s data rd' end in
        match window s ++ data with
        | [] => (eof_state s2, ReturnEOF)
        | _ => (s2, Break)
        end
    end.
Proof.
  intros b s data err rd' H. unfold refill_step. rewrite H. destruct err as [[|]|]; reflexivity.
Qed.

(* what a refill step leaves behind, whatever its outcome *)
Lemma refill_step_fields : forall b s s' out,
    refill_step b s = (s', out) ->
    exists data err rd', read (s_rd s) (b - length (window s)) = (data, err, rd') /\
      s_buf s' = window s ++ data /\ s_pos s' = 0 /\ s_rd s' = rd' /\
      s_err s' = s_err s || match err with Some RFail => true | _ => false end /\
      match out with
      | Continue => err = None
      | Break => err <> None /\ window s ++ data <> []
      | ReturnEOF => err <> None /\ window s ++ data = []
      end.
Proof.
  intros b s s' out.
  destruct (read (s_rd s) (b - length (window s))) as [[data err] rd'] eqn:Hrd.
  rewrite (refill_step_unfold _ _ _ _ _ Hrd). intros H. exists data, err, rd'. split; [reflexivity|].
  destruct err as [[|]|]; cbn zeta in H; try destruct (window s ++ data) eqn:Hw; inversion H; subst; cbn;
    rewrite ?orb_true_r, ?orb_false_r; repeat split; (assumption || discriminate).
Qed.

Definition ascii_step (s : scanner) (x : Z) : scanner :=
  if (x =? 0)%Z then set_err (advance s x 1) else advance s x 1.

Definition bad_step (s1 : scanner) : scanner :=
  {| s_buf := s_buf s1; s_pos := s_pos s1 + 1; s_off := s_off s1; s_line := s_line s1; s_col := (s_col s1 + 1)%Z;
     s_lastLineLen := s_lastLineLen s1; s_lastCharLen := 1; s_tokBuf := s_tokBuf s1; s_tokPos := s_tokPos s1;
     s_tokEnd := s_tokEnd s1; s_err := s_err s1; s_rd := s_rd s1 |}.

(* what next() does once the refill loop has ended without EOF *)
Definition finish (s1 : scanner) : scanner * Z :=
  if (byte_at s1 <? 128)%Z then (ascii_step s1 (byte_at s1), byte_at s1)
  else
    let '(ch, width) := decode_rune (window s1) in
    if (ch =? rune_error)%Z && Nat.eqb width 1 then (set_err (bad_step s1), ch) else (advance s1 ch width, ch).

Lemma next_unfold : forall fuel b s,
    next fuel b s =
    if (byte_at s <? 128)%Z then Some (ascii_step s (byte_at s), byte_at s)
    else match refill fuel b s with
         | None => None
         | Some (s1, true) => Some (s1, rune_eof)
         | Some (s1, false) => Some (finish s1)
         end.
Proof.
  intros fuel b s. unfold next, finish, ascii_step.
  destruct (byte_at s <? 128)%Z; [reflexivity|].
  destruct (refill fuel b s) as [[s1 [|]]|]; try reflexivity.
  destruct (byte_at s1 <? 128)%Z; [reflexivity|].
  destruct (decode_rune (window s1)) as [ch w].
  destruct ((ch =? rune_error)%Z && Nat.eqb w 1); reflexivity.
Qed.

(* the lookahead byte is the head of the window (the sentinel past its end) *)
Lemma byte_at_hd : forall s, byte_at s = hd 128%Z (window s).
Proof. intros s. apply nth_hd_skipn. Qed.

(* a step over one character: buffer and reader untouched, the read position moves on, a recorded error stays *)
Definition char_step (s s' : scanner) : Prop :=
  s_buf s' = s_buf s /\ s_rd s' = s_rd s /\ (s_err s = true -> s_err s' = true) /\
  exists w, s_pos s' = s_pos s + w /\ (window s <> [] -> 1 <= w).

Lemma ascii_char_step : forall s x, char_step s (ascii_step s x).
Proof.
  intros s x. unfold ascii_step.
  destruct (x =? 0)%Z; (split; [|split; [|split]]); cbn; auto; exists 1; auto.
Qed.

Lemma finish_char_step : forall s1, char_step s1 (fst (finish s1)).
Proof.
  intros s1. unfold finish. destruct (byte_at s1 <? 128)%Z; [apply ascii_char_step|].
  destruct (decode_rune (window s1)) as [ch w] eqn:Hd.
  assert (Hw : window s1 <> [] -> 1 <= w).
  { destruct (window s1) as [|x xs]; [congruence|]. intros _. apply (decode_rune_width _ _ _ _ Hd). }
  destruct ((ch =? rune_error)%Z && Nat.eqb w 1) eqn:Hc; (split; [|split; [|split]]); cbn; auto.
  - exists 1. split; [reflexivity | intros _; lia].
  - exists w. auto.
Qed.

(* facts that hold for every reader (failing or not): error flag sticky, schedule shrinks, totality *)
Lemma refill_step_gen : forall b s s' out,
    refill_step b s = (s', out) ->
    (s_err s = true -> s_err s' = true) /\ length (r_sched (s_rd s')) <= length (r_sched (s_rd s)).
Proof.
  intros b s s' out Hst. destruct (refill_step_fields _ _ _ _ Hst) as (data & err & rd' & Hrd & _ & _ & -> & -> & _).
  split; [intros ->; reflexivity | exact (read_sched_le _ _ _ _ _ Hrd)].
Qed.

Lemma refill_gen : forall b fuel s s1 eof,
    refill fuel b s = Some (s1, eof) ->
    (s_err s = true -> s_err s1 = true) /\ length (r_sched (s_rd s1)) <= length (r_sched (s_rd s)).
Proof.
  intros b fuel; induction fuel as [|f IH]; intros s s1 eof; cbn [refill]; [discriminate|].
  destruct (need_refill s).
  - destruct (refill_step b s) as [s' out] eqn:Hst. apply refill_step_gen in Hst. destruct Hst as [He Hl].
    destruct out.
    + intros H. apply IH in H. destruct H as [He' Hl']. split; [auto|lia].
    + intros H; inversion H; subst; auto.
    + intros H; inversion H; subst; auto.
  - intros H; inversion H; subst; auto.
Qed.

Lemma next_gen : forall fuel b s s' ch,
    next fuel b s = Some (s', ch) ->
    (s_err s = true -> s_err s' = true) /\ length (r_sched (s_rd s')) <= length (r_sched (s_rd s)).
Proof.
  intros fuel b s s' ch. rewrite next_unfold.
  destruct (byte_at s <? 128)%Z.
  - intros H; inversion H; subst. destruct (ascii_char_step s (byte_at s)) as (_ & -> & He & _). split; [exact He | lia].
  - destruct (refill fuel b s) as [[s1 eof]|] eqn:Hrf; [|discriminate].
    apply refill_gen in Hrf. destruct Hrf as [He Hl].
    destruct eof; [intros H; inversion H; subst; auto|].
    destruct (finish_char_step s1) as (_ & Hfr & Hfe & _). destruct (finish s1) as [sf chf].
    intros H; inversion H; subst. cbn [fst] in *. rewrite Hfr. auto.
Qed.

Lemma next_err_mono : forall fuel b s s' ch, next fuel b s = Some (s', ch) -> s_err s = true -> s_err s' = true.
Proof. intros fuel b s s' ch H. apply (next_gen _ _ _ _ _ H). Qed.

Lemma next_sched_le : forall fuel b s s' ch,
    next fuel b s = Some (s', ch) -> length (r_sched (s_rd s')) <= length (r_sched (s_rd s)).
Proof. intros fuel b s s' ch H. apply (next_gen _ _ _ _ _ H). Qed.

(* the refill loop is only entered on a non-ASCII lookahead byte (or at the end of the buffer) *)
Lemma need_refill_not_ascii : forall s, need_refill s = true -> (byte_at s <? 128)%Z = false.
Proof.
  intros s H. destruct (byte_at s <? 128)%Z eqn:Hb; [|reflexivity].
  unfold need_refill in H. apply andb_prop in H. destruct H as [_ H].
  rewrite byte_at_hd in Hb. destruct (window s) as [|x xs]; [discriminate Hb|].
  rewrite (full_rune_ascii _ _ Hb) in H. discriminate.
Qed.

(* a failing read sets the error flag: if next() has to consult the reader (need_refill) and the reader's next
   step fails, the error flag is set *)
Lemma next_fail_sets_err_need : forall fuel b s s' ch,
    next fuel b s = Some (s', ch) ->
    (exists n sched', r_sched (s_rd s) = (n, true) :: sched') ->
    need_refill s = true -> s_err s' = true.
Proof.
  intros fuel b s s' ch Hn [n [sch Hs]] Hneed.
  rewrite next_unfold, (need_refill_not_ascii _ Hneed) in Hn.
  assert (Hrf : forall s1 eof, refill fuel b s = Some (s1, eof) -> s_err s1 = true).
  { intros s1 eof. destruct fuel as [|f]; cbn [refill]; [discriminate|]. rewrite Hneed.
    destruct (read_fail (s_rd s) (b - length (window s)) _ _ Hs) as [data [rd' Hrd]].
    rewrite (refill_step_unfold _ _ _ _ _ Hrd). cbn zeta.
    destruct (window s ++ data); intros H; inversion H; subst; reflexivity. }
  destruct (refill fuel b s) as [[s1 [|]]|] eqn:Hr; [| |discriminate].
  - inversion Hn; subst. eapply Hrf; reflexivity.
  - destruct (finish_char_step s1) as (_ & _ & Hfe & _). destruct (finish s1) as [sf chf].
    inversion Hn; subst. cbn [fst] in Hfe. apply Hfe. eapply Hrf; reflexivity.
Qed.

(* the same under the hypotheses 4 <= b and byte_at s >= 128, which the proof does not use *)
Lemma next_fail_sets_err : forall fuel b s s' ch,
    4 <= b -> next fuel b s = Some (s', ch) ->
    (exists n sched', r_sched (s_rd s) = (n, true) :: sched') -> (byte_at s >= 128)%Z ->
    need_refill s = true -> s_err s' = true.
Proof. intros fuel b s s' ch _ Hn Hs _ Hneed. eapply next_fail_sets_err_need; eauto. Qed.

(* without need_refill, next_fail_sets_err does not hold: a complete multi-byte character already in the buffer is
   consumed without consulting the (failing) reader *)
Definition cex_scanner : scanner :=
  {| s_buf := [195; 169]%Z; s_pos := 0; s_off := 0%Z; s_line := 1%Z; s_col := 0%Z; s_lastLineLen := 0%Z; s_lastCharLen := 0;
     s_tokBuf := []; s_tokPos := None; s_tokEnd := 0; s_err := false;
     s_rd := {| r_rest := []; r_sched := [(1, true)]; r_eof_with_data := false; r_fail_mode := FSticky |} |}.

Lemma next_fail_sets_err_original_false :
  exists fuel b s s' ch,
    4 <= b /\ next fuel b s = Some (s', ch) /\
    (exists n sched', r_sched (s_rd s) = (n, true) :: sched') /\ (byte_at s >= 128)%Z /\ s_err s' = false.
Proof.
  exists 3, 4, cex_scanner.
  eexists; eexists. split; [lia|]. split; [vm_compute; reflexivity|].
  split; [exists 1, []; reflexivity|]. split; [vm_compute; discriminate|reflexivity].
Qed.

Lemma need_refill_window : forall s, need_refill s = true -> length (window s) < 4.
Proof.
  intros s H. unfold need_refill in H. apply andb_prop in H. destruct H as [H _].
  apply Nat.ltb_lt in H. unfold window. rewrite skipn_length. lia.
Qed.

(* the refill loop ends: every Continue step uses up a schedule entry, or drains the reader, or fills the buffer *)
Lemma refill_step_continue : forall b s s',
    4 <= b -> need_refill s = true -> refill_step b s = (s', Continue) ->
    r_rest (s_rd s) <> [] /\
    (length (r_sched (s_rd s')) + 1 <= length (r_sched (s_rd s)) \/
     (r_sched (s_rd s) = [] /\ r_sched (s_rd s') = [] /\ (r_rest (s_rd s') = [] \/ need_refill s' = false))).
Proof.
  intros b s s' Hb Hneed Hst.
  destruct (refill_step_fields _ _ _ _ Hst) as (data & err & rd' & Hrd & Eb & Ep & -> & _ & ->).
  apply read_continue in Hrd. destruct Hrd as [Hne [Hd|[H1 [H2 H3]]]]; split; auto.
  right. repeat split; auto. destruct H3 as [H3|H3]; [left; exact H3|right].
  (* the read has filled the buffer: at least 4 bytes are in the window *)
  unfold need_refill. rewrite Eb, Ep, app_length, H3.
  apply need_refill_window in Hneed.
  replace (Nat.ltb (length (window s) + (b - length (window s))) (0 + 4)) with false; [reflexivity|].
  symmetry. apply Nat.ltb_ge. lia.
Qed.

Definition refill_measure (s : scanner) : nat :=
  if need_refill s then length (r_sched (s_rd s)) + match r_rest (s_rd s) with [] => 1 | _ => 2 end else 1.

Lemma refill_total_measure : forall b fuel s, 4 <= b -> refill_measure s <= fuel -> refill fuel b s <> None.
Proof.
  intros b fuel; induction fuel as [|f IH]; intros s Hb Hm.
  - unfold refill_measure in Hm. destruct (need_refill s); [destruct (r_rest (s_rd s))|]; lia.
  - cbn [refill]. destruct (need_refill s) eqn:Hneed; [|discriminate].
    destruct (refill_step b s) as [s' out] eqn:Hst. destruct out; try discriminate.
    apply IH; [exact Hb|].
    apply refill_step_continue in Hst; auto. destruct Hst as [Hne Hcases].
    unfold refill_measure in Hm. rewrite Hneed in Hm.
    destruct (r_rest (s_rd s)) as [|x rest] eqn:Hrest; [congruence|].
    unfold refill_measure.
    destruct Hcases as [Hd|[H1 [H2 [H3|H3]]]].
    + destruct (need_refill s'); [destruct (r_rest (s_rd s'))|]; lia.
    + rewrite H2, H3. rewrite H1 in Hm. cbn [length] in *. destruct (need_refill s'); lia.
    + rewrite H3. rewrite H1 in Hm. cbn [length] in *. lia.
Qed.

Lemma refill_total : forall b fuel s,
    4 <= b -> length (r_sched (s_rd s)) + 2 <= fuel -> refill fuel b s <> None.
Proof.
  intros b fuel s Hb Hf. apply refill_total_measure; [exact Hb|].
  unfold refill_measure. destruct (need_refill s); [destruct (r_rest (s_rd s))|]; lia.
Qed.

(* totality of next() for ANY reader (even a failing one) and any scanner state *)
Lemma next_total_gen : forall b fuel s,
    4 <= b -> length (r_sched (s_rd s)) + 2 <= fuel -> next fuel b s <> None.
Proof.
  intros b fuel s Hb Hf. rewrite next_unfold.
  destruct (byte_at s <? 128)%Z; [discriminate|].
  pose proof (refill_total b fuel s Hb Hf) as Ht.
  destruct (refill fuel b s) as [[s1 [|]]|]; [discriminate|discriminate|congruence].
Qed.

(* token-text bookkeeping: the bytes collected so far (tokBuf + the buffer from tokPos up to the read
   position) are exactly the source bytes from the token start up to the cursor index *)
Definition tok_rel (s : scanner) (c : cursor) : Prop :=
  match s_tokPos s, c_tok c with
  | None, None => True
  | Some tp, Some t =>
      tp <= s_pos s /\ t + c_lastCharLen c <= c_idx c /\
      s_tokBuf s ++ firstn (s_pos s - tp) (skipn tp (s_buf s)) = firstn (c_idx c - t) (skipn t (c_src c))
  | _, _ => False
  end.

(* the invariant that also holds in the middle of the refill loop (where srcPos = 0 < lastCharLen is possible) *)
Record winv (b : nat) (s : scanner) (c : cursor) : Prop := {
  wi_b : 4 <= b;
  wi_nofail : no_fail (s_rd s);
  wi_off : (0 <= s_off s)%Z;
  wi_idx : Z.of_nat (c_idx c) = (s_off s + Z.of_nat (s_pos s))%Z;
  wi_skip : skipn (c_idx c) (c_src c) = window s ++ r_rest (s_rd s);
  wi_idx_le : c_idx c <= length (c_src c);
  wi_pos_le : s_pos s <= length (s_buf s);
  wi_buf_le : length (s_buf s) <= b;
  wi_line : s_line s = c_line c;
  wi_col : s_col s = c_col c;
  wi_lll : s_lastLineLen s = c_lastLineLen c;
  wi_lcl : s_lastCharLen s = c_lastCharLen c;
  wi_err : s_err s = c_err c;
  wi_clcl : c_lastCharLen c <= c_idx c;
  wi_tok : tok_rel s c;
}.

(* the relation at the boundaries of next(): additionally the last character is still in the buffer *)
Record sim (b : nat) (s : scanner) (c : cursor) : Prop := {
  sim_w : winv b s c;
  sim_lcl : s_lastCharLen s <= s_pos s;
  sim_tp : forall tp, s_tokPos s = Some tp -> tp + s_lastCharLen s <= s_pos s;
  sim_last : firstn (s_lastCharLen s) (skipn (s_pos s - s_lastCharLen s) (s_buf s)) =
             firstn (s_lastCharLen s) (skipn (c_idx c - s_lastCharLen s) (c_src c));
}.

Lemma sim_init : forall bufLen r, 4 <= bufLen -> no_fail r -> sim bufLen (init r) (c_init (r_rest r)).
Proof.
  intros b r Hb Hnf. split; [split|..]; cbn; auto; try lia.
  - intros tp H; discriminate.
Qed.

Lemma sim_err : forall b s c, sim b s c -> s_err s = c_err c.
Proof. intros b s c [W _ _ _]. apply (wi_err _ _ _ W). Qed.

Lemma sim_token_stop : forall b s c, sim b s c -> sim b (token_stop s) (c_token_stop c).
Proof.
  intros b s c [W H1 H2 H3]. destruct W.
  split; [split|..]; cbn; auto.
  intros tp H; discriminate.
Qed.

Lemma sim_set_err : forall b s c, sim b s c -> sim b (set_err s) (c_set_err c).
Proof.
  intros b s c [W H1 H2 H3]. destruct W.
  split; [split|..]; cbn; auto.
Qed.

Lemma sim_token_start : forall b s c, sim b s c -> sim b (token_start s) (c_token_start c).
Proof.
  intros b s c [W H1 H2 H3]. destruct W.
  split; [split|..]; cbn; auto.
  - unfold tok_rel. cbn. rewrite <- wi_lcl0. repeat split; try lia.
    replace (s_pos s - (s_pos s - s_lastCharLen s)) with (s_lastCharLen s) by lia.
    replace (c_idx c - (c_idx c - s_lastCharLen s)) with (s_lastCharLen s) by lia.
    exact H3.
  - intros tp H; inversion H; subst. lia.
Qed.

Lemma sim_position : forall b s c, sim b s c -> token_position s = c_token_position c.
Proof.
  intros b s c [W H1 H2 H3]. destruct W.
  unfold token_position, c_token_position.
  rewrite wi_line0, wi_col0, wi_lll0, <- wi_lcl0.
  replace (s_off s + Z.of_nat (s_pos s - s_lastCharLen s))%Z with (Z.of_nat (c_idx c - s_lastCharLen s)) by lia.
  reflexivity.
Qed.

Lemma sim_text : forall b s c, sim b s c -> token_text s = c_token_text c.
Proof.
  intros b s c [W H1 H2 H3]. destruct W.
  unfold token_text, c_token_text. unfold tok_rel in wi_tok0.
  destruct (s_tokPos s) as [tp|] eqn:Htp; destruct (c_tok c) as [t|]; try contradiction; [|reflexivity].
  destruct wi_tok0 as [Ha [Hb He]]. specialize (H2 tp eq_refl).
  rewrite <- wi_lcl0 in *.
  replace (s_pos s - s_lastCharLen s - tp) with (s_pos s - tp - s_lastCharLen s) by lia.
  replace (c_idx c - s_lastCharLen s - t) with (c_idx c - t - s_lastCharLen s) by lia.
  apply firstn_trim; auto.
  - rewrite skipn_length. lia.
  - rewrite skipn_length. lia.
  - lia.
Qed.

(* consuming one character of width w from the buffer *)
Lemma step_sim : forall b s c w s' c',
    winv b s c -> 1 <= w -> w <= length (window s) ->
    s_buf s' = s_buf s -> s_pos s' = s_pos s + w -> s_off s' = s_off s -> s_lastCharLen s' = w ->
    s_tokBuf s' = s_tokBuf s -> s_tokPos s' = s_tokPos s -> s_rd s' = s_rd s ->
    c_src c' = c_src c -> c_idx c' = c_idx c + w -> c_lastCharLen c' = w -> c_tok c' = c_tok c ->
    s_line s' = c_line c' -> s_col s' = c_col c' -> s_lastLineLen s' = c_lastLineLen c' -> s_err s' = c_err c' ->
    sim b s' c'.
Proof.
  intros b s c w s' c' W Hw1 Hw2 Ebuf Epos Eoff Elcl Etb Etp Erd Esrc Eidx Eclcl Etok Eline Ecol Elll Eerr.
  destruct W. unfold window in *.
  assert (Hwl : s_pos s + w <= length (s_buf s)) by (rewrite skipn_length in Hw2; lia).
  assert (Hlast : firstn w (skipn (s_pos s) (s_buf s)) = firstn w (skipn (c_idx c) (c_src c))).
  { rewrite wi_skip0. symmetry. apply firstn_app_le. exact Hw2. }
  assert (Hil : c_idx c + w <= length (c_src c)).
  { apply (f_equal (@length Z)) in wi_skip0. rewrite app_length, !skipn_length in wi_skip0. lia. }
  split; [split|..].
  - exact wi_b0.
  - rewrite Erd. exact wi_nofail0.
  - rewrite Eoff. exact wi_off0.
  - rewrite Eidx, Eoff, Epos. lia.
  - unfold window. rewrite Esrc, Eidx, Ebuf, Epos, Erd.
    rewrite <- (skipn_add _ (c_idx c) w), wi_skip0, skipn_app, skipn_add.
    replace (w - length (skipn (s_pos s) (s_buf s))) with 0 by lia. reflexivity.
  - rewrite Esrc, Eidx. exact Hil.
  - rewrite Ebuf, Epos. exact Hwl.
  - rewrite Ebuf. exact wi_buf_le0.
  - exact Eline.
  - exact Ecol.
  - exact Elll.
  - rewrite Elcl, Eclcl. reflexivity.
  - exact Eerr.
  - rewrite Eclcl, Eidx. lia.
  - unfold tok_rel in *. rewrite Etp, Etok, Epos, Eidx, Eclcl, Etb, Ebuf, Esrc.
    destruct (s_tokPos s) as [tp|]; destruct (c_tok c) as [t|]; try contradiction; [|exact I].
    destruct wi_tok0 as [Ha [Hb He]]. repeat split; try lia.
    replace (s_pos s + w - tp) with ((s_pos s - tp) + w) by lia.
    replace (c_idx c + w - t) with ((c_idx c - t) + w) by lia.
    rewrite !firstn_plus, !skipn_add.
    replace (tp + (s_pos s - tp)) with (s_pos s) by lia.
    replace (t + (c_idx c - t)) with (c_idx c) by lia.
    rewrite app_assoc, He, Hlast. reflexivity.
  - rewrite Elcl, Epos. lia.
  - intros tp Htp. rewrite Elcl, Epos. rewrite Etp in Htp.
    unfold tok_rel in wi_tok0. rewrite Htp in wi_tok0.
    destruct (c_tok c) as [t|]; [|contradiction]. lia.
  - rewrite Elcl, Epos, Eidx, Ebuf, Esrc.
    replace (s_pos s + w - w) with (s_pos s) by lia.
    replace (c_idx c + w - w) with (c_idx c) by lia. exact Hlast.
Qed.

Local Ltac fields :=
  cbn [s_buf s_pos s_off s_line s_col s_lastLineLen s_lastCharLen s_tokBuf s_tokPos s_tokEnd s_err s_rd
       c_src c_idx c_line c_col c_lastLineLen c_lastCharLen c_tok c_err
       advance set_err c_set_err bad_step].

Lemma byte_at_window : forall s x xs, window s = x :: xs -> byte_at s = x.
Proof. intros s x xs H. rewrite byte_at_hd, H. reflexivity. Qed.

Lemma byte_at_ascii : forall s, (byte_at s <? 128)%Z = true -> exists xs, window s = byte_at s :: xs.
Proof.
  intros s H. rewrite byte_at_hd in *. destruct (window s) as [|x xs]; [discriminate H|]. exists xs. reflexivity.
Qed.

(* the ASCII path of next() *)
Lemma ascii_sim : forall b s c x xs,
    winv b s c -> window s = x :: xs -> (x <? 128)%Z = true ->
    exists c', c_next c = (c', x) /\ sim b (ascii_step s x) c'.
Proof.
  intros b s c x xs W Hw Hx.
  assert (H128 : (128 <=? x)%Z = false) by (apply Z.ltb_lt in Hx; apply Z.leb_gt; exact Hx).
  unfold c_next. rewrite (wi_skip _ _ _ W), Hw. cbn [app]. rewrite Hx. cbn zeta beta iota.
  rewrite H128. cbn [andb orb negb].
  eexists; split; [reflexivity|].
  unfold ascii_step.
  destruct (x =? 0)%Z;
    (apply step_sim with (s := s) (c := c) (w := 1); fields; try reflexivity; try exact W; try lia;
     [ rewrite Hw; cbn [length]; lia
     | rewrite ?andb_true_r, ?(wi_line _ _ _ W), ?(wi_col _ _ _ W), ?(wi_lll _ _ _ W), ?(wi_err _ _ _ W);
       reflexivity .. ]).
Qed.

(* the multi-byte / invalid-byte path of next(), after the refill loop *)
Lemma finish_sim : forall b s1 c s' ch,
    winv b s1 c -> window s1 <> [] ->
    decode_rune (window s1 ++ r_rest (s_rd s1)) = decode_rune (window s1) ->
    finish s1 = (s', ch) ->
    exists c', c_next c = (c', ch) /\ sim b s' c'.
Proof.
  intros b s1 c s' ch W Hne Happ.
  destruct (window s1) as [|x xs] eqn:Hw; [congruence|clear Hne].
  unfold finish. rewrite (byte_at_window _ _ _ Hw).
  destruct (x <? 128)%Z eqn:Hx.
  { intros H; inversion H; subst. eapply ascii_sim; eauto. }
  rewrite Hw.
  destruct (decode_rune (x :: xs)) as [ch0 w] eqn:Hd.
  assert (H128 : (128 <=? x)%Z = true) by (apply Z.ltb_ge in Hx; apply Z.leb_le; exact Hx).
  pose proof (decode_rune_width _ _ _ _ Hd) as [Hw1 Hw2].
  pose proof (decode_rune_ge128 _ _ _ _ Hx Hd) as Hch.
  assert (Hch0 : (ch0 =? 0)%Z = false) by (apply Z.eqb_neq; lia).
  assert (Hch10 : (ch0 =? 10)%Z = false) by (apply Z.eqb_neq; lia).
  assert (Hwl : w <= length (window s1)) by (rewrite Hw; cbn [length]; lia).
  unfold c_next. rewrite (wi_skip _ _ _ W), Hw.
  change ((x :: xs) ++ r_rest (s_rd s1)) with (x :: xs ++ r_rest (s_rd s1)) in *.
  cbn beta iota. rewrite Hx, Happ. cbn zeta beta iota.
  rewrite H128, Hch0, Hch10. cbn [andb orb negb].
  destruct ((ch0 =? rune_error)%Z && Nat.eqb w 1) eqn:Hinv; cbn [andb orb negb];
    intros H; inversion H; subst; eexists; (split; [reflexivity|]).
  - apply andb_prop in Hinv. destruct Hinv as [_ Hinv]. apply Nat.eqb_eq in Hinv. subst w.
    apply step_sim with (s := s1) (c := c) (w := 1); fields; try reflexivity; try exact W; try lia;
      rewrite ?(wi_line _ _ _ W), ?(wi_col _ _ _ W), ?(wi_lll _ _ _ W), ?(wi_err _ _ _ W); reflexivity.
  - apply step_sim with (s := s1) (c := c) (w := w); fields; try reflexivity; try exact W; try lia;
      rewrite ?Hch10, ?(wi_line _ _ _ W), ?(wi_col _ _ _ W), ?(wi_lll _ _ _ W), ?(wi_err _ _ _ W); reflexivity.
Qed.

Lemma winv_rs1 : forall b s c data rd',
    winv b s c -> r_rest (s_rd s) = data ++ r_rest rd' -> length data <= b - length (window s) -> no_fail rd' ->
    winv b (rs1 s data rd') c.
Proof.
  intros b s c data rd' W Hrest Hlen Hnf. destruct W.
  assert (Hwl : length (window s) <= b) by (unfold window; rewrite skipn_length; lia).
  split; cbn [rs1 s_buf s_pos s_off s_line s_col s_lastLineLen s_lastCharLen s_err s_rd]; auto; try lia.
  - unfold window at 1. cbn [rs1 s_buf s_pos skipn]. rewrite wi_skip0, Hrest. apply app_assoc.
  - rewrite app_length. lia.
  - unfold tok_rel in *. cbn [rs1 s_buf s_pos s_tokBuf s_tokPos].
    destruct (s_tokPos s) as [tp|]; destruct (c_tok c) as [t|]; try contradiction; [|exact I].
    destruct wi_tok0 as [Ha [Hb He]]. repeat split; try lia.
    cbn [Nat.sub firstn]. rewrite app_nil_r. exact He.
Qed.

Lemma eof_sim : forall b s1 c,
    winv b s1 c -> s_buf s1 = [] -> r_rest (s_rd s1) = [] ->
    exists c', c_next c = (c', rune_eof) /\ sim b (eof_state s1) c'.
Proof.
  intros b s1 c W Hbuf Hrest.
  assert (Hpos : s_pos s1 = 0) by (pose proof (wi_pos_le _ _ _ W) as Hp; rewrite Hbuf in Hp; cbn [length] in Hp; lia).
  pose proof (wi_skip _ _ _ W) as Hskip. unfold window in Hskip. rewrite Hbuf, Hrest, skipn_nil in Hskip. cbn [app] in Hskip.
  unfold c_next. rewrite Hskip. eexists; split; [reflexivity|].
  destruct W.
  split; [split|..];
    cbn [eof_state s_buf s_pos s_off s_line s_col s_lastLineLen s_lastCharLen s_tokBuf s_tokPos s_err s_rd
         c_src c_idx c_line c_col c_lastLineLen c_lastCharLen c_tok c_err length]; auto; try lia.
  - unfold window. cbn [eof_state s_buf s_pos s_rd skipn app]. rewrite Hrest. exact Hskip.
  - rewrite wi_lcl0, wi_col0. reflexivity.
  - unfold tok_rel in *.
    cbn [eof_state s_buf s_pos s_tokBuf s_tokPos c_src c_idx c_lastCharLen c_tok].
    destruct (s_tokPos s1) as [tp|]; destruct (c_tok c) as [t|]; try contradiction; [|exact I].
    destruct wi_tok0 as [Ha [Hb He]]. repeat split; try lia.
    rewrite Hpos in He. cbn [Nat.sub firstn] in *. exact He.
  - intros tp Htp. unfold tok_rel in wi_tok0. rewrite Htp in wi_tok0.
    destruct (c_tok c) as [t|]; [|contradiction]. lia.
Qed.

Lemma refill_step_sim : forall b s c s' out,
    winv b s c -> refill_step b s = (s', out) ->
    match out with
    | Continue => winv b s' c
    | Break => winv b s' c /\ r_rest (s_rd s') = [] /\ window s' <> []
    | ReturnEOF => exists c', c_next c = (c', rune_eof) /\ sim b s' c'
    end.
Proof.
  intros b s c s' out W.
  destruct (read (s_rd s) (b - length (window s))) as [[data err] rd'] eqn:Hrd.
  rewrite (refill_step_unfold _ _ _ _ _ Hrd).
  apply (read_no_fail _ _ _ _ _ (wi_nofail _ _ _ W)) in Hrd.
  destruct Hrd as [Hrest [Hlen [Hnf Herr]]].
  pose proof (winv_rs1 _ _ _ _ _ W Hrest Hlen Hnf) as W1.
  destruct Herr as [Herr|[Herr Hnil]]; subst err.
  - intros H; inversion H; subst. exact W1.
  - cbn zeta. destruct (window s ++ data) as [|y ys] eqn:Hbuf; intros H; inversion H; subst.
    + apply eof_sim; auto.
    + split; [exact W1|]. split; [exact Hnil|]. unfold window. cbn [rs1 s_buf s_pos skipn]. rewrite Hbuf. discriminate.
Qed.

Lemma no_need_refill_decode : forall s r,
    need_refill s = false -> window s <> [] /\ decode_rune (window s ++ r) = decode_rune (window s).
Proof.
  intros s r H. unfold need_refill in H. apply andb_false_iff in H. destruct H as [H|H].
  - apply Nat.ltb_ge in H.
    assert (Hl : 4 <= length (window s)) by (unfold window; rewrite skipn_length; lia).
    split; [|apply decode_rune_app_long; exact Hl].
    intros Hn. rewrite Hn in Hl. cbn [length] in Hl. lia.
  - apply negb_false_iff in H. split; [|apply decode_rune_app_full; exact H].
    intros Hn. rewrite Hn, full_rune_nil in H. discriminate.
Qed.

Lemma refill_sim : forall b c fuel s s1 eof,
    winv b s c -> refill fuel b s = Some (s1, eof) ->
    if eof then exists c', c_next c = (c', rune_eof) /\ sim b s1 c'
    else winv b s1 c /\ window s1 <> [] /\
         decode_rune (window s1 ++ r_rest (s_rd s1)) = decode_rune (window s1).
Proof.
  intros b c fuel; induction fuel as [|f IH]; intros s s1 eof W; cbn [refill]; [discriminate|].
  destruct (need_refill s) eqn:Hneed.
  - destruct (refill_step b s) as [s' out] eqn:Hst.
    pose proof (refill_step_sim _ _ _ _ _ W Hst) as Hs.
    destruct out.
    + intros H. eapply IH; eauto.
    + intros H; inversion H; subst. destruct Hs as [W' [Hnil Hne]].
      split; [exact W'|]. split; [exact Hne|]. rewrite Hnil, app_nil_r. reflexivity.
    + intros H; inversion H; subst. exact Hs.
  - intros H; inversion H; subst.
    destruct (no_need_refill_decode s1 (r_rest (s_rd s1)) Hneed) as [Hne Hd]. auto.
Qed.

Lemma sim_next : forall bufLen fuel s c s' ch,
    sim bufLen s c -> next fuel bufLen s = Some (s', ch) ->
    exists c', c_next c = (c', ch) /\ sim bufLen s' c'.
Proof.
  intros b fuel s c s' ch [W _ _ _]. rewrite next_unfold.
  destruct (byte_at s <? 128)%Z eqn:Hb.
  - destruct (byte_at_ascii _ Hb) as [xs Hw].
    intros H; inversion H; subst. eapply ascii_sim; eauto.
  - destruct (refill fuel b s) as [[s1 eof]|] eqn:Hrf; [|discriminate].
    pose proof (refill_sim _ _ _ _ _ _ W Hrf) as Hs.
    destruct eof.
    + intros H; inversion H; subst. exact Hs.
    + destruct Hs as [W1 [Hne Hd]]. destruct (finish s1) as [sf chf] eqn:Hfin.
      intros H; inversion H; subst. eapply finish_sim; eauto.
Qed.

Print Assumptions sim_init.
Print Assumptions sim_next.
Print Assumptions sim_token_start.
Print Assumptions sim_token_stop.
Print Assumptions sim_set_err.
Print Assumptions sim_position.
Print Assumptions sim_text.
Print Assumptions sim_err.
Print Assumptions next_total_gen.
Print Assumptions next_sched_le.
Print Assumptions next_err_mono.
Print Assumptions next_fail_sets_err.
Print Assumptions next_fail_sets_err_need.
Print Assumptions need_refill_not_ascii.
Print Assumptions next_fail_sets_err_original_false.
