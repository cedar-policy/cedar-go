(* Proofs about Impl/SchemaJson.v: the schema JSON codec.
   - dec_schema (enc_schema s) = DOk (norm_schema s) for well-formed schema ASTs (dec_enc_schema); norm_schema is idempotent and
     the second rendering is the same tree as the first (norm_idempotent, second_roundtrip_gen);
   - dec_schema never runs out of fuel (dec_schema_total);
   - resolution (Impl/SchemaResolve.v) gives the same verdict on erase s and erase (norm_schema s), and the same resolved schema
     up to the order of entity parent lists (resolve_norm). *)
From Coq Require Import ZArith List Bool Lia Arith String Permutation.
Import ListNotations.
From Cedar Require Import Base.Json Lang.Value Impl.PolicyJson Impl.SchemaResolve.
From Cedar Require Import Proofs.ValueProofs Proofs.ValueJsonProofs Proofs.PolicyJsonProofs Proofs.SchemaResolveProofs.
From Cedar Require Import Impl.SchemaJson.
Local Open Scope Z_scope.

(* PolicyJsonProofs has the mapv lemmas for its own mapv; Impl.SchemaJson.mapv has the same body but is another constant, so
   they are restated here for it *)
Lemma sj_mapv_cons {A B} (g : A -> B) kv l : mapv g (kv :: l) = (fst kv, g (snd kv)) :: mapv g l.
Proof. reflexivity. Qed.

Lemma sj_mapv_keys {A B} (g : A -> B) l : map fst (mapv g l) = map fst l.
Proof. exact (mapv_keys g l). Qed.

Lemma sj_mapv_mapv {A B C} (g : A -> B) (h : B -> C) l : mapv h (mapv g l) = mapv (fun x => h (g x)) l.
Proof. exact (mapv_mapv g h l). Qed.

Lemma sj_mapv_ext_in {A B} (g h : A -> B) l : (forall kv, In kv l -> g (snd kv) = h (snd kv)) -> mapv g l = mapv h l.
Proof.
  intros H. unfold mapv. apply map_ext_in. intros kv Hkv. rewrite (H kv Hkv). reflexivity.
Qed.

Lemma sj_mapv_id {A} (l : list (str * A)) : mapv (fun x => x) l = l.
Proof. unfold mapv. induction l as [|[key x] l IH]; [reflexivity|]. cbn [map fst snd]. rewrite IH. reflexivity. Qed.

Lemma sj_sorted_mapv {A B} (g : A -> B) l : keys_sorted (mapv g l) = keys_sorted l.
Proof. exact (keys_sorted_mapv g l). Qed.

Lemma sj_sorted_tail {A} (kv : str * A) l : keys_sorted (kv :: l) = true -> keys_sorted l = true.
Proof. destruct kv as [key v]. intros H. apply keys_sorted_cons in H. tauto. Qed.

Lemma sj_sorted_filter {A} (p : str * A -> bool) l : keys_sorted l = true -> keys_sorted (filter p l) = true.
Proof.
  induction l as [|[key v] l IH]; intros Hs; [reflexivity|].
  pose proof (keys_sorted_all_lt _ _ _ Hs) as HF. rewrite Forall_forall in HF.
  pose proof (sj_sorted_tail _ _ Hs) as Hs'. specialize (IH Hs').
  cbn [filter]. destruct (p (key, v)); [|exact IH].
  apply keys_sorted_cons. split; [|exact IH].
  destruct (filter p l) as [|[k2 v2] r] eqn:E; cbn [lb]; [exact I|].
  apply (HF (k2, v2)). apply (proj1 (filter_In p (k2, v2) l)). rewrite E. left. reflexivity.
Qed.

Lemma dbind_ext {A B} (x : dres A) (g h : A -> dres B) : (forall a, g a = h a) -> dbind x g = dbind x h.
Proof. intros H. destruct x; cbn [dbind]; auto. Qed.

(* map-typed objects, decoded member by member *)
Lemma dec_map_mapv {A B} (enc : A -> json) (dec : json -> dres B) (g : A -> B) (l : list (str * A)) :
  keys_sorted l = true -> (forall kv, In kv l -> dec (enc (snd kv)) = DOk (g (snd kv))) ->
  dec_map dec (Some (JObj (mapv enc l))) = DOk (mapv g l).
Proof.
  intros Hs H. cbn [dec_map].
  assert (Hall : dall (map (fun kv : str * json => dbind (dec (snd kv)) (fun a => DOk (fst kv, a))) (mapv enc l)) = DOk (mapv g l)).
  { clear Hs. induction l as [|kv l IH]; [reflexivity|].
    rewrite !sj_mapv_cons. cbn [map dall fst snd]. rewrite (H kv (or_introl eq_refl)). cbn [dbind].
    rewrite IH by (intros kv' Hkv'; apply H; right; exact Hkv'). reflexivity. }
  rewrite Hall. cbn [dbind]. rewrite rec_of_list_sorted_id; [reflexivity|]. rewrite sj_sorted_mapv. exact Hs.
Qed.

Lemma dec_map_nofuel {A} (dec : json -> dres A) o :
  (forall m kv, o = Some (JObj m) -> In kv m -> dec (snd kv) <> DFuel) -> dec_map dec o <> DFuel.
Proof.
  intros H. destruct o as [[| | | | | |m]|]; cbn [dec_map]; try discriminate.
  apply dbind_nofuel; [|discriminate]. apply dall_map_nofuel. intros kv Hkv. apply dbind_nofuel; [exact (H m kv eq_refl Hkv)|discriminate].
Qed.

Lemma jdups_map_obj {A} (enc : A -> json) (l : list (str * A)) :
  keys_sorted l = true -> (forall kv, In kv l -> jdups (enc (snd kv)) = false) -> jdups (JObj (mapv enc l)) = false.
Proof.
  intros Hs H. rewrite jdups_obj, has_dups_sorted by (rewrite sj_sorted_mapv; exact Hs). cbn [orb].
  apply existsb_false_Forall. apply Forall_forall. intros kv Hkv. unfold mapv in Hkv. apply in_map_iff in Hkv.
  destruct Hkv as (x & <- & Hx). cbn [snd]. apply H. exact Hx.
Qed.

(* struct-typed objects: a fixed list of field names, each member present or not *)
Definition sobj (fs : list (string * option json)) : list (str * json) :=
  flat_map (fun p : string * option json => match snd p with Some v => [(k (fst p), v)] | None => [] end) fs.

(* When no name occurs twice in the table (snodup), a member is read by name (sget) and the object has no repeated key *)
Fixpoint sget (key : str) (fs : list (string * option json)) : option json :=
  match fs with [] => None | p :: r => if str_eqb (k (fst p)) key then snd p else sget key r end.
Definition shas (key : str) (fs : list (string * option json)) : bool := existsb (fun q => str_eqb (k (fst q)) key) fs.
Fixpoint snodup (fs : list (string * option json)) : bool :=
  match fs with [] => true | p :: r => negb (shas (k (fst p)) r) && snodup r end.

Lemma sobj_cons n o fs : sobj ((n, o) :: fs) = match o with Some v => [(k n, v)] | None => [] end ++ sobj fs.
Proof. reflexivity. Qed.

Lemma jget_sobj_absent key fs : shas key fs = false -> jget key (sobj fs) = None.
Proof.
  induction fs as [|[n o] fs IH]; [reflexivity|]. cbn [shas existsb fst]. rewrite orb_false_iff. intros [H1 H2].
  rewrite sobj_cons. destruct o; cbn [app jget]; rewrite (IH H2), ?H1; reflexivity.
Qed.

Lemma jget_sobj key fs : snodup fs = true -> jget key (sobj fs) = sget key fs.
Proof.
  induction fs as [|[n o] fs IH]; [reflexivity|]. cbn [snodup sget fst snd]. rewrite andb_true_iff, negb_true_iff. intros [Hn Hs].
  rewrite sobj_cons. destruct (str_eqb (k n) key) eqn:E.
  - apply str_eqb_eq in E. subst key. destruct o; cbn [app jget]; rewrite (jget_sobj_absent _ _ Hn), ?str_eqb_refl; reflexivity.
  - destruct o; cbn [app jget]; rewrite (IH Hs), ?E; destruct (sget key fs); reflexivity.
Qed.

Lemma hd_go_sobj fs : forall seen, snodup fs = true -> (forall q, In q fs -> mem (k (fst q)) seen = false) -> hd_go (sobj fs) seen = false.
Proof.
  induction fs as [|[n o] fs IH]; intros seen Hs Hseen; [reflexivity|].
  cbn [snodup fst] in Hs. apply andb_true_iff in Hs. destruct Hs as [Hn Hs]. apply negb_true_iff in Hn.
  assert (Hfs : forall q, In q fs -> mem (k (fst q)) seen = false) by (intros q Hq; apply Hseen; right; exact Hq).
  rewrite sobj_cons. destruct o as [v|]; cbn [app hd_go]; [|exact (IH seen Hs Hfs)].
  change (existsb (str_eqb (k n)) seen) with (mem (k n) seen). rewrite (Hseen (n, Some v) (or_introl eq_refl) : mem (k n) seen = false).
  apply IH; [exact Hs|]. intros q Hq. cbn [mem existsb]. fold (mem (k (fst q)) seen).
  rewrite (Hfs q Hq), orb_false_r. exact (proj1 (Forall_forall _ _) (proj1 (ValueProofs.existsb_false_Forall _ _) Hn) q Hq).
Qed.

Lemma has_dups_sobj fs : snodup fs = true -> has_dups (sobj fs) = false.
Proof. intros H. change (hd_go (sobj fs) [] = false). apply hd_go_sobj; [exact H | reflexivity]. Qed.

(* the struct decoder accepts it when no field name matches one of the struct's only up to case (or is outside ASCII) *)
Lemma struct_ok_sobj names fs :
  forallb (fun p : string * option json =>
             negb (negb (existsb (fun n => str_eqb (k n) (k (fst p))) names) && (existsb (fun n => fold_eq (k n) (k (fst p))) names || exotic (k (fst p))))) fs = true ->
  struct_ok names (sobj fs) = true.
Proof.
  unfold struct_ok, members_fold_only, sobj. intros H. apply negb_true_iff.
  induction fs as [|[n [v|]] fs IH]; [reflexivity| |]; cbn [forallb fst] in H; apply andb_true_iff in H; destruct H as [Hn H];
    cbn [flat_map snd fst app existsb]; [apply negb_true_iff in Hn; rewrite Hn|]; apply IH, H.
Qed.

(* whether an optional member has a repeated key inside *)
Definition odups (o : option json) : bool := match o with Some v => jdups v | None => false end.

Lemma jdups_sobj fs : snodup fs = true -> Forall (fun p => odups (snd p) = false) fs -> jdups (JObj (sobj fs)) = false.
Proof.
  intros Hd Hf. rewrite jdups_obj, (has_dups_sobj _ Hd). clear Hd. apply existsb_false_Forall. unfold sobj.
  induction Hf as [|[n [v|]] fs Hp _ IH]; cbn [flat_map snd app]; [constructor | constructor; assumption | exact IH].
Qed.

Lemma odups_map {A} (enc : A -> json) (o : option A) : (forall x, o = Some x -> jdups (enc x) = false) -> odups (option_map enc o) = false.
Proof. destruct o as [x|]; [|reflexivity]. intros H. exact (H x eq_refl). Qed.

Definition optP (P : rawty -> Prop) (o : option rawty) : Prop := match o with Some e => P e | None => True end.
Section RawInd.
  Variable P : rawty -> Prop.
  Hypothesis HRaw : forall ty el attrs name,
      optP P el ->
      Forall (fun kv : str * (rawty * option bool * annots) => P (fst (fst (snd kv)))) attrs ->
      P (RawTy ty el attrs name).
  Fixpoint rawty_ind' (r : rawty) : P r :=
    match r with
    | RawTy ty el attrs name =>
        HRaw ty el attrs name
             (match el as o return optP P o with Some e => rawty_ind' e | None => I end)
             ((fix go (l : list (str * (rawty * option bool * annots))) : Forall (fun kv => P (fst (fst (snd kv)))) l :=
                 match l with [] => Forall_nil _ | x :: l' => Forall_cons _ (rawty_ind' (fst (fst (snd x)))) (go l') end) attrs)
    end.
End RawInd.

Section XtyInd.
  Variable P : xty -> Prop.
  Hypothesis HString : P XString.
  Hypothesis HLong : P XLong.
  Hypothesis HBool : P XBool.
  Hypothesis HExt : forall n, P (XExt n).
  Hypothesis HSet : forall t, P t -> P (XSet t).
  Hypothesis HRec : forall fs, Forall (fun kv : str * (xty * bool * annots) => P (fst (fst (snd kv)))) fs -> P (XRec fs).
  Hypothesis HEnt : forall r, P (XEnt r).
  Hypothesis HRef : forall r, P (XRef r).
  Fixpoint xty_ind' (t : xty) : P t :=
    match t with
    | XString => HString | XLong => HLong | XBool => HBool | XExt n => HExt n
    | XSet e => HSet e (xty_ind' e)
    | XRec fs => HRec fs ((fix go (l : xrec) : Forall (fun kv => P (fst (fst (snd kv)))) l :=
                             match l with [] => Forall_nil _ | x :: l' => Forall_cons _ (xty_ind' (fst (fst (snd x)))) (go l') end) fs)
    | XEnt r => HEnt r | XRef r => HRef r
    end.
End XtyInd.

Local Notation rattr := (rawty * option bool * annots)%type.
Definition reqj (req : option bool) : list (str * json) := match req with Some b => [(k "required", JBool b)] | None => [] end.
Definition annots_json (an : annots) : option json :=
  if is_nil an then None else Some (JObj (mapv JStr (rec_of_list an))).
Definition attr_obj (a : rattr) : json :=
  JObj (json_members_of_raw (fst (fst a)) ++ reqj (snd (fst a)) ++ enc_annots (snd a)).

Lemma enc_annots_eq an : enc_annots an = sobj [("annotations"%string, annots_json an)].
Proof. destruct an; reflexivity. Qed.

Lemma attrs_fix (l : list (str * rattr)) :
  (fix go (l : list (str * (rawty * option bool * annots))) : list (str * json) :=
     match l with
     | [] => []
     | (key, (t, req, an)) :: rest =>
         (key, JObj (json_members_of_raw t ++ match req with Some b => [(k "required", JBool b)] | None => [] end ++ enc_annots an)) :: go rest
     end) l = mapv attr_obj l.
Proof.
  induction l as [|[key [[t req] an]] l IH]; [reflexivity|].
  rewrite sj_mapv_cons. cbn [fst snd]. rewrite <- IH. reflexivity.
Qed.

Definition el_json (el : option rawty) : option json := option_map (fun e => JObj (json_members_of_raw e)) el.
Definition attrs_json (attrs : list (str * rattr)) : option json := if is_nil attrs then None else Some (JObj (mapv attr_obj attrs)).
Definition name_json (name : str) : option json := if is_nil name then None else Some (JStr name).

(* the members of a jsonType / jsonAttr / jsonCommonType object, by field *)
Definition tmembers (vt : json) (o1 o2 o3 o4 o5 : option json) : list (str * json) :=
  sobj [("type", Some vt); ("element", o1); ("attributes", o2); ("name", o3); ("required", o4); ("annotations", o5)]%string.

Lemma tobj_eq ty el attrs name req an :
  json_members_of_raw (RawTy ty el attrs name) ++ reqj req ++ enc_annots an =
  tmembers (JStr ty) (el_json el) (attrs_json attrs) (name_json name) (option_map JBool req) (annots_json an).
Proof.
  rewrite enc_annots_eq. unfold tmembers, el_json, attrs_json, name_json. cbn [json_members_of_raw]. rewrite attrs_fix.
  destruct el, attrs, name, req; reflexivity.
Qed.

Lemma tobj_nil r : json_members_of_raw r = json_members_of_raw r ++ reqj None ++ enc_annots [].
Proof. cbn. rewrite app_nil_r. reflexivity. Qed.

(* what the struct decoder reads out of such an object *)
Lemma tm_type ty o1 o2 o3 o4 o5 : sfield "type" (tmembers (JStr ty) o1 o2 o3 o4 o5) = DOk ty.
Proof. unfold sfield, tmembers. rewrite jget_sobj by reflexivity. reflexivity. Qed.
Lemma tm_name vt o1 o2 name o4 o5 : sfield "name" (tmembers vt o1 o2 (name_json name) o4 o5) = DOk name.
Proof. unfold sfield, tmembers. rewrite jget_sobj by reflexivity. destruct name; reflexivity. Qed.
Lemma tm_element vt el o2 o3 o4 o5 : field "element" (tmembers vt (el_json el) o2 o3 o4 o5) = el_json el.
Proof. unfold field, tmembers. rewrite jget_sobj by reflexivity. destruct el; reflexivity. Qed.
Lemma tm_attributes vt o1 attrs o3 o4 o5 : field "attributes" (tmembers vt o1 (attrs_json attrs) o3 o4 o5) = attrs_json attrs.
Proof. unfold field, tmembers. rewrite jget_sobj by reflexivity. destruct attrs; reflexivity. Qed.
Lemma tm_required vt o1 o2 o3 req o5 : field "required" (tmembers vt o1 o2 o3 (option_map JBool req) o5) = option_map JBool req.
Proof. unfold field, tmembers. rewrite jget_sobj by reflexivity. destruct req; reflexivity. Qed.
Lemma tm_annotations vt o1 o2 o3 o4 o5 : jget (k "annotations") (tmembers vt o1 o2 o3 o4 o5) = o5.
Proof. apply jget_sobj. reflexivity. Qed.
Lemma tm_struct_ok mode vt o1 o2 o3 o4 o5 : struct_ok (mode_fields mode) (tmembers vt o1 o2 o3 o4 o5) = true.
Proof. destruct mode; apply struct_ok_sobj; reflexivity. Qed.

(* one step of raw_of_json; the loop over the attributes is dec_map *)
Definition dec_el (f : nat) (o : option json) : dres (option rawty) :=
  match o with None => DOk None | Some e => dbind (raw_of_json f MType e) (fun r => DOk (Some (fst (fst r)))) end.
Definition dec_req (o : option json) : dres (option bool) :=
  match o with None => DOk None | Some (JBool b) => DOk (Some b) | Some _ => DErr end.

Lemma raw_of_json_obj f mode m :
  raw_of_json (S f) mode (JObj m) =
  if negb (struct_ok (mode_fields mode) m) then DUnk else
  dbind (sfield "type" m) (fun ty =>
  dbind (sfield "name" m) (fun name =>
  dbind (dec_el f (field "element" m)) (fun el =>
  dbind (dec_map (raw_of_json f MAttr) (field "attributes" m)) (fun attrs =>
  match mode with
  | MType => DOk (RawTy ty el attrs name, None, [])
  | MAttr => dbind (dec_req (field "required" m)) (fun req =>
             dbind (dec_annots_map (jget (k "annotations") m)) (fun an => DOk (RawTy ty el attrs name, req, an)))
  | MCommon => dbind (dec_annots_map (jget (k "annotations") m)) (fun an => DOk (RawTy ty el attrs name, None, an))
  end)))).
Proof.
  cbn [raw_of_json]. destruct (negb (struct_ok (mode_fields mode) m)); [reflexivity|].
  apply dbind_ext; intros ty. apply dbind_ext; intros name. apply dbind_ext; intros el. f_equal.
  unfold field. destruct (jget (k "attributes") m) as [[| | | | | |am]|]; try reflexivity.
  cbn [dec_map]. f_equal. f_equal. induction am as [|[key x] am IH]; [reflexivity|]. cbn [map]. rewrite <- IH. reflexivity.
Qed.

Lemma dec_annots_enc an : dec_annots_map (annots_json an) = DOk (rec_of_list an).
Proof.
  unfold annots_json. destruct an as [|a an]; [reflexivity|]. cbn [is_nil dec_annots_map].
  assert (H : forall l : list (str * str), dall (map (fun kv : str * json => match snd kv with JStr v => DOk (fst kv, v) | JNull => DOk (fst kv, []) | _ => DErr end) (mapv JStr l)) = DOk l).
  { induction l as [|[key v] l IH]; [reflexivity|]. rewrite sj_mapv_cons. cbn [map dall fst snd dbind]. rewrite IH. reflexivity. }
  rewrite H. cbn [dbind]. rewrite rec_of_list_idem. reflexivity.
Qed.

Lemma dec_annots_sorted an : keys_sorted an = true -> dec_annots_map (annots_json an) = DOk an.
Proof. intros H. rewrite dec_annots_enc, rec_of_list_sorted_id by exact H. reflexivity. Qed.

Lemma odups_annots an : odups (annots_json an) = false.
Proof.
  unfold annots_json. destruct (is_nil an); [reflexivity|].
  apply jdups_map_obj; [apply rec_of_list_sorted_gen | reflexivity].
Qed.

(* well-formed raw types: what raw_of_type produces *)
Fixpoint wf_raw (r : rawty) : bool :=
  match r with
  | RawTy ty el attrs name =>
      match el with Some e => wf_raw e | None => true end
      && keys_sorted attrs
      && (fix go (l : list (str * (rawty * option bool * annots))) : bool :=
            match l with [] => true | x :: rest => wf_raw (fst (fst (snd x))) && keys_sorted (snd (snd x)) && go rest end) attrs
  end.

Definition wf_rattr (a : rattr) : bool := wf_raw (fst (fst a)) && keys_sorted (snd a).

Lemma wf_raw_eq ty el attrs name :
  wf_raw (RawTy ty el attrs name) =
  match el with Some e => wf_raw e | None => true end && keys_sorted attrs && forallb (fun kv => wf_rattr (snd kv)) attrs.
Proof. reflexivity. Qed.

(* the parts of wf_raw, with the loop as a quantifier *)
Lemma wf_raw_inv ty el attrs name : wf_raw (RawTy ty el attrs name) = true ->
  (forall e, el = Some e -> wf_raw e = true) /\ keys_sorted attrs = true /\
  forall kv, In kv attrs -> wf_raw (fst (fst (snd kv))) = true /\ keys_sorted (snd (snd kv)) = true.
Proof.
  rewrite wf_raw_eq, !andb_true_iff, forallb_forall. intros [[He Hs] Ha]. split; [intros e ->; exact He|]. split; [exact Hs|].
  intros kv Hkv. apply andb_true_iff. exact (Ha kv Hkv).
Qed.

Definition mode_ok (mode : rmode) (req : option bool) (an : annots) : Prop :=
  match mode with MType => req = None /\ an = [] | MAttr => True | MCommon => req = None end.

Lemma raw_rt : forall r, wf_raw r = true -> forall mode req an f, mode_ok mode req an -> keys_sorted an = true ->
  (jdepth (JObj (json_members_of_raw r ++ reqj req ++ enc_annots an)) < f)%nat ->
  raw_of_json f mode (JObj (json_members_of_raw r ++ reqj req ++ enc_annots an)) = DOk (r, req, an).
Proof.
  induction r as [ty el attrs name IHel IHattrs] using rawty_ind'. intros Hwf mode req an f Hmode Han Hf.
  apply wf_raw_inv in Hwf. destruct Hwf as (Hwe & Hws & Hwa).
  destruct f as [|f]; [lia|]. rewrite tobj_eq in *. set (m := tmembers _ _ _ _ _ _) in *.
  pose proof (field_depth "element" m) as Hde. pose proof (field_depth "attributes" m) as Hda.
  rewrite raw_of_json_obj. unfold m in *. clear m. rewrite tm_element in Hde. rewrite tm_attributes in Hda.
  rewrite tm_struct_ok, tm_type, tm_name, tm_element, tm_attributes. cbn [negb dbind].
  assert (Hel : dec_el f (el_json el) = DOk el).
  { destruct el as [e|]; [|reflexivity]. specialize (Hde _ eq_refl). cbn [el_json option_map dec_el]. cbn [optP] in IHel.
    pose proof (IHel (Hwe e eq_refl) MType None [] f (conj eq_refl eq_refl) eq_refl) as H. rewrite <- tobj_nil in H.
    rewrite H by lia. reflexivity. }
  assert (Hat : dec_map (raw_of_json f MAttr) (attrs_json attrs) = DOk attrs).
  { unfold attrs_json in *. destruct (is_nil attrs) eqn:En; [destruct attrs; [reflexivity|discriminate]|].
    specialize (Hda _ eq_refl). rewrite <- (sj_mapv_id attrs) at 2. apply dec_map_mapv; [exact Hws|]. intros kv Hkv.
    pose proof (jdepth_obj_in _ (mapv attr_obj attrs) (in_map _ _ _ Hkv)) as Hdk.
    rewrite Forall_forall in IHattrs. destruct (Hwa kv Hkv) as [Hw1 Hw2]. destruct kv as [key [[t rq] a]].
    unfold attr_obj in Hdk at 1. cbn [fst snd] in Hdk, Hw1, Hw2 |- *.
    apply (IHattrs _ Hkv Hw1 MAttr rq a); [exact I | exact Hw2 | cbn [fst snd]; lia]. }
  rewrite Hel, Hat. cbn [dbind].
  destruct mode; cbn [mode_ok] in Hmode.
  - destruct Hmode as [-> ->]. reflexivity.
  - rewrite tm_required, tm_annotations, dec_annots_sorted by exact Han. destruct req; reflexivity.
  - subst req. rewrite tm_annotations, dec_annots_sorted by exact Han. reflexivity.
Qed.

Local Notation xattr := (xty * bool * annots)%type.

Fixpoint wf_ty (t : xty) : bool :=
  match t with
  | XSet e => wf_ty e
  | XRec fs => keys_sorted fs
               && (fix go (l : xrec) : bool :=
                     match l with [] => true | x :: rest => wf_ty (fst (fst (snd x))) && keys_sorted (snd (snd x)) && go rest end) fs
  | _ => true
  end.
Definition wf_xattr (a : xattr) : bool := wf_ty (fst (fst a)) && keys_sorted (snd a).

Lemma wf_ty_rec fs : wf_ty (XRec fs) = keys_sorted fs && forallb (fun kv : str * xattr => wf_xattr (snd kv)) fs.
Proof. reflexivity. Qed.

Lemma wf_ty_rec_inv fs : wf_ty (XRec fs) = true ->
  keys_sorted fs = true /\ forall kv, In kv fs -> wf_ty (fst (fst (snd kv))) = true /\ keys_sorted (snd (snd kv)) = true.
Proof.
  rewrite wf_ty_rec, andb_true_iff, forallb_forall. intros [Hs Ha]. split; [exact Hs|].
  intros kv Hkv. apply andb_true_iff. exact (Ha kv Hkv).
Qed.

Definition raw_attr (a : xattr) : rattr :=
  (raw_of_type (fst (fst a)), if snd (fst a) then Some false else None, rec_of_list (snd a)).

Lemma raw_of_type_rec fs : raw_of_type (XRec fs) = RawTy (k "Record") None (rec_of_list (mapv raw_attr fs)) [].
Proof.
  cbn [raw_of_type]. f_equal. f_equal.
  induction fs as [|[key [[t opt] an]] fs IH]; [reflexivity|]. rewrite sj_mapv_cons. cbn [fst snd]. rewrite <- IH. reflexivity.
Qed.

Lemma raw_of_type_rec_wf fs : keys_sorted fs = true -> raw_of_type (XRec fs) = RawTy (k "Record") None (mapv raw_attr fs) [].
Proof. intros H. rewrite raw_of_type_rec, rec_of_list_sorted_id; [reflexivity|]. rewrite sj_sorted_mapv. exact H. Qed.

Lemma wf_raw_of_type : forall t, wf_ty t = true -> wf_raw (raw_of_type t) = true.
Proof.
  induction t as [| | |n|t IH|fs IH|r|r] using xty_ind'; intros Hwf; try reflexivity.
  - cbn [raw_of_type]. rewrite wf_raw_eq. cbn [wf_ty] in Hwf. rewrite (IH Hwf). reflexivity.
  - apply wf_ty_rec_inv in Hwf. destruct Hwf as [Hs Hall].
    rewrite raw_of_type_rec_wf by exact Hs. rewrite wf_raw_eq, sj_sorted_mapv, Hs. cbn [andb].
    apply forallb_forall. intros kv Hkv. unfold mapv in Hkv. apply in_map_iff in Hkv. destruct Hkv as (x & <- & Hx).
    rewrite Forall_forall in IH. destruct (Hall x Hx) as [H1 H2].
    unfold wf_rattr, raw_attr. cbn [fst snd]. rewrite (IH x Hx H1). apply rec_of_list_sorted_gen.
Qed.

Definition type_attr (kv : str * rattr) : dres (str * xattr) :=
  dbind (type_of_raw (fst (fst (snd kv)))) (fun t' => DOk (fst kv, (t', match snd (fst (snd kv)) with Some false => true | _ => false end, snd (snd kv)))).

Lemma type_of_raw_eq ty el attrs name :
  type_of_raw (RawTy ty el attrs name) =
  if str_eqb ty (k "String") then DOk XString
  else if str_eqb ty (k "Long") then DOk XLong
  else if str_eqb ty (k "Boolean") then DOk XBool
  else if str_eqb ty (k "Extension") then DOk (XExt name)
  else if str_eqb ty (k "Set") then match el with None => DErr | Some e => dbind (type_of_raw e) (fun t => DOk (XSet t)) end
  else if str_eqb ty (k "Record") then dbind (dall (map type_attr attrs)) (fun fs => DOk (XRec fs))
  else if str_eqb ty (k "Entity") then DOk (XEnt name)
  else if str_eqb ty (k "EntityOrCommon") then DOk (XRef name)
  else DOk (XRef ty).
Proof.
  assert (H : forall l, map type_attr l =
    (fix go (l : list (str * (rawty * option bool * annots))) : list (dres (str * (xty * bool * annots))) :=
       match l with
       | [] => []
       | (key, (t, req, an)) :: rest =>
           dbind (type_of_raw t) (fun t' => DOk (key, (t', match req with Some false => true | _ => false end, an))) :: go rest
       end) l).
  { induction l as [|[key [[t req] an]] l IH]; [reflexivity|]. cbn [map]. rewrite IH. reflexivity. }
  rewrite H. reflexivity.
Qed.

Lemma type_of_raw_record el attrs name :
  type_of_raw (RawTy (k "Record") el attrs name) = dbind (dall (map type_attr attrs)) (fun fs => DOk (XRec fs)).
Proof. apply type_of_raw_eq. Qed.

Lemma type_of_raw_of_type : forall t, wf_ty t = true -> type_of_raw (raw_of_type t) = DOk t.
Proof.
  induction t as [| | |n|t IH|fs IH|r|r] using xty_ind'; intros Hwf; try reflexivity.
  - cbn [raw_of_type]. cbn [wf_ty] in Hwf. change (dbind (type_of_raw (raw_of_type t)) (fun t0 => DOk (XSet t0)) = DOk (XSet t)).
    rewrite (IH Hwf). reflexivity.
  - apply wf_ty_rec_inv in Hwf. destruct Hwf as [Hs Hall].
    rewrite raw_of_type_rec_wf by exact Hs. rewrite type_of_raw_record. unfold mapv. rewrite map_map.
    rewrite (dall_map_ok _ (fun kv => kv)), map_id; [reflexivity|].
    rewrite Forall_forall in IH |- *. intros [key [[t opt] an]] Hkv. destruct (Hall _ Hkv) as [H1 H2]. specialize (IH _ Hkv H1).
    unfold type_attr, raw_attr. cbn [fst snd] in *. rewrite IH, rec_of_list_sorted_id by exact H2. destruct opt; reflexivity.
Qed.

(* dec_type (enc_type t) *)
Lemma raw_of_enc_type t f : wf_ty t = true -> (jdepth (enc_type t) < f)%nat -> raw_of_json f MType (enc_type t) = DOk (raw_of_type t, None, []).
Proof.
  intros Hwf Hf. unfold enc_type in *. rewrite (tobj_nil (raw_of_type t)) in *.
  apply raw_rt; [apply wf_raw_of_type; exact Hwf | split; reflexivity | reflexivity | exact Hf].
Qed.

Lemma dec_enc_type t : wf_ty t = true -> dec_type (enc_type t) = DOk t.
Proof.
  intros Hwf. unfold dec_type. rewrite raw_of_enc_type by (auto; lia). cbn [dbind fst]. apply type_of_raw_of_type. exact Hwf.
Qed.

(* no repeated keys in type objects *)
Lemma jdups_raw : forall r, wf_raw r = true -> forall req an, jdups (JObj (json_members_of_raw r ++ reqj req ++ enc_annots an)) = false.
Proof.
  induction r as [ty el attrs name IHel IHattrs] using rawty_ind'. intros Hwf req an.
  apply wf_raw_inv in Hwf. destruct Hwf as (Hwe & Hws & Hwa). rewrite tobj_eq.
  apply jdups_sobj; [reflexivity|]. repeat constructor; cbn [snd].
  - apply odups_map. intros e ->. rewrite (tobj_nil e). apply IHel, Hwe. reflexivity.
  - unfold attrs_json. destruct (is_nil attrs); [reflexivity|]. apply jdups_map_obj; [exact Hws|].
    intros kv Hkv. rewrite Forall_forall in IHattrs. apply (IHattrs kv Hkv), Hwa, Hkv.
  - unfold name_json. destruct (is_nil name); reflexivity.
  - destruct req; reflexivity.
  - apply odups_annots.
Qed.

Lemma jdups_enc_type t : wf_ty t = true -> jdups (enc_type t) = false.
Proof. intros H. unfold enc_type. rewrite (tobj_nil (raw_of_type t)). apply jdups_raw. apply wf_raw_of_type. exact H. Qed.

Lemma dec_strs_arr l : dec_strs (Some (JArr (map JStr l))) = DOk l.
Proof.
  cbn [dec_strs]. induction l as [|x l IH]; [reflexivity|]. cbn [map dall dbind]. rewrite IH. reflexivity.
Qed.

Lemma dec_strs_list l : dec_strs (Some (jstr_list l)) = DOk l.
Proof. destruct l as [|x l]; [reflexivity|]. apply (dec_strs_arr (x :: l)). Qed.

Lemma jdups_strs l : jdups (JArr (map JStr l)) = false.
Proof. rewrite jdups_arr. apply existsb_false_Forall. apply Forall_forall. intros x Hx. apply in_map_iff in Hx. destruct Hx as (s & <- & _). reflexivity. Qed.

Lemma jdups_str_list l : jdups (jstr_list l) = false.
Proof. destruct l as [|x l]; [reflexivity|]. apply (jdups_strs (x :: l)). Qed.

(* sort_strs: the sorted lists (no element below its predecessor) are its fixed points *)
Definition hd_le (x : str) (l : list str) : bool := match l with [] => true | y :: _ => negb (str_ltb y x) end.
Fixpoint sorted_le (l : list str) : bool := match l with [] => true | x :: r => hd_le x r && sorted_le r end.

Lemma str_insert_sorted s l : sorted_le l = true -> sorted_le (str_insert s l) = true.
Proof.
  induction l as [|x r IH]; [reflexivity|]. cbn [sorted_le str_insert]. rewrite andb_true_iff. intros [Hh Hr].
  destruct (str_ltb x s) eqn:E; cbn [sorted_le hd_le].
  - rewrite (IH Hr), andb_true_r.
    destruct r as [|y r']; cbn [str_insert]; [|destruct (str_ltb y s)]; cbn [hd_le] in *; [|exact Hh|]; rewrite (str_ltb_asym _ _ E); reflexivity.
  - rewrite E, Hh, Hr. reflexivity.
Qed.

Lemma sort_strs_sorted l : sorted_le (sort_strs l) = true.
Proof. induction l as [|x l IH]; [reflexivity|]. apply str_insert_sorted. exact IH. Qed.

Lemma sort_strs_id l : sorted_le l = true -> sort_strs l = l.
Proof.
  induction l as [|x r IH]; [reflexivity|]. cbn [sorted_le]. rewrite andb_true_iff. intros [Hh Hr].
  change (str_insert x (sort_strs r) = x :: r). rewrite (IH Hr).
  destruct r as [|y r']; [reflexivity|]. cbn [str_insert hd_le] in *. apply negb_true_iff in Hh. rewrite Hh. reflexivity.
Qed.

Lemma sort_strs_idem l : sort_strs (sort_strs l) = sort_strs l.
Proof. apply sort_strs_id. apply sort_strs_sorted. Qed.

Lemma str_insert_perm s l : Permutation (s :: l) (str_insert s l).
Proof.
  induction l as [|x r IH]; [apply Permutation_refl|]. cbn [str_insert]. destruct (str_ltb x s); [|apply Permutation_refl].
  eapply Permutation_trans; [apply perm_swap|]. apply perm_skip. exact IH.
Qed.

Lemma sort_strs_perm l : Permutation l (sort_strs l).
Proof.
  induction l as [|x l IH]; [apply Permutation_refl|]. change (Permutation (x :: l) (str_insert x (sort_strs l))).
  eapply Permutation_trans; [apply perm_skip; exact IH | apply str_insert_perm].
Qed.

Lemma sort_strs_nil l : is_nil (sort_strs l) = is_nil l.
Proof.
  destruct l as [|x l]; [reflexivity|]. pose proof (sort_strs_perm (x :: l)) as H.
  destruct (sort_strs (x :: l)); [|reflexivity]. apply Permutation_sym, Permutation_nil in H. discriminate.
Qed.

Definition ent_members (op os ot oa oe : option json) : list (str * json) :=
  sobj [("memberOfTypes", op); ("shape", os); ("tags", ot); ("annotations", oa); ("enum", oe)]%string.

Lemma em_get_parents op os ot oa oe : jget (k "memberOfTypes") (ent_members op os ot oa oe) = op.
Proof. apply jget_sobj. reflexivity. Qed.
Lemma em_get_shape op os ot oa oe : jget (k "shape") (ent_members op os ot oa oe) = os.
Proof. apply jget_sobj. reflexivity. Qed.
Lemma em_get_tags op os ot oa oe : jget (k "tags") (ent_members op os ot oa oe) = ot.
Proof. apply jget_sobj. reflexivity. Qed.
Lemma em_get_annotations op os ot oa oe : jget (k "annotations") (ent_members op os ot oa oe) = oa.
Proof. apply jget_sobj. reflexivity. Qed.
Lemma em_get_enum op os ot oa oe : jget (k "enum") (ent_members op os ot oa oe) = oe.
Proof. apply jget_sobj. reflexivity. Qed.
Lemma em_struct_ok op os ot oa oe : struct_ok entity_fields (ent_members op os ot oa oe) = true.
Proof. apply struct_ok_sobj. reflexivity. Qed.

Definition parents_json (l : list str) : option json := if is_nil l then None else Some (JArr (map JStr (sort_strs l))).

Lemma enc_entity_eq e :
  enc_entity e = JObj (ent_members (parents_json (xe_parents e)) (option_map enc_type (option_map XRec (xe_shape e)))
                                   (option_map enc_type (xe_tags e)) (annots_json (xe_annots e)) None).
Proof.
  unfold enc_entity, ent_members, parents_json. rewrite enc_annots_eq.
  destruct (xe_parents e), (xe_shape e), (xe_tags e); reflexivity.
Qed.

Lemma enc_enum_eq e :
  enc_enum e = JObj (ent_members None None None (annots_json (xn_annots e)) (Some (JArr (map JStr (xn_values e))))).
Proof. unfold enc_enum, ent_members. rewrite enc_annots_eq. destruct (annots_json (xn_annots e)); reflexivity. Qed.

Definition opt_wf_ty (o : option xty) : bool := match o with Some t => wf_ty t | None => true end.
Definition wf_entity (e : x_entity) : bool :=
  keys_sorted (xe_annots e) && opt_wf_ty (option_map XRec (xe_shape e)) && opt_wf_ty (xe_tags e).
Definition wf_enum (e : x_enum) : bool := keys_sorted (xn_annots e).

Definition norm_entity (e : x_entity) : x_entity :=
  {| xe_annots := xe_annots e; xe_parents := sort_strs (xe_parents e); xe_shape := xe_shape e; xe_tags := xe_tags e |}.

Lemma dec_parents_json l : dec_strs (parents_json l) = DOk (sort_strs l).
Proof. unfold parents_json. destruct l as [|x l]; [reflexivity|]. cbn [is_nil]. apply dec_strs_arr. Qed.

(* the struct decode of a *jsonType member *)
Definition raw_opt (o : option json) : dres (option rawty) :=
  match o with None | Some JNull => DOk None
  | Some x => dbind (raw_of_json (S (jdepth x)) MType x) (fun r => DOk (Some (fst (fst r)))) end.

Lemma raw_opt_enc (o : option xty) : opt_wf_ty o = true -> raw_opt (option_map enc_type o) = DOk (option_map raw_of_type o).
Proof.
  destruct o as [t|]; [|reflexivity]. cbn [opt_wf_ty option_map]. intros Hwf.
  pose proof (raw_of_enc_type t (S (jdepth (enc_type t))) Hwf (Nat.lt_succ_diag_r _)) as H.
  unfold enc_type in *. cbn [raw_opt]. rewrite H. reflexivity.
Qed.

Lemma dec_enc_entity e : wf_entity e = true -> dec_entity_type (enc_entity e) = DOk (inl (norm_entity e)).
Proof.
  unfold wf_entity. rewrite !andb_true_iff. intros [[Hwa Hws] Hwt].
  rewrite enc_entity_eq. unfold dec_entity_type.
  rewrite em_struct_ok, em_get_parents, em_get_annotations, em_get_shape, em_get_tags, em_get_enum. cbn [negb].
  rewrite dec_parents_json, dec_annots_sorted by exact Hwa. cbn [dbind].
  pose proof (raw_opt_enc _ Hws) as Hs. pose proof (raw_opt_enc _ Hwt) as Ht. unfold raw_opt in Hs, Ht.
  rewrite Hs, Ht. cbn [dbind]. unfold norm_entity.
  assert (Htg : match option_map raw_of_type (xe_tags e) with None => DOk None | Some r => dbind (type_of_raw r) (fun t => DOk (Some t)) end
                = DOk (xe_tags e)).
  { destruct (xe_tags e) as [t|]; [|reflexivity]. cbn [option_map]. rewrite (type_of_raw_of_type t Hwt). reflexivity. }
  rewrite Htg. destruct (xe_shape e) as [r|]; cbn [option_map opt_wf_ty] in *; [|reflexivity].
  (* the shape's "type" member is overridden by "Record", which it is *)
  rewrite raw_of_type_rec. cbv iota. rewrite <- raw_of_type_rec, (type_of_raw_of_type _ Hws). reflexivity.
Qed.

Lemma dec_enc_enum e : wf_enum e = true -> dec_entity_type (enc_enum e) = DOk (inr e).
Proof.
  intros Hwf. unfold wf_enum in Hwf. rewrite enc_enum_eq. unfold dec_entity_type.
  rewrite em_struct_ok, em_get_parents, em_get_annotations, em_get_shape, em_get_tags, em_get_enum. cbn [negb].
  rewrite dec_annots_sorted, dec_strs_arr by exact Hwf. destruct e; reflexivity.
Qed.

Lemma odups_enc_type (o : option xty) : opt_wf_ty o = true -> odups (option_map enc_type o) = false.
Proof. intros H. apply odups_map. intros t ->. apply jdups_enc_type, H. Qed.

Lemma jdups_enc_entity e : wf_entity e = true -> jdups (enc_entity e) = false.
Proof.
  unfold wf_entity. rewrite !andb_true_iff. intros [[Hwa Hws] Hwt]. rewrite enc_entity_eq.
  apply jdups_sobj; [reflexivity|]. repeat constructor; cbn [snd].
  - unfold parents_json. destruct (is_nil (xe_parents e)); [reflexivity|apply jdups_strs].
  - apply odups_enc_type, Hws.
  - apply odups_enc_type, Hwt.
  - apply odups_annots.
Qed.

Lemma jdups_enc_enum e : jdups (enc_enum e) = false.
Proof.
  rewrite enc_enum_eq. apply jdups_sobj; [reflexivity|]. repeat constructor; cbn [snd]; [apply odups_annots | apply jdups_strs].
Qed.

Definition wf_common (c : x_common) : bool := keys_sorted (xc_annots c) && wf_ty (xc_type c).

Lemma dec_enc_common c : wf_common c = true -> dec_common (enc_common c) = DOk c.
Proof.
  unfold wf_common. rewrite andb_true_iff. intros [Hwa Hwt]. unfold dec_common, enc_common.
  rewrite (raw_rt _ (wf_raw_of_type _ Hwt) MCommon None (xc_annots c)); [|reflexivity|exact Hwa|apply Nat.lt_succ_diag_r].
  cbn [dbind fst snd]. rewrite (type_of_raw_of_type _ Hwt). destruct c; reflexivity.
Qed.

Lemma jdups_enc_common c : wf_common c = true -> jdups (enc_common c) = false.
Proof.
  unfold wf_common. rewrite andb_true_iff. intros [_ Hwt]. exact (jdups_raw _ (wf_raw_of_type _ Hwt) None (xc_annots c)).
Qed.

Definition app_members (vp vr : json) (oc : option json) : list (str * json) :=
  sobj [("principalTypes", Some vp); ("resourceTypes", Some vr); ("context", oc)]%string.
Lemma am_get_principals vp vr oc : jget (k "principalTypes") (app_members vp vr oc) = Some vp.
Proof. apply jget_sobj. reflexivity. Qed.
Lemma am_get_resources vp vr oc : jget (k "resourceTypes") (app_members vp vr oc) = Some vr.
Proof. apply jget_sobj. reflexivity. Qed.
Lemma am_get_context vp vr oc : jget (k "context") (app_members vp vr oc) = oc.
Proof. apply jget_sobj. reflexivity. Qed.
Lemma am_struct_ok vp vr oc : struct_ok applies_fields (app_members vp vr oc) = true.
Proof. apply struct_ok_sobj. reflexivity. Qed.

Lemma enc_applies_eq a :
  enc_applies a = JObj (app_members (jstr_list (xa_principals a)) (jstr_list (xa_resources a)) (option_map enc_type (xa_context a))).
Proof. unfold enc_applies, app_members. destruct (xa_context a); reflexivity. Qed.

Definition wf_applies (a : x_applies) : bool := opt_wf_ty (xa_context a).

Lemma dec_type_opt_enc (o : option xty) : opt_wf_ty o = true -> dec_type_opt (option_map enc_type o) = DOk o.
Proof.
  destruct o as [t|]; [|reflexivity]. cbn [opt_wf_ty option_map]. intros Hwf.
  pose proof (dec_enc_type t Hwf) as H. unfold enc_type in *. cbn [dec_type_opt]. rewrite H. reflexivity.
Qed.

Lemma dec_enc_applies a : wf_applies a = true -> dec_applies (enc_applies a) = DOk a.
Proof.
  intros Hwf. rewrite enc_applies_eq. unfold dec_applies.
  rewrite am_struct_ok, am_get_principals, am_get_resources, am_get_context, !dec_strs_list, (dec_type_opt_enc _ Hwf).
  destruct a; reflexivity.
Qed.

Lemma jdups_enc_applies a : wf_applies a = true -> jdups (enc_applies a) = false.
Proof.
  intros Hwf. rewrite enc_applies_eq. apply jdups_sobj; [reflexivity|].
  repeat constructor; cbn [snd odups]; [apply jdups_str_list | apply jdups_str_list | apply odups_enc_type, Hwf].
Qed.

Definition act_members (om oa oan : option json) : list (str * json) :=
  sobj [("memberOf", om); ("appliesTo", oa); ("annotations", oan)]%string.
Lemma acm_get_parents om oa oan : jget (k "memberOf") (act_members om oa oan) = om.
Proof. apply jget_sobj. reflexivity. Qed.
Lemma acm_get_applies om oa oan : jget (k "appliesTo") (act_members om oa oan) = oa.
Proof. apply jget_sobj. reflexivity. Qed.
Lemma acm_get_annotations om oa oan : jget (k "annotations") (act_members om oa oan) = oan.
Proof. apply jget_sobj. reflexivity. Qed.
Lemma acm_struct_ok om oa oan : struct_ok action_fields (act_members om oa oan) = true.
Proof. apply struct_ok_sobj. reflexivity. Qed.

Definition parent_obj (p : str * str) : json := JObj [(k "id", JStr (snd p)); (k "type", JStr (fst p))].
Definition aparents_json (l : list (str * str)) : option json := if is_nil l then None else Some (JArr (map parent_obj l)).

Lemma enc_action_eq a :
  enc_action a = JObj (act_members (aparents_json (xac_parents a)) (option_map enc_applies (xac_applies a)) (annots_json (xac_annots a))).
Proof.
  unfold enc_action, act_members, aparents_json. rewrite enc_annots_eq.
  destruct (xac_parents a), (xac_applies a); reflexivity.
Qed.

Definition wf_action (a : x_action) : bool :=
  keys_sorted (xac_annots a) && match xac_applies a with Some ap => wf_applies ap | None => true end.

Lemma dec_enc_action a : wf_action a = true -> dec_action (enc_action a) = DOk a.
Proof.
  unfold wf_action. rewrite andb_true_iff. intros [Hwa Hwp].
  rewrite enc_action_eq. unfold dec_action.
  rewrite acm_struct_ok, acm_get_parents, acm_get_applies, acm_get_annotations. cbn [negb].
  assert (H1 : match aparents_json (xac_parents a) with None | Some JNull => DOk [] | Some (JArr l) => dall (map dec_parent l) | Some _ => DErr end
               = DOk (xac_parents a)).
  { unfold aparents_json. destruct (is_nil (xac_parents a)) eqn:E; [destruct (xac_parents a); [reflexivity|discriminate]|].
    rewrite map_map, (dall_map_ok _ (fun p => p)), map_id; [reflexivity|]. apply Forall_forall. intros [t i] _. reflexivity. }
  assert (H2 : match option_map enc_applies (xac_applies a) with None | Some JNull => DOk None
               | Some x => dbind (dec_applies x) (fun a0 => DOk (Some a0)) end = DOk (xac_applies a)).
  { destruct (xac_applies a) as [ap|]; [|reflexivity]. cbn [option_map].
    pose proof (dec_enc_applies ap Hwp) as H. rewrite enc_applies_eq in *. rewrite H. reflexivity. }
  rewrite H1, H2, dec_annots_sorted by exact Hwa. destruct a; reflexivity.
Qed.

Lemma jdups_enc_action a : wf_action a = true -> jdups (enc_action a) = false.
Proof.
  unfold wf_action. rewrite andb_true_iff. intros [_ Hwp]. rewrite enc_action_eq.
  apply jdups_sobj; [reflexivity|]. repeat constructor; cbn [snd].
  - unfold aparents_json. destruct (is_nil (xac_parents a)); [reflexivity|]. cbn [odups]. rewrite jdups_arr, existsb_map.
    apply existsb_false_Forall, Forall_forall. intros [t i] _. reflexivity.
  - apply odups_map. intros ap E. rewrite E in Hwp. apply jdups_enc_applies, Hwp.
  - apply odups_annots.
Qed.

(* Entities and enums share one map: merging and splitting *)
Definition ins_all {A} (l acc : list (str * A)) : list (str * A) := fold_left (fun acc kv => rec_insert (fst kv) (snd kv) acc) l acc.

Lemma ins_all_sorted {A} (l acc : list (str * A)) : keys_sorted acc = true -> keys_sorted (ins_all l acc) = true.
Proof. revert acc. induction l as [|kv l IH]; intros acc H; [exact H|]. apply IH. apply rec_insert_sorted. exact H. Qed.

Lemma rec_of_list_app {A} (l1 l2 : list (str * A)) : rec_of_list (l1 ++ l2) = ins_all l2 (rec_of_list l1).
Proof. unfold rec_of_list, ins_all. apply fold_left_app. Qed.

Lemma split_sum_cons_inl {A B} key (a : A) (r : list (str * (A + B))) :
  split_sum ((key, inl a) :: r) = ((key, a) :: fst (split_sum r), snd (split_sum r)).
Proof. cbn [split_sum]. destruct (split_sum r). reflexivity. Qed.
Lemma split_sum_cons_inr {A B} key (b : B) (r : list (str * (A + B))) :
  split_sum ((key, inr b) :: r) = (fst (split_sum r), (key, b) :: snd (split_sum r)).
Proof. cbn [split_sum]. destruct (split_sum r). reflexivity. Qed.

Lemma split_sum_inl {A B} (es : list (str * A)) : split_sum (mapv (@inl A B) es) = (es, []).
Proof. induction es as [|[key a] es IH]; [reflexivity|]. rewrite sj_mapv_cons. cbn [fst snd]. rewrite split_sum_cons_inl, IH. reflexivity. Qed.

(* all keys of the right component are keys of the list *)
Lemma split_snd_keys {A B} (l : list (str * (A + B))) kv : In kv (snd (split_sum l)) -> In (fst kv) (map fst l).
Proof.
  induction l as [|[key [a|b]] l IH]; [intros []| |].
  - rewrite split_sum_cons_inl. cbn [snd map fst]. intros H. right. exact (IH H).
  - rewrite split_sum_cons_inr. cbn [snd map fst]. intros [<-|H]; [left; reflexivity | right; exact (IH H)].
Qed.

Lemma split_insert_inr {A B} key (b : B) (acc : list (str * (A + B))) :
  keys_sorted acc = true -> ~ In key (map fst (fst (split_sum acc))) ->
  split_sum (rec_insert key (inr b) acc) = (fst (split_sum acc), rec_insert key b (snd (split_sum acc))).
Proof.
  induction acc as [|[k' v'] acc IH]; intros Hs Hni; [reflexivity|].
  pose proof (keys_sorted_all_lt _ _ _ Hs) as HF. rewrite Forall_forall in HF. pose proof (sj_sorted_tail _ _ Hs) as Hs'.
  cbn [rec_insert]. destruct (str_ltb key k') eqn:E1.
  - rewrite split_sum_cons_inr. cbn [fst snd]. f_equal.
    (* key is below every key of the right component *)
    destruct (snd (split_sum ((k', v') :: acc))) as [|[k2 b2] r] eqn:Er; [reflexivity|].
    cbn [rec_insert]. assert (Hlt : str_ltb key k2 = true).
    { assert (Hin : In k2 (map fst ((k', v') :: acc))).
      { apply (split_snd_keys ((k', v') :: acc) (k2, b2)). rewrite Er. left. reflexivity. }
      cbn [map fst] in Hin. destruct Hin as [<-|Hin]; [exact E1|].
      apply in_map_iff in Hin. destruct Hin as (x & <- & Hx). eapply str_ltb_trans; [exact E1|]. apply HF. exact Hx. }
    rewrite Hlt. reflexivity.
  - destruct (str_eqb key k') eqn:E2.
    + apply str_eqb_eq in E2. subst k'. destruct v' as [a|b'].
      * exfalso. apply Hni. rewrite split_sum_cons_inl. left. reflexivity.
      * rewrite !split_sum_cons_inr. cbn [fst snd rec_insert]. rewrite E1, str_eqb_refl. reflexivity.
    + destruct v' as [a|b'].
      * rewrite !split_sum_cons_inl. cbn [fst snd].
        rewrite IH; [reflexivity|exact Hs'|]. intros Hin. apply Hni. rewrite split_sum_cons_inl. right. exact Hin.
      * rewrite !split_sum_cons_inr. cbn [fst snd rec_insert]. rewrite E1, E2.
        rewrite IH; [reflexivity|exact Hs'|]. intros Hin. apply Hni. rewrite split_sum_cons_inr. exact Hin.
Qed.

Lemma split_ins_all_inr {A B} (ens : list (str * B)) : forall (acc : list (str * (A + B))),
  keys_sorted acc = true -> (forall kv, In kv ens -> ~ In (fst kv) (map fst (fst (split_sum acc)))) ->
  split_sum (ins_all (mapv (@inr A B) ens) acc) = (fst (split_sum acc), ins_all ens (snd (split_sum acc))).
Proof.
  induction ens as [|[key b] ens IH]; intros acc Hs Hd.
  - cbn. destruct (split_sum acc). reflexivity.
  - rewrite sj_mapv_cons. cbn [fst snd]. unfold ins_all. cbn [fold_left fst snd]. fold (ins_all (mapv (@inr A B) ens) (rec_insert key (inr b) acc)).
    pose proof (split_insert_inr key b acc Hs (Hd (key, b) (or_introl eq_refl))) as Hi.
    rewrite IH; [|apply rec_insert_sorted; exact Hs|].
    + rewrite Hi. reflexivity.
    + intros kv Hkv. rewrite Hi. cbn [fst]. apply Hd. right. exact Hkv.
Qed.

Definition disjoint_keys {A B} (es : list (str * A)) (ens : list (str * B)) : bool :=
  forallb (fun kv : str * B => negb (mem (fst kv) (map fst es))) ens.

Lemma split_merge {A B} (es : list (str * A)) (ens : list (str * B)) :
  keys_sorted es = true -> keys_sorted ens = true -> disjoint_keys es ens = true ->
  split_sum (rec_of_list (mapv (@inl A B) es ++ mapv (@inr A B) ens)) = (es, ens).
Proof.
  intros Hes Hens Hd. rewrite rec_of_list_app.
  assert (Hl : rec_of_list (mapv (@inl A B) es) = mapv inl es). { apply rec_of_list_sorted_id. rewrite sj_sorted_mapv. exact Hes. }
  rewrite Hl, split_ins_all_inr.
  - rewrite split_sum_inl. cbn [fst snd]. f_equal. exact (rec_of_list_sorted_id ens Hens).
  - rewrite sj_sorted_mapv. exact Hes.
  - intros kv Hkv. rewrite split_sum_inl. cbn [fst]. unfold disjoint_keys in Hd. rewrite forallb_forall in Hd.
    specialize (Hd kv Hkv). apply negb_true_iff in Hd. intros Hin. apply mem_In in Hin. congruence.
Qed.

Definition ns_members (ve va : json) (oc oan : option json) : list (str * json) :=
  sobj [("entityTypes", Some ve); ("actions", Some va); ("commonTypes", oc); ("annotations", oan)]%string.
Lemma nm_get_entities ve va oc oan : jget (k "entityTypes") (ns_members ve va oc oan) = Some ve.
Proof. apply jget_sobj. reflexivity. Qed.
Lemma nm_get_actions ve va oc oan : jget (k "actions") (ns_members ve va oc oan) = Some va.
Proof. apply jget_sobj. reflexivity. Qed.
Lemma nm_get_commons ve va oc oan : jget (k "commonTypes") (ns_members ve va oc oan) = oc.
Proof. apply jget_sobj. reflexivity. Qed.
Lemma nm_get_annotations ve va oc oan : jget (k "annotations") (ns_members ve va oc oan) = oan.
Proof. apply jget_sobj. reflexivity. Qed.
Lemma nm_struct_ok ve va oc oan : struct_ok ns_fields (ns_members ve va oc oan) = true.
Proof. apply struct_ok_sobj. reflexivity. Qed.

Definition enc_et (x : x_entity + x_enum) : json := match x with inl e => enc_entity e | inr n => enc_enum n end.
Definition norm_et (x : x_entity + x_enum) : x_entity + x_enum := match x with inl e => inl (norm_entity e) | inr n => inr n end.
Definition wf_et (x : x_entity + x_enum) : bool := match x with inl e => wf_entity e | inr n => wf_enum n end.
Definition ets_of (n : x_ns) : list (str * (x_entity + x_enum)) := rec_of_list (mapv inl (xs_entities n) ++ mapv inr (xs_enums n)).
Definition commons_json (cs : list (str * x_common)) : option json := if is_nil cs then None else Some (JObj (mapv enc_common cs)).

Definition wf_ns (n : x_ns) : bool :=
  keys_sorted (xs_annots n)
  && keys_sorted (xs_entities n) && forallb (fun kv => wf_entity (snd kv)) (xs_entities n)
  && keys_sorted (xs_enums n) && forallb (fun kv => wf_enum (snd kv)) (xs_enums n)
  && disjoint_keys (xs_entities n) (xs_enums n)
  && keys_sorted (xs_commons n) && forallb (fun kv => wf_common (snd kv)) (xs_commons n)
  && keys_sorted (xs_actions n) && forallb (fun kv => wf_action (snd kv)) (xs_actions n).

Record wf_ns_p (n : x_ns) : Prop := {
  wn_annots : keys_sorted (xs_annots n) = true;
  wn_es : keys_sorted (xs_entities n) = true;
  wn_es_wf : forall kv, In kv (xs_entities n) -> wf_entity (snd kv) = true;
  wn_ens : keys_sorted (xs_enums n) = true;
  wn_ens_wf : forall kv, In kv (xs_enums n) -> wf_enum (snd kv) = true;
  wn_disj : disjoint_keys (xs_entities n) (xs_enums n) = true;
  wn_cs : keys_sorted (xs_commons n) = true;
  wn_cs_wf : forall kv, In kv (xs_commons n) -> wf_common (snd kv) = true;
  wn_as : keys_sorted (xs_actions n) = true;
  wn_as_wf : forall kv, In kv (xs_actions n) -> wf_action (snd kv) = true }.

Lemma wf_ns_iff n : wf_ns n = true <-> wf_ns_p n.
Proof.
  unfold wf_ns. split.
  - intros H. repeat (apply andb_true_iff in H; destruct H as [H ?]). constructor; try assumption; apply forallb_forall; assumption.
  - intros [H1 H2 H3 H4 H5 H6 H7 H8 H9 H10]. repeat (apply andb_true_iff; split); try assumption; apply forallb_forall; assumption.
Qed.

Lemma enc_ns_eq bare n :
  keys_sorted (xs_commons n) = true -> keys_sorted (xs_actions n) = true ->
  enc_ns bare n = JObj (ns_members (JObj (mapv enc_et (ets_of n))) (JObj (mapv enc_action (xs_actions n)))
                                   (commons_json (xs_commons n)) (if bare then None else annots_json (xs_annots n))).
Proof.
  intros Hc Ha. unfold enc_ns, ns_members, commons_json, ets_of.
  assert (H1 : mapv enc_entity (xs_entities n) ++ mapv enc_enum (xs_enums n) = mapv enc_et (mapv inl (xs_entities n) ++ mapv inr (xs_enums n))).
  { unfold mapv. rewrite map_app, !map_map. reflexivity. }
  rewrite H1, !rec_of_list_mapv, (rec_of_list_sorted_id _ Hc), (rec_of_list_sorted_id _ Ha), enc_annots_eq.
  destruct (xs_commons n), bare; reflexivity.
Qed.

Definition norm_ns (n : x_ns) : x_ns :=
  {| xs_annots := xs_annots n; xs_entities := mapv norm_entity (xs_entities n); xs_enums := xs_enums n;
     xs_commons := xs_commons n; xs_actions := xs_actions n |}.

Lemma split_sum_norm (l : list (str * (x_entity + x_enum))) :
  split_sum (mapv norm_et l) = (mapv norm_entity (fst (split_sum l)), snd (split_sum l)).
Proof.
  induction l as [|[key [e|en]] l IH]; [reflexivity| |]; rewrite sj_mapv_cons; cbn [fst snd norm_et].
  - rewrite !split_sum_cons_inl, IH. reflexivity.
  - rewrite !split_sum_cons_inr, IH. reflexivity.
Qed.

Lemma ets_of_Forall (P : x_entity + x_enum -> Prop) n :
  (forall kv, In kv (xs_entities n) -> P (inl (snd kv))) -> (forall kv, In kv (xs_enums n) -> P (inr (snd kv))) ->
  forall kv, In kv (ets_of n) -> P (snd kv).
Proof.
  intros H1 H2. apply Forall_forall. unfold ets_of. apply rec_of_list_Forall. apply Forall_app. split; apply Forall_forall; intros kv Hkv;
    unfold mapv in Hkv; apply in_map_iff in Hkv; destruct Hkv as (x & <- & Hx); cbn [snd]; auto.
Qed.

Lemma dec_enc_ns bare n : wf_ns n = true -> (bare = true -> xs_annots n = []) -> dec_ns (enc_ns bare n) = DOk (norm_ns n).
Proof.
  intros Hwf Hbare. apply wf_ns_iff in Hwf. destruct Hwf as [Han Hes Hesw Hens Hensw Hdj Hcs Hcsw Has Hasw].
  rewrite (enc_ns_eq bare n Hcs Has). unfold dec_ns.
  rewrite nm_struct_ok, nm_get_entities, nm_get_actions, nm_get_commons, nm_get_annotations. cbn [negb].
  rewrite (dec_map_mapv enc_et dec_entity_type norm_et (ets_of n)).
  2:{ apply rec_of_list_sorted_gen. }
  2:{ apply (ets_of_Forall (fun x => dec_entity_type (enc_et x) = DOk (norm_et x))); intros kv Hkv; cbn [enc_et norm_et].
      - apply dec_enc_entity. apply Hesw. exact Hkv.
      - apply dec_enc_enum. apply Hensw. exact Hkv. }
  cbn [dbind].
  rewrite (dec_map_mapv enc_action dec_action (fun a => a) (xs_actions n) Has) by (intros kv Hkv; apply dec_enc_action; apply Hasw; exact Hkv).
  cbn [dbind].
  assert (Hc : dec_map dec_common (commons_json (xs_commons n)) = DOk (xs_commons n)).
  { unfold commons_json. destruct (is_nil (xs_commons n)) eqn:E.
    - destruct (xs_commons n); [reflexivity|discriminate].
    - rewrite (dec_map_mapv enc_common dec_common (fun c => c) (xs_commons n) Hcs) by (intros kv Hkv; apply dec_enc_common; apply Hcsw; exact Hkv).
      rewrite sj_mapv_id. reflexivity. }
  rewrite Hc. cbn [dbind].
  assert (Ha : dec_annots_map (if bare then None else annots_json (xs_annots n)) = DOk (xs_annots n)).
  { destruct bare; [rewrite Hbare by reflexivity; reflexivity | apply dec_annots_sorted; exact Han]. }
  rewrite Ha. cbn [dbind].
  rewrite split_sum_norm. unfold ets_of. rewrite (split_merge _ _ Hes Hens Hdj). cbn [fst snd]. rewrite sj_mapv_id. reflexivity.
Qed.

Lemma jdups_enc_ns bare n : wf_ns n = true -> jdups (enc_ns bare n) = false.
Proof.
  intros Hwf. apply wf_ns_iff in Hwf. destruct Hwf as [Han Hes Hesw Hens Hensw Hdj Hcs Hcsw Has Hasw].
  rewrite (enc_ns_eq bare n Hcs Has). apply jdups_sobj; [reflexivity|]. repeat constructor; cbn [snd odups].
  - apply jdups_map_obj; [apply rec_of_list_sorted_gen|].
    apply (ets_of_Forall (fun x => jdups (enc_et x) = false)); intros kv Hkv; cbn [enc_et];
      [apply jdups_enc_entity, Hesw, Hkv | apply jdups_enc_enum].
  - apply jdups_map_obj; [exact Has|]. intros kv Hkv. apply jdups_enc_action, Hasw, Hkv.
  - unfold commons_json. destruct (is_nil (xs_commons n)); [reflexivity|].
    apply jdups_map_obj; [exact Hcs|]. intros kv Hkv. apply jdups_enc_common, Hcsw, Hkv.
  - destruct bare; [reflexivity | apply odups_annots].
Qed.

Definition wf_schema (s : x_schema) : bool :=
  keys_sorted s
  && forallb (fun kv : str * x_ns => wf_ns (snd kv) && match fst kv with [] => is_nil (xs_annots (snd kv)) | _ => true end) s.

(* the namespaces that are written: all named ones, the bare one only if it declares something *)
Definition ns_keep (kv : str * x_ns) : bool := negb (is_nil (fst kv)) || has_decls (snd kv).
Definition norm_schema (s : x_schema) : x_schema := mapv norm_ns (filter ns_keep s).

Definition enc_ns_kv (kv : str * x_ns) : str * json := (fst kv, enc_ns (is_nil (fst kv)) (snd kv)).

Lemma enc_schema_members s :
  flat_map (fun kv : str * x_ns =>
              match fst kv with
              | [] => if has_decls (snd kv) then [([], enc_ns true (snd kv))] else []
              | name => [(name, enc_ns false (snd kv))]
              end) s = map enc_ns_kv (filter ns_keep s).
Proof.
  induction s as [|[name n] s IH]; [reflexivity|]. cbn [flat_map filter]. rewrite IH. unfold ns_keep, enc_ns_kv. cbn [fst snd].
  destruct name as [|c name]; cbn [is_nil negb orb]; [destruct (has_decls n)|]; reflexivity.
Qed.

Lemma enc_ns_kv_sorted l : keys_sorted (map enc_ns_kv l) = keys_sorted l.
Proof. apply keys_sorted_ext. rewrite map_map. reflexivity. Qed.

Lemma enc_schema_eq s : keys_sorted s = true -> enc_schema s = JObj (map enc_ns_kv (filter ns_keep s)).
Proof.
  intros Hs. unfold enc_schema. rewrite enc_schema_members. f_equal. apply rec_of_list_sorted_id.
  rewrite enc_ns_kv_sorted. apply sj_sorted_filter. exact Hs.
Qed.

Definition dec_ns_kv (kv : str * json) : dres (str * x_ns) :=
  dbind (dec_ns (snd kv)) (fun n =>
  DOk (fst kv, match fst kv with
               | [] => {| xs_annots := []; xs_entities := xs_entities n; xs_enums := xs_enums n;
                          xs_commons := xs_commons n; xs_actions := xs_actions n |}
               | _ => n end)).

Lemma wf_schema_in s kv : wf_schema s = true -> In kv s -> wf_ns (snd kv) = true /\ (is_nil (fst kv) = true -> xs_annots (snd kv) = []).
Proof.
  unfold wf_schema. rewrite andb_true_iff, forallb_forall. intros [_ H] Hin. specialize (H kv Hin). apply andb_true_iff in H.
  destruct H as [H1 H2]. split; [exact H1|]. intros Hn. destruct (fst kv); [|discriminate]. destruct (xs_annots (snd kv)); [reflexivity|discriminate].
Qed.

Theorem dec_enc_schema : forall s, wf_schema s = true -> dec_schema (enc_schema s) = DOk (norm_schema s).
Proof.
  intros s Hwf. assert (Hs : keys_sorted s = true) by (unfold wf_schema in Hwf; apply andb_true_iff in Hwf; tauto).
  assert (Hsf : keys_sorted (filter ns_keep s) = true) by (apply sj_sorted_filter; exact Hs).
  unfold dec_schema. rewrite any_dups_jdups by lia.
  rewrite (enc_schema_eq s Hs).
  assert (Hd : jdups (JObj (map enc_ns_kv (filter ns_keep s))) = false).
  { rewrite jdups_obj, has_dups_sorted by (rewrite enc_ns_kv_sorted; exact Hsf). apply existsb_false_Forall. apply Forall_forall. intros kv Hkv. apply in_map_iff in Hkv.
    destruct Hkv as (x & <- & Hx). apply filter_In in Hx. destruct Hx as [Hx _]. cbn [enc_ns_kv snd].
    apply jdups_enc_ns. apply (wf_schema_in s x Hwf Hx). }
  rewrite Hd. fold dec_ns_kv.
  assert (Hall : dall (map dec_ns_kv (map enc_ns_kv (filter ns_keep s))) = DOk (norm_schema s)).
  { unfold norm_schema, mapv. rewrite map_map. apply dall_map_ok. apply Forall_forall. intros kv Hkv.
    apply filter_In in Hkv. destruct Hkv as [Hkv _]. destruct (wf_schema_in s kv Hwf Hkv) as [Hn Hb].
    unfold dec_ns_kv, enc_ns_kv. cbn [fst snd]. rewrite (dec_enc_ns _ _ Hn Hb). cbn [dbind].
    destruct (fst kv) eqn:E; [|reflexivity]. rewrite <- (Hb eq_refl). reflexivity. }
  rewrite Hall. cbn [dbind]. f_equal. apply rec_of_list_sorted_id. unfold norm_schema. rewrite sj_sorted_mapv. exact Hsf.
Qed.

Lemma norm_entity_idem e : norm_entity (norm_entity e) = norm_entity e.
Proof. unfold norm_entity. cbn. rewrite sort_strs_idem. reflexivity. Qed.

Lemma norm_ns_idem n : norm_ns (norm_ns n) = norm_ns n.
Proof.
  unfold norm_ns. cbn [xs_annots xs_entities xs_enums xs_commons xs_actions]. f_equal. rewrite sj_mapv_mapv. apply sj_mapv_ext_in. intros kv _. apply norm_entity_idem.
Qed.

Lemma is_nil_mapv {A B} (g : A -> B) l : is_nil (mapv g l) = is_nil l.
Proof. destruct l; reflexivity. Qed.

Lemma has_decls_norm n : has_decls (norm_ns n) = has_decls n.
Proof. unfold has_decls, norm_ns. cbn [xs_annots xs_entities xs_enums xs_commons xs_actions]. rewrite is_nil_mapv. reflexivity. Qed.

Lemma filter_keep_norm l : filter ns_keep (mapv norm_ns l) = mapv norm_ns (filter ns_keep l).
Proof.
  induction l as [|[name n] l IH]; [reflexivity|]. rewrite sj_mapv_cons. cbn [filter fst snd]. rewrite IH.
  unfold ns_keep. cbn [fst snd]. rewrite has_decls_norm. destruct (negb (is_nil name) || has_decls n); reflexivity.
Qed.

Lemma filter_idem {A} (p : A -> bool) l : filter p (filter p l) = filter p l.
Proof. induction l as [|x l IH]; [reflexivity|]. cbn [filter]. destruct (p x) eqn:E; [cbn [filter]; rewrite E, IH; reflexivity | exact IH]. Qed.

Lemma keep_norm_schema s : filter ns_keep (norm_schema s) = norm_schema s.
Proof. unfold norm_schema. rewrite filter_keep_norm, filter_idem. reflexivity. Qed.

Theorem norm_idempotent_gen : forall s, norm_schema (norm_schema s) = norm_schema s.
Proof.
  intros s. unfold norm_schema at 1. rewrite keep_norm_schema. unfold norm_schema. rewrite sj_mapv_mapv.
  apply sj_mapv_ext_in. intros kv _. apply norm_ns_idem.
Qed.

Lemma wf_ns_norm n : wf_ns n = true -> wf_ns (norm_ns n) = true.
Proof.
  intros Hwf. apply wf_ns_iff in Hwf. destruct Hwf as [Han Hes Hesw Hens Hensw Hdj Hcs Hcsw Has Hasw].
  apply wf_ns_iff. constructor; cbn [norm_ns xs_annots xs_entities xs_enums xs_commons xs_actions]; auto.
  - rewrite sj_sorted_mapv. exact Hes.
  - intros kv Hkv. unfold mapv in Hkv. apply in_map_iff in Hkv. destruct Hkv as (x & <- & Hx). exact (Hesw x Hx).
  - unfold disjoint_keys in *. rewrite sj_mapv_keys. exact Hdj.
Qed.

Theorem wf_norm_schema : forall s, wf_schema s = true -> wf_schema (norm_schema s) = true.
Proof.
  intros s Hwf. assert (Hs : keys_sorted s = true) by (unfold wf_schema in Hwf; apply andb_true_iff in Hwf; tauto).
  unfold wf_schema. apply andb_true_iff. split.
  - unfold norm_schema. rewrite sj_sorted_mapv. apply sj_sorted_filter. exact Hs.
  - apply forallb_forall. intros kv Hkv. unfold norm_schema, mapv in Hkv. apply in_map_iff in Hkv. destruct Hkv as (x & <- & Hx).
    apply filter_In in Hx. destruct Hx as [Hx _]. destruct (wf_schema_in s x Hwf Hx) as [Hn Hb]. cbn [fst snd].
    rewrite (wf_ns_norm _ Hn). cbn [andb norm_ns xs_annots]. destruct (fst x); [|reflexivity]. rewrite (Hb eq_refl). reflexivity.
Qed.

Theorem norm_idempotent : forall s, wf_schema s = true -> norm_schema (norm_schema s) = norm_schema s /\ wf_schema (norm_schema s) = true.
Proof. intros s Hwf. split; [apply norm_idempotent_gen | apply wf_norm_schema; exact Hwf]. Qed.

Lemma enc_entity_norm e : enc_entity (norm_entity e) = enc_entity e.
Proof. unfold enc_entity, norm_entity. cbn [xe_parents xe_shape xe_tags xe_annots]. rewrite sort_strs_idem, sort_strs_nil. reflexivity. Qed.

Lemma enc_ns_norm bare n : enc_ns bare (norm_ns n) = enc_ns bare n.
Proof.
  unfold enc_ns, norm_ns. cbn [xs_annots xs_entities xs_enums xs_commons xs_actions].
  rewrite sj_mapv_mapv, (sj_mapv_ext_in (fun x => enc_entity (norm_entity x)) enc_entity) by (intros kv _; apply enc_entity_norm). reflexivity.
Qed.

Theorem second_roundtrip_gen : forall s, enc_schema (norm_schema s) = enc_schema s.
Proof.
  intros s. unfold enc_schema. rewrite !enc_schema_members, keep_norm_schema. unfold norm_schema, mapv. rewrite map_map.
  f_equal. f_equal. apply map_ext. intros kv. unfold enc_ns_kv. cbn [fst snd]. rewrite enc_ns_norm. reflexivity.
Qed.

Corollary second_roundtrip : forall s, wf_schema s = true -> enc_schema (norm_schema s) = enc_schema s.
Proof. intros s _. apply second_roundtrip_gen. Qed.

Corollary dec_enc_twice : forall s, wf_schema s = true -> dec_schema (enc_schema (norm_schema s)) = DOk (norm_schema s).
Proof. intros s Hwf. rewrite second_roundtrip_gen. apply dec_enc_schema. exact Hwf. Qed.

(* [auto with nofuel]: a dbind / dall chain of parts that never answer DFuel does not either; case distinctions on the way are split.
   Each dbind, dall and match on the way costs one unit of depth; the longest chain (in dec_entity_type) needs 14, which is used throughout. *)
#[local] Hint Resolve dbind_nofuel dall_map_nofuel dec_map_nofuel sfield_nofuel : nofuel.
#[local] Hint Extern 1 (_ <> DFuel) => discriminate : nofuel.
#[local] Hint Extern 2 (match ?x with _ => _ end <> DFuel) => destruct x : nofuel.

Lemma dec_annots_nofuel o : dec_annots_map o <> DFuel.
Proof. unfold dec_annots_map. auto 14 with nofuel. Qed.

Lemma dec_strs_nofuel o : dec_strs o <> DFuel.
Proof. unfold dec_strs. auto 14 with nofuel. Qed.

#[local] Hint Resolve dec_annots_nofuel dec_strs_nofuel : nofuel.

Lemma raw_of_json_nofuel : forall f mode j, (jdepth j <= f)%nat -> raw_of_json f mode j <> DFuel.
Proof.
  induction f as [|f IH]; intros mode j Hj.
  - pose proof (jdepth_pos j). lia.
  - destruct j as [| | | | | |m]; try discriminate. rewrite raw_of_json_obj.
    assert (He : dec_el f (field "element" m) <> DFuel).
    { destruct (field "element" m) as [e|] eqn:E; [|discriminate]. apply field_depth in E.
      apply dbind_nofuel; [apply IH; lia | discriminate]. }
    assert (Ha : dec_map (raw_of_json f MAttr) (field "attributes" m) <> DFuel).
    { apply dec_map_nofuel. intros am kv E Hkv. apply field_depth in E. pose proof (jdepth_obj_in kv am Hkv). apply IH. lia. }
    unfold dec_req. auto 14 with nofuel.
Qed.

Lemma type_of_raw_nofuel : forall r, type_of_raw r <> DFuel.
Proof.
  induction r as [ty el attrs name IHel IHattrs] using rawty_ind'. rewrite type_of_raw_eq. rewrite Forall_forall in IHattrs.
  unfold type_attr. destruct el; cbn [optP] in IHel; auto 14 with nofuel.
Qed.

Lemma raw_of_json_top_nofuel mode j : raw_of_json (S (jdepth j)) mode j <> DFuel.
Proof. apply raw_of_json_nofuel. lia. Qed.

#[local] Hint Resolve raw_of_json_top_nofuel type_of_raw_nofuel : nofuel.

Lemma dec_type_nofuel j : dec_type j <> DFuel.
Proof. unfold dec_type. auto 14 with nofuel. Qed.

Lemma dec_entity_type_nofuel j : dec_entity_type j <> DFuel.
Proof. unfold dec_entity_type. auto 14 with nofuel. Qed.

Lemma dec_parent_nofuel j : dec_parent j <> DFuel.
Proof. unfold dec_parent. auto 14 with nofuel. Qed.

#[local] Hint Resolve dec_type_nofuel dec_parent_nofuel : nofuel.

Lemma dec_applies_nofuel j : dec_applies j <> DFuel.
Proof. unfold dec_applies, dec_type_opt. auto 14 with nofuel. Qed.

#[local] Hint Resolve dec_applies_nofuel : nofuel.

Lemma dec_action_nofuel j : dec_action j <> DFuel.
Proof. unfold dec_action. auto 14 with nofuel. Qed.

Lemma dec_common_nofuel j : dec_common j <> DFuel.
Proof. unfold dec_common. auto 14 with nofuel. Qed.

#[local] Hint Resolve dec_entity_type_nofuel dec_action_nofuel dec_common_nofuel : nofuel.

Lemma dec_ns_nofuel j : dec_ns j <> DFuel.
Proof. unfold dec_ns. auto 14 with nofuel. Qed.

Theorem dec_schema_total : forall j, dec_schema j <> DFuel.
Proof. intros j. pose proof dec_ns_nofuel. unfold dec_schema. auto 14 with nofuel. Qed.

(* norm_schema on what the resolver reads (erase_norm_schema) *)
Definition sort_parents (e : s_entity) : s_entity :=
  {| se_name := se_name e; se_parents := sort_strs (se_parents e); se_shape := se_shape e; se_tags := se_tags e |}.
Definition norm_s_ns (ns : s_ns) : s_ns :=
  {| sn_name := sn_name ns; sn_entities := map sort_parents (sn_entities ns); sn_enums := sn_enums ns;
     sn_commons := sn_commons ns; sn_actions := sn_actions ns |}.
Definition s_keep (ns : s_ns) : bool :=
  negb (is_nil (sn_name ns)) || negb (is_nil (sn_entities ns) && is_nil (sn_enums ns) && is_nil (sn_actions ns) && is_nil (sn_commons ns)).
Definition norm_s (S : s_schema) : s_schema := map norm_s_ns (filter s_keep S).

Lemma sj_filter_map {A B} (p : B -> bool) (g : A -> B) l : filter p (map g l) = map g (filter (fun x => p (g x)) l).
Proof. induction l as [|x l IH]; [reflexivity|]. cbn [map filter]. rewrite IH. destruct (p (g x)); reflexivity. Qed.

Lemma is_nil_map {A B} (g : A -> B) l : is_nil (map g l) = is_nil l.
Proof. destruct l; reflexivity. Qed.

Lemma erase_norm_schema s : erase (norm_schema s) = norm_s (erase s).
Proof.
  unfold erase, norm_schema, norm_s. rewrite sj_filter_map.
  assert (Hf : filter (fun x => s_keep (erase_ns x)) s = filter ns_keep s).
  { apply filter_ext. intros [name n]. unfold s_keep, ns_keep, has_decls, erase_ns. cbn [fst snd sn_name sn_entities sn_enums sn_commons sn_actions].
    rewrite !is_nil_map. reflexivity. }
  rewrite Hf. unfold mapv. rewrite !map_map. apply map_ext. intros [name n].
  unfold erase_ns, norm_s_ns, norm_ns. cbn [fst snd sn_name sn_entities sn_enums sn_commons sn_actions xs_annots xs_entities xs_enums xs_commons xs_actions].
  f_equal. unfold mapv. rewrite !map_map. reflexivity.
Qed.

Lemma sj_is_nil_true {A} (l : list A) : is_nil l = true -> l = [].
Proof. destruct l; [reflexivity|discriminate]. Qed.

Lemma s_keep_false ns : s_keep ns = false ->
  sn_name ns = [] /\ sn_entities ns = [] /\ sn_enums ns = [] /\ sn_commons ns = [] /\ sn_actions ns = [].
Proof.
  unfold s_keep. rewrite orb_false_iff, !negb_false_iff, !andb_true_iff.
  intros (H1 & ((H2 & H3) & H4) & H5). repeat split; apply sj_is_nil_true; assumption.
Qed.

(* the only namespace norm_s drops *)
Definition s_empty_ns : s_ns := {| sn_name := []; sn_entities := []; sn_enums := []; sn_commons := []; sn_actions := [] |}.

Lemma s_keep_empty ns : s_keep ns = false -> ns = s_empty_ns.
Proof. intros H. destruct (s_keep_false ns H) as (? & ? & ? & ? & ?). destruct ns; cbn in *; subst; reflexivity. Qed.

(* folds over a schema see neither the dropping of s_empty_ns nor a per-namespace change g they are insensitive to (g is norm_s_ns here) *)
Lemma existsb_nf (g : s_ns -> s_ns) (Q : s_ns -> bool) S :
  (forall ns, Q (g ns) = Q ns) -> Q s_empty_ns = false -> existsb Q (map g (filter s_keep S)) = existsb Q S.
Proof.
  intros H1 H2. induction S as [|ns S IH]; [reflexivity|]. cbn [filter existsb].
  destruct (s_keep ns) eqn:E; [cbn [map existsb]; rewrite H1, IH; reflexivity | rewrite IH, (s_keep_empty ns E), H2; reflexivity].
Qed.

Lemma flat_map_nf {B} (g : s_ns -> s_ns) (h : B -> B) (F : s_ns -> list B) S :
  (forall ns, F (g ns) = map h (F ns)) -> F s_empty_ns = [] -> flat_map F (map g (filter s_keep S)) = map h (flat_map F S).
Proof.
  intros H1 H2. induction S as [|ns S IH]; [reflexivity|]. cbn [filter flat_map]. rewrite map_app.
  destruct (s_keep ns) eqn:E; [cbn [map flat_map]; rewrite H1, IH; reflexivity | rewrite IH, (s_keep_empty ns E), H2; reflexivity].
Qed.

Lemma flat_map_nf_id {B} (g : s_ns -> s_ns) (F : s_ns -> list B) S :
  (forall ns, F (g ns) = F ns) -> F s_empty_ns = [] -> flat_map F (map g (filter s_keep S)) = flat_map F S.
Proof. intros H1 H2. rewrite (flat_map_nf g (fun x => x)), map_id; [reflexivity | intros ns; rewrite map_id; apply H1 | exact H2]. Qed.

Lemma flat_map_filter {A B} (p : A -> bool) (F : A -> list B) l : flat_map F (filter p l) = flat_map (fun x => if p x then F x else []) l.
Proof. induction l as [|x l IH]; [reflexivity|]. cbn [filter flat_map]. destruct (p x); cbn [flat_map]; rewrite IH; reflexivity. Qed.

Lemma existsb_filter {A} (p q : A -> bool) l : existsb q (filter p l) = existsb (fun x => p x && q x) l.
Proof. induction l as [|x l IH]; [reflexivity|]. cbn [filter existsb]. destruct (p x); cbn [existsb andb]; rewrite IH; reflexivity. Qed.

Lemma map_name_sort l : map se_name (map sort_parents l) = map se_name l.
Proof. rewrite map_map. reflexivity. Qed.

(* in both, the side conditions say that norm_s_ns keeps what is read (the entities' names, and all the rest) and that nothing is read from s_empty_ns *)
Lemma register_norm S : register (norm_s S) = register S.
Proof.
  unfold register, norm_s. rewrite (existsb_nf norm_s_ns _ S), !(flat_map_nf_id norm_s_ns _ S); try reflexivity;
    intros ns; cbn [norm_s_ns sn_entities sn_name sn_enums]; rewrite ?existsb_map, ?map_map; reflexivity.
Qed.

Lemma shadowing_norm S : shadowing_ok (norm_s S) = shadowing_ok S.
Proof.
  unfold shadowing_ok, norm_s. rewrite !flat_map_filter, !existsb_filter.
  rewrite !(flat_map_nf_id norm_s_ns _ S), (existsb_nf norm_s_ns _ S); try reflexivity;
    intros ns; cbn [norm_s_ns sn_entities sn_name sn_enums sn_commons sn_actions]; rewrite ?map_name_sort; reflexivity.
Qed.

Definition rrel {A} (R : A -> A -> Prop) (x y : rres A) : Prop :=
  match x, y with ROk a, ROk b => R a b | RErr, RErr => True | RFuel, RFuel => True | _, _ => False end.

Lemma rrel_refl {A} (R : A -> A -> Prop) x : (forall a, R a a) -> rrel R x x.
Proof. intros H. destruct x; cbn; auto. Qed.

Lemma rrel_trans {A} (R : A -> A -> Prop) x y z : (forall a b c, R a b -> R b c -> R a c) -> rrel R x y -> rrel R y z -> rrel R x z.
Proof. intros HR. destruct x, y, z; cbn; try tauto. apply HR. Qed.

Lemma all_ok_perm {A B} (f : A -> rres B) l l' : (forall x, f x <> RFuel) -> Permutation l l' -> rrel (@Permutation B) (all_ok f l) (all_ok f l').
Proof.
  intros Hf HP. induction HP as [|x l l' HP IH|x y l|l l' l'' HP1 IH1 HP2 IH2].
  - cbn. apply perm_nil.
  - rewrite !all_ok_cons. destruct (f x) eqn:Ex; cbn [rbind rrel]; [|exact I|exfalso; exact (Hf x Ex)].
    destruct (all_ok f l), (all_ok f l'); cbn [rbind rrel] in *; try (contradiction || exact I). apply perm_skip. exact IH.
  - rewrite !all_ok_cons. destruct (f x) eqn:Ex; [| |exfalso; exact (Hf x Ex)]; (destruct (f y) eqn:Ey; [| |exfalso; exact (Hf y Ey)]);
      cbn [rbind rrel]; try exact I; destruct (all_ok f l); cbn [rbind rrel]; try exact I. apply perm_swap.
  - eapply rrel_trans; [|exact IH1|exact IH2]. intros a b c. apply Permutation_trans.
Qed.

Lemma all_ok_rel {A B} (f f' : A -> rres B) (E : B -> B -> Prop) (g : A -> A) l :
  (forall x, rrel E (f x) (f' (g x))) -> rrel (Forall2 E) (all_ok f l) (all_ok f' (map g l)).
Proof.
  intros H. induction l as [|x l IH]; [cbn; constructor|]. cbn [map]. rewrite !all_ok_cons.
  specialize (H x). destruct (f x), (f' (g x)); cbn [rbind rrel] in *; try (contradiction || exact I).
  destruct (all_ok f l), (all_ok f' (map g l)); cbn [rbind rrel] in *; try (contradiction || exact I). constructor; assumption.
Qed.

(* per-namespace results that are related (by a relation on lists that goes through ++) stay related after concatenation *)
Lemma all_ok_nf {B} (g : s_ns -> s_ns) (f f' : s_ns -> rres (list B)) (R : list B -> list B -> Prop) S :
  R [] [] -> (forall a b a' b', R a a' -> R b b' -> R (a ++ b) (a' ++ b')) ->
  (forall ns, In ns S -> rrel R (f ns) (f' (g ns))) -> (forall ns, s_keep ns = false -> f ns = ROk []) ->
  rrel (fun a b => R (List.concat a) (List.concat b)) (all_ok f S) (all_ok f' (map g (filter s_keep S))).
Proof.
  intros R0 Rapp H1 H2. induction S as [|ns S IH]; [exact R0|]. cbn [filter]. rewrite all_ok_cons.
  specialize (IH (fun x Hx => H1 x (or_intror Hx))). specialize (H1 ns (or_introl eq_refl)).
  destruct (s_keep ns) eqn:Ek.
  - cbn [map]. rewrite all_ok_cons. destruct (f ns), (f' (g ns)); cbn [rbind rrel] in *; try (contradiction || exact I).
    destruct (all_ok f S), (all_ok f' (map g (filter s_keep S))); cbn [rbind rrel] in *; try (contradiction || exact I).
    apply Rapp; assumption.
  - rewrite (H2 ns Ek). cbn [rbind].
    destruct (all_ok f S), (all_ok f' (map g (filter s_keep S))); cbn [rbind rrel] in *; try (contradiction || exact I); exact IH.
Qed.

(* same entities up to the order of the parents *)
Local Notation rent := (str * (list str * option (list (str * (rty * bool))) * option rty))%type.
Definition ent_equiv (x y : rent) : Prop :=
  fst x = fst y /\ Permutation (fst (fst (snd x))) (fst (fst (snd y))) /\ snd (fst (snd x)) = snd (fst (snd y)) /\ snd (snd x) = snd (snd y).
Definition resolved_equiv (a b : resolved_summary) : Prop :=
  Forall2 ent_equiv (rs_entities a) (rs_entities b) /\ rs_actions a = rs_actions b.

Lemma r_ent_sort d ns e : rrel ent_equiv (r_ent d ns e) (r_ent d ns (sort_parents e)).
Proof.
  unfold r_ent. cbn [sort_parents se_parents].
  pose proof (all_ok_perm (r_eref d ns) _ _ (r_eref_nofuel d ns) (sort_strs_perm (se_parents e))) as HP.
  destruct (all_ok (r_eref d ns) (se_parents e)) as [ps| |], (all_ok (r_eref d ns) (sort_strs (se_parents e))) as [ps'| |];
    cbn [rbind rrel] in *; try (contradiction || exact I).
  unfold r_ent_rest. cbn [sort_parents se_shape se_tags se_name].
  destruct (match se_shape e with None => ROk None | Some fs => _ end) as [sh| |]; cbn [rbind rrel]; try exact I.
  destruct (match se_tags e with None => ROk None | Some t => _ end) as [tg| |]; cbn [rbind rrel]; try exact I.
  unfold ent_equiv. cbn [fst snd]. auto.
Qed.

Definition vrel (a b : verdict) : Prop :=
  match a, b with VOk x, VOk y => resolved_equiv x y | VErr, VErr => True | VFuel, VFuel => True | _, _ => False end.

Lemma resolve_norm_s S : vrel (resolve_schema S) (resolve_schema (norm_s S)).
Proof.
  rewrite !resolve_schema_eq, register_norm, shadowing_norm.
  destruct (register S) as [d|]; [|exact I]. destruct (negb (shadowing_ok S)); [exact I|]. destruct (negb (cycle_free d)); [exact I|].
  assert (He : rrel (fun a b => Forall2 ent_equiv (List.concat a) (List.concat b))
                 (all_ok (fun ns => all_ok (r_ent d (sn_name ns)) (sn_entities ns)) S)
                 (all_ok (fun ns => all_ok (r_ent d (sn_name ns)) (sn_entities ns)) (norm_s S))).
  { apply all_ok_nf; [apply Forall2_nil | apply Forall2_app | intros ns _; apply all_ok_rel; intros e; apply r_ent_sort |].
    intros ns E. destruct (s_keep_false ns E) as (_ & -> & _). reflexivity. }
  (* norm_s_ns does not touch the actions *)
  assert (Ha : rrel (fun a b => List.concat a = List.concat b)
                 (all_ok (fun ns => all_ok (r_act d (sn_name ns)) (sn_actions ns)) S)
                 (all_ok (fun ns => all_ok (r_act d (sn_name ns)) (sn_actions ns)) (norm_s S))).
  { apply all_ok_nf; [reflexivity | intros a b a' b' -> ->; reflexivity | intros ns _; apply rrel_refl; reflexivity |].
    intros ns E. destruct (s_keep_false ns E) as (_ & _ & _ & _ & ->). reflexivity. }
  destruct (all_ok _ S) as [es| |], (all_ok _ (norm_s S)) as [es'| |]; cbn [rrel] in He; try (contradiction || exact I);
  destruct (all_ok _ S) as [acts| |], (all_ok _ (norm_s S)) as [acts'| |]; cbn [rrel] in Ha; try (contradiction || exact I).
  rewrite <- Ha. unfold r_fin. destruct (existsb _ (List.concat acts)); [exact I|].
  destruct (fold_left _ _ _) as [[[|] v]|]; try exact I. split; [exact He | reflexivity].
Qed.

Theorem resolve_norm : forall s, wf_schema s = true ->
  match resolve_schema (erase s), resolve_schema (erase (norm_schema s)) with
  | VOk a, VOk b => resolved_equiv a b
  | VErr, VErr => True
  | _, _ => False
  end.
Proof.
  intros s _. rewrite erase_norm_schema. pose proof (resolve_norm_s (erase s)) as H.
  pose proof (resolve_schema_terminates (erase s)) as T1. pose proof (resolve_schema_terminates (norm_s (erase s))) as T2.
  destruct (resolve_schema (erase s)), (resolve_schema (norm_s (erase s))); cbn [vrel] in H; try tauto; congruence.
Qed.

(* Examples: what norm_schema changes, and why each clause of wf_schema is there *)
Definition ent0 : x_entity := {| xe_annots := []; xe_parents := []; xe_shape := None; xe_tags := None |}.
Definition ns0 : x_ns := {| xs_annots := []; xs_entities := []; xs_enums := []; xs_commons := []; xs_actions := [] |}.

(* parents come back sorted (duplicates kept); an empty bare namespace disappears *)
Example ex_norm :
  let s := [([], ns0); (k "N", {| xs_annots := []; xs_entities := [(k "A", {| xe_annots := []; xe_parents := [k "Z"; k "B"; k "Z"]; xe_shape := None; xe_tags := None |})];
                                  xs_enums := []; xs_commons := []; xs_actions := [] |})] in
  wf_schema s = true /\
  dec_schema (enc_schema s) =
  DOk [(k "N", {| xs_annots := []; xs_entities := [(k "A", {| xe_annots := []; xe_parents := [k "B"; k "Z"; k "Z"]; xe_shape := None; xe_tags := None |})];
                  xs_enums := []; xs_commons := []; xs_actions := [] |})].
Proof. split; vm_compute; reflexivity. Qed.

(* an enumerated type without values, an empty record shape, empty applies-to lists survive *)
Example ex_kept :
  let s := [(k "N", {| xs_annots := [(k "a", [])]; xs_entities := [(k "A", {| xe_annots := []; xe_parents := []; xe_shape := Some []; xe_tags := Some (XRef []) |})];
                       xs_enums := [(k "E", {| xn_annots := []; xn_values := [] |})]; xs_commons := [(k "C", {| xc_annots := []; xc_type := XExt [] |})];
                       xs_actions := [(k "x", {| xac_annots := []; xac_parents := [([], k "y"); ([], k "x")];
                                                 xac_applies := Some {| xa_principals := []; xa_resources := []; xa_context := None |} |})] |})] in
  wf_schema s = true /\ dec_schema (enc_schema s) = DOk s.
Proof. split; vm_compute; reflexivity. Qed.

(* wf clause "no name is both an entity and an enum": the enum wins in the single JSON map *)
Example ex_clash :
  let s := [(k "N", {| xs_annots := []; xs_entities := [(k "A", ent0)]; xs_enums := [(k "A", {| xn_annots := []; xn_values := [k "v"] |})];
                       xs_commons := []; xs_actions := [] |})] in
  wf_schema s = false /\
  dec_schema (enc_schema s) =
  DOk [(k "N", {| xs_annots := []; xs_entities := []; xs_enums := [(k "A", {| xn_annots := []; xn_values := [k "v"] |})]; xs_commons := []; xs_actions := [] |})].
Proof. split; vm_compute; reflexivity. Qed.

(* wf clause "the bare namespace has no annotations" *)
Example ex_bare_annots :
  let s := [([], {| xs_annots := [(k "a", k "b")]; xs_entities := [(k "A", ent0)]; xs_enums := []; xs_commons := []; xs_actions := [] |})] in
  wf_schema s = false /\
  dec_schema (enc_schema s) = DOk [([], {| xs_annots := []; xs_entities := [(k "A", ent0)]; xs_enums := []; xs_commons := []; xs_actions := [] |})].
Proof. split; vm_compute; reflexivity. Qed.

(* wf clause "association lists are key-sorted": attributes (and every other map) come back in key order, a repeated key keeps its last binding *)
Example ex_unsorted :
  let s := [(k "N", {| xs_annots := []; xs_entities := []; xs_enums := [];
                       xs_commons := [(k "C", {| xc_annots := []; xc_type := XRec [(k "b", (XLong, false, [])); (k "a", (XBool, true, [])); (k "b", (XString, false, []))] |})];
                       xs_actions := [] |})] in
  wf_schema s = false /\
  dec_schema (enc_schema s) =
  DOk [(k "N", {| xs_annots := []; xs_entities := []; xs_enums := [];
                  xs_commons := [(k "C", {| xc_annots := []; xc_type := XRec [(k "a", (XBool, true, [])); (k "b", (XString, false, []))] |})];
                  xs_actions := [] |})].
Proof. split; vm_compute; reflexivity. Qed.

Print Assumptions dec_enc_schema.
Print Assumptions norm_idempotent.
Print Assumptions norm_idempotent_gen.
Print Assumptions second_roundtrip.
Print Assumptions second_roundtrip_gen.
Print Assumptions dec_enc_twice.
Print Assumptions dec_schema_total.
Print Assumptions resolve_norm_s.
Print Assumptions resolve_norm.
