(* Proofs about Impl/SchemaResolve.v (C16): schema resolution terminates.
   - Kahn's check (cycle_free) yields a topological rank, hence acyclicity (kahn_sound)
   - resolve_type never runs out of the fuel the model hands out (any namespace, any names: the declaring namespace of a common type is
     recorded at registration, so the cycle check and the resolver look at the same edges)
   - visit (action DFS) and is_descendant terminate; is_descendant is correct
   - resolve_schema never answers VFuel *)
From Coq Require Import String ZArith List Bool Lia Relations Permutation.
Import ListNotations.
From Cedar Require Import Lang.Value Proofs.ValueProofs Impl.Printer Impl.SchemaResolve.

Local Open Scope nat_scope.

Definition dep (d : decls) (a b : str) : Prop := In b (deps_of d a).

Lemma str_eqbP a b : reflect (a = b) (str_eqb a b).
Proof. destruct (str_eqb a b) eqn:E; constructor; [apply str_eqb_eq | apply str_eqb_neq]; exact E. Qed.

Lemma assoc_In {A} x (l : list (str * A)) v : assoc x l = Some v -> In (x, v) l.
Proof.
  induction l as [|[k w] r IH]; cbn [assoc]; [discriminate|].
  destruct (str_eqbP k x) as [->|Hne]; intros H.
  - inversion H; subst. left; reflexivity.
  - right. apply IH, H.
Qed.

Lemma In_assoc {A} x (l : list (str * A)) : In x (map fst l) -> exists v, assoc x l = Some v.
Proof.
  induction l as [|[k w] r IH]; cbn [assoc map fst In]; [tauto|].
  intros [->|H].
  - rewrite str_eqb_refl. eauto.
  - destruct (str_eqb k x); eauto.
Qed.

Lemma common_names_spec d a : In a (common_names d) <-> exists ct, common d a = Some ct.
Proof.
  unfold common_names, common. rewrite nodup_In. split.
  - intros H. apply In_assoc. rewrite map_rev, <- in_rev. exact H.
  - intros [ct H]. apply assoc_In in H. apply in_rev in H.
    apply (in_map fst) in H. exact H.
Qed.

Lemma common_In d a ct : common d a = Some ct -> In (a, ct) (d_commons d).
Proof. unfold common. intros H. apply assoc_In in H. apply in_rev in H. exact H. Qed.

Lemma dep_common d a b : dep d a b -> In a (common_names d) /\ In b (common_names d).
Proof.
  unfold dep, deps_of. destruct (common d a) as [[cns body]|] eqn:E; [|intros []].
  intros H. apply filter_In in H. destruct H as [_ H]. split; apply common_names_spec.
  - eauto.
  - destruct (common d b); [eauto | discriminate].
Qed.

Definition cnt (x : str) (l : list str) : nat := List.length (filter (str_eqb x) l).

Lemma cnt_app x l1 l2 : cnt x (l1 ++ l2) = cnt x l1 + cnt x l2.
Proof. unfold cnt. rewrite filter_app, app_length. reflexivity. Qed.

Lemma cnt_cons_eq x l : cnt x (x :: l) = S (cnt x l).
Proof. unfold cnt. cbn [filter]. rewrite str_eqb_refl. reflexivity. Qed.

Lemma cnt_cons_neq x y l : x <> y -> cnt x (y :: l) = cnt x l.
Proof. unfold cnt. cbn [filter]. intros H. destruct (str_eqbP x y); [contradiction | reflexivity]. Qed.

Lemma cnt_pos x l : In x l -> 1 <= cnt x l.
Proof.
  induction l as [|y l IH]; [intros []|]. intros [->|H].
  - rewrite cnt_cons_eq. lia.
  - destruct (str_eqbP x y) as [->|Hne]; [rewrite cnt_cons_eq; lia | rewrite cnt_cons_neq by exact Hne; auto].
Qed.

Lemma cnt_notin x l : ~ In x l -> cnt x l = 0.
Proof.
  induction l as [|y l IH]; [reflexivity|]. intros H.
  rewrite cnt_cons_neq; [apply IH|]; intros E; apply H; [right; exact E | left; symmetry; exact E].
Qed.

Definition degf (deg : list (str * nat)) (x : str) : nat := match assoc x deg with Some k => k | None => 0 end.
Definition dec_deg (n : str) (deg : list (str * nat)) : list (str * nat) :=
  map (fun kv : str * nat => if str_eqb (fst kv) n then (fst kv, Nat.pred (snd kv)) else kv) deg.

Lemma assoc_dec_deg x n deg : assoc x (dec_deg n deg) = if str_eqb n x then option_map Nat.pred (assoc x deg) else assoc x deg.
Proof.
  induction deg as [|[k v] r IH]; cbn [dec_deg map assoc fst snd].
  - destruct (str_eqb n x); reflexivity.
  - fold (dec_deg n r). destruct (str_eqbP k n) as [->|Hkn]; cbn [assoc].
    + destruct (str_eqbP n x) as [->|Hnx]; [reflexivity | exact IH].
    + destruct (str_eqbP k x) as [->|Hkx].
      * destruct (str_eqbP n x) as [->|Hnx]; [congruence | reflexivity].
      * exact IH.
Qed.

Lemma degf_dec_deg x n deg : degf (dec_deg n deg) x = if str_eqb n x then Nat.pred (degf deg x) else degf deg x.
Proof. unfold degf. rewrite assoc_dec_deg. destruct (str_eqb n x), (assoc x deg); reflexivity. Qed.

Lemma NoDup_app_end {A} (l : list A) x : NoDup l -> ~ In x l -> NoDup (l ++ [x]).
Proof.
  intros Hn Hx. apply (Permutation_NoDup (Permutation_cons_append l x)). constructor; assumption.
Qed.

Lemma NoDup_app_l {A} (l l' : list A) : NoDup (l ++ l') -> NoDup l.
Proof.
  induction l as [|a l IH]; cbn [app]; intros H; [constructor|].
  inversion H as [|? ? Ha Hn]; subst. constructor; [|apply IH, Hn].
  intros X. apply Ha, in_or_app. left; exact X.
Qed.

Fixpoint pos_in (x : str) (l : list str) : nat :=
  match l with [] => 0 | c :: r => if str_eqb c x then 0 else S (pos_in x r) end.

Lemma pos_in_lt x l : In x l -> pos_in x l < List.length l.
Proof.
  induction l as [|c r IH]; [intros []|]. cbn [pos_in List.length]. intros H.
  destruct (str_eqbP c x) as [->|Hne]; [lia|]. destruct H as [H|H]; [contradiction|]. apply IH in H. lia.
Qed.

Section Kahn.
  Variable d : decls.
  Let N := common_names d.
  Let dp := deps_of d.

  Fixpoint topo (l : list str) : Prop :=
    match l with [] => True | b :: r => (forall a, dep d a b -> In a r) /\ topo r end.

  Lemma topo_pos l : NoDup l -> topo l -> forall a b, dep d a b -> In b l -> In a l /\ pos_in b l < pos_in a l.
  Proof.
    induction l as [|c r IH]; intros Hn Ht a b Hd Hb; [destruct Hb|].
    inversion Hn as [|? ? Hc Hn']; subst. destruct Ht as [Hc1 Ht].
    cbn [pos_in]. destruct (str_eqbP c b) as [->|Hcb].
    - pose proof (Hc1 a Hd) as Ha. split; [right; exact Ha|].
      destruct (str_eqbP b a) as [->|_]; [contradiction | lia].
    - destruct Hb as [Hb|Hb]; [contradiction|].
      destruct (IH Hn' Ht a b Hd Hb) as [Ha Hlt]. split; [right; exact Ha|].
      destruct (str_eqbP c a) as [->|_]; [contradiction | lia].
  Qed.

  (* kahn's state between two decrements: [rdone] the popped names, latest first; [rest] the names not popped yet; [rem] the
     dependencies of the name just popped whose degree is still to be decremented.  I4 carries the argument: the recorded
     degree of x is at least the number of references to x from names not popped yet, so a name popped at degree 0 is referred
     to by earlier popped names only (I5). *)
  Record Inv (rdone rest : list str) (deg : list (str * nat)) (queue rem : list str) : Prop := {
    I1 : NoDup (rdone ++ queue);
    I2 : forall x, In x (rdone ++ queue) -> degf deg x = 0 /\ In x N;
    I3 : forall a, In a N -> In a rdone \/ In a rest;
    I4 : forall x, cnt x (flat_map dp rest) + cnt x rem <= degf deg x;
    I5 : topo rdone;
    I6 : forall x, In x rem -> In x N }.

  Lemma dec_step rdone rest deg queue n r :
    Inv rdone rest deg queue (n :: r) ->
    Inv rdone rest (dec_deg n deg) (match assoc n (dec_deg n deg) with Some O => queue ++ [n] | _ => queue end) r.
  Proof.
    intros [H1 H2 H3 H4 H5 H8].
    assert (Hge : 1 <= degf deg n) by (specialize (H4 n); rewrite cnt_cons_eq in H4; lia).
    assert (Hq : let q' := match assoc n (dec_deg n deg) with Some O => queue ++ [n] | _ => queue end in
                 q' = queue \/ (q' = queue ++ [n] /\ degf (dec_deg n deg) n = 0)).
    { cbv zeta. unfold degf. destruct (assoc n (dec_deg n deg)) as [[|k]|]; auto. }
    cbv zeta in Hq. set (q' := match assoc n (dec_deg n deg) with Some O => queue ++ [n] | _ => queue end) in *.
    assert (Hle : forall x, degf (dec_deg n deg) x <= degf deg x).
    { intros x. rewrite degf_dec_deg. destruct (str_eqb n x); lia. }
    assert (Hnot : ~ In n (rdone ++ queue)).
    { intros Hin. apply H2 in Hin. lia. }
    constructor.
    - destruct Hq as [->|[-> _]]; [exact H1|]. rewrite app_assoc. apply NoDup_app_end; assumption.
    - assert (Hold : forall x, In x (rdone ++ queue) -> degf (dec_deg n deg) x = 0 /\ In x N).
      { intros x Hx. destruct (H2 x Hx) as [Hd Hn]. split; [|exact Hn]. specialize (Hle x). lia. }
      intros x Hx. destruct Hq as [Hq|[Hq Hz]]; rewrite Hq in Hx; [exact (Hold x Hx)|].
      rewrite app_assoc in Hx. apply in_app_or in Hx. destruct Hx as [Hx|[<-|[]]]; [exact (Hold x Hx)|].
      split; [exact Hz | apply H8; left; reflexivity].
    - exact H3.
    - intros x. specialize (H4 x). rewrite degf_dec_deg. destruct (str_eqbP n x) as [<-|Hne].
      + rewrite cnt_cons_eq in H4. lia.
      + rewrite cnt_cons_neq in H4 by congruence. exact H4.
    - exact H5.
    - intros x Hx. apply H8. right; exact Hx.
  Qed.

  Lemma dec_all_inv rem : forall rdone rest deg queue, Inv rdone rest deg queue rem ->
    forall deg' q', dec_all rem deg queue = (deg', q') -> Inv rdone rest deg' q' [].
  Proof.
    induction rem as [|n r IH]; intros rdone rest deg queue HI deg' q' E.
    - cbn [dec_all] in E. inversion E; subst. exact HI.
    - cbn [dec_all] in E. apply (IH _ _ _ _ (dec_step _ _ _ _ _ _ HI) _ _ E).
  Qed.

  Lemma pop_inv rdone rest deg node q :
    Inv rdone rest deg (node :: q) [] -> exists rest', Inv (node :: rdone) rest' deg q (dp node).
  Proof.
    intros [H1 H2 H3 H4 H5 H8].
    destruct (H2 node) as [Hz HnN]; [apply in_or_app; right; left; reflexivity|].
    pose proof (NoDup_remove_1 _ _ _ H1) as Hnd1. pose proof (NoDup_remove_2 _ _ _ H1) as Hnd2.
    assert (Hnr : ~ In node rdone) by (intros X; apply Hnd2, in_or_app; left; exact X).
    destruct (H3 node HnN) as [X|Hrest]; [contradiction|].
    destruct (in_split _ _ Hrest) as (r1 & r2 & ->).
    exists (r1 ++ r2). constructor.
    - cbn [app]. constructor; assumption.
    - intros x Hx. apply H2. cbn [app] in Hx. apply in_or_app. destruct Hx as [<-|Hx]; [right; left; reflexivity|].
      apply in_app_or in Hx. destruct Hx; [left | right; right]; assumption.
    - intros a Ha. destruct (H3 a Ha) as [X|X]; [left; right; exact X|].
      apply in_app_or in X. destruct X as [X|[<-|X]].
      + right. apply in_or_app; left; exact X.
      + left; left; reflexivity.
      + right. apply in_or_app; right; exact X.
    - intros x. specialize (H4 x). rewrite flat_map_app in *. cbn [flat_map] in H4.
      rewrite !cnt_app in *. change (cnt x []) with 0 in H4. lia.
    - cbn [topo]. split; [|exact H5]. intros a Hd.
      destruct (dep_common _ _ _ Hd) as [HaN _]. destruct (H3 a HaN) as [X|X]; [exact X|]. exfalso.
      assert (Hin : In node (flat_map dp (r1 ++ node :: r2))) by (apply in_flat_map; exists a; split; assumption).
      apply cnt_pos in Hin. specialize (H4 node). lia.
    - intros x Hx. apply (dep_common d node x Hx).
  Qed.

  Lemma kahn_inv fuel : forall rdone rest deg queue, Inv rdone rest deg queue [] ->
    exists rdone', NoDup rdone' /\ (forall x, In x rdone' -> In x N) /\ topo rdone' /\
                   kahn fuel d deg queue (List.length rdone) = List.length rdone'.
  Proof.
    induction fuel as [|f IH]; intros rdone rest deg queue HI; [|cbn [kahn]; destruct queue as [|node q]].
    1, 2: exists rdone; destruct HI as [H1 H2 _ _ H5 _]; repeat split;
      [apply NoDup_app_l in H1; exact H1 | intros x Hx; apply H2, in_or_app; left; exact Hx | exact H5].
    destruct (pop_inv _ _ _ _ _ HI) as [rest' HI'].
    destruct (dec_all (deps_of d node) deg q) as [deg' q'] eqn:E.
    exact (IH _ _ _ _ (dec_all_inv _ _ _ _ _ HI' _ _ E)).
  Qed.

  Lemma assoc_mapg (g : str -> nat) l x : In x l -> assoc x (map (fun n => (n, g n)) l) = Some (g x).
  Proof.
    induction l as [|c r IH]; [intros []|]. intros H. cbn [map assoc].
    destruct (str_eqbP c x) as [->|Hne]; [reflexivity|]. destruct H as [H|H]; [contradiction | auto].
  Qed.

  Lemma assoc_mapg_none (g : str -> nat) l x : ~ In x l -> assoc x (map (fun n => (n, g n)) l) = None.
  Proof.
    induction l as [|c r IH]; [reflexivity|]. intros H. cbn [map assoc].
    destruct (str_eqbP c x) as [->|Hne]; [exfalso; apply H; left; reflexivity|]. apply IH. intros X; apply H; right; exact X.
  Qed.

  Lemma queue0_eq (g : str -> nat) (p : str * nat -> bool) l :
    map fst (filter p (map (fun n => (n, g n)) l)) = filter (fun n => p (n, g n)) l.
  Proof.
    induction l as [|c r IH]; [reflexivity|]. cbn [map filter]. destruct (p (c, g c)); cbn [map fst]; rewrite IH; reflexivity.
  Qed.

  Lemma init_inv : Inv [] N (indeg0 d) (map fst (filter (fun kv : str * nat => Nat.eqb (snd kv) 0) (indeg0 d))) [].
  Proof.
    unfold indeg0. fold N. set (g := fun n => List.length (filter (str_eqb n) (flat_map (deps_of d) N))).
    rewrite (queue0_eq g). cbn [snd].
    constructor.
    - cbn [app]. apply NoDup_filter. apply NoDup_nodup.
    - cbn [app]. intros x Hx. apply filter_In in Hx. destruct Hx as [Hx Hz]. split; [|exact Hx].
      unfold degf. rewrite (assoc_mapg g) by exact Hx. apply Nat.eqb_eq in Hz. exact Hz.
    - intros a Ha. right; exact Ha.
    - intros x. cbn [cnt filter List.length]. rewrite Nat.add_0_r. unfold degf.
      destruct (in_dec (list_eq_dec Z.eq_dec) x N) as [Hx|Hx].
      + rewrite (assoc_mapg g) by exact Hx. unfold g, cnt, dp. lia.
      + rewrite cnt_notin; [lia|]. intros Hin. apply in_flat_map in Hin. destruct Hin as (a & _ & Ha).
        apply Hx. apply (dep_common d a x Ha).
    - exact I.
    - intros x [].
  Qed.

  Theorem kahn_rank : cycle_free d = true ->
    exists rank : str -> nat, (forall a, In a N -> rank a < List.length N) /\ (forall a b, dep d a b -> rank b < rank a).
  Proof.
    unfold cycle_free. intros H. apply Nat.eqb_eq in H.
    destruct (kahn_inv (S (List.length (common_names d) + List.length (flat_map (deps_of d) (common_names d)))) _ _ _ _ init_inv)
      as (rdone & Hnd & Hsub & Ht & Hk).
    cbn [List.length] in Hk. rewrite Hk in H. fold N in H.
    assert (Hall : incl N rdone).
    { apply NoDup_length_incl; [exact Hnd | lia | exact Hsub]. }
    exists (fun x => pos_in x rdone). split.
    - intros a Ha. rewrite <- H. apply pos_in_lt. apply Hall, Ha.
    - intros a b Hd. apply (topo_pos rdone Hnd Ht a b Hd). apply Hall. apply (dep_common d a b Hd).
  Qed.
End Kahn.

Theorem kahn_sound : forall d, cycle_free d = true -> forall n, In n (common_names d) -> ~ clos_trans _ (dep d) n n.
Proof.
  intros d H n _ Hc. destruct (kahn_rank d H) as (rank & _ & Hr).
  assert (G : forall a b, clos_trans _ (dep d) a b -> rank b < rank a).
  { intros a b X. induction X as [a b X | a b c _ IH1 _ IH2]; [apply Hr, X | lia]. }
  specialize (G n n Hc). lia.
Qed.

Section StyInd.
  Variable P : sty -> Prop.
  Hypothesis HString : P TyString.
  Hypothesis HLong : P TyLong.
  Hypothesis HBool : P TyBool.
  Hypothesis HExt : forall n, P (TyExt n).
  Hypothesis HSet : forall e, P e -> P (TySet e).
  Hypothesis HRec : forall fs, Forall (fun kv : str * (sty * bool) => P (fst (snd kv))) fs -> P (TyRec fs).
  Hypothesis HEnt : forall r, P (TyEnt r).
  Hypothesis HRef : forall r, P (TyRef r).
  Fixpoint sty_ind' (t : sty) : P t :=
    match t with
    | TyString => HString | TyLong => HLong | TyBool => HBool | TyExt n => HExt n
    | TySet e => HSet e (sty_ind' e)
    | TyRec fs => HRec fs ((fix go (l : list (str * (sty * bool))) : Forall (fun kv : str * (sty * bool) => P (fst (snd kv))) l :=
                             match l with
                             | [] => Forall_nil _
                             | kv :: r => Forall_cons kv (sty_ind' (fst (snd kv))) (go r)
                             end) fs)
    | TyEnt r => HEnt r
    | TyRef r => HRef r
    end.
End StyInd.

Definition resolve_fields (rec : sty -> rres rty) : list (str * (sty * bool)) -> rres (list (str * (rty * bool))) :=
  fix go (l : list (str * (sty * bool))) : rres (list (str * (rty * bool))) :=
    match l with
    | [] => ROk []
    | (k, (x, opt)) :: r => rbind (rec x) (fun rx => rbind (go r) (fun rr => ROk ((k, (rx, opt)) :: rr)))
    end.
Definition fields_size : list (str * (sty * bool)) -> nat :=
  fix go (l : list (str * (sty * bool))) : nat := match l with [] => 0 | (_, (x, _)) :: r => sty_size x + go r end.
Definition fields_refs : list (str * (sty * bool)) -> list str :=
  fix go (l : list (str * (sty * bool))) : list str := match l with [] => [] | (_, (x, _)) :: r => collect_refs x ++ go r end.

Lemma resolve_type_rec f d ns fs :
  resolve_type (S f) d ns (TyRec fs) = rbind (resolve_fields (resolve_type f d ns) fs) (fun rs => ROk (RRec rs)).
Proof. reflexivity. Qed.
Lemma sty_size_rec fs : sty_size (TyRec fs) = S (fields_size fs).
Proof. reflexivity. Qed.
Lemma collect_refs_rec fs : collect_refs (TyRec fs) = fields_refs fs.
Proof. reflexivity. Qed.

Lemma sty_size_pos t : 1 <= sty_size t.
Proof. destruct t; cbn [sty_size]; lia. Qed.

Lemma rbind_nofuel {A B} (x : rres A) (g : A -> rres B) : x <> RFuel -> (forall a, g a <> RFuel) -> rbind x g <> RFuel.
Proof. destruct x; cbn [rbind]; auto; discriminate. Qed.

(* the common type (recorded namespace, body) that resolve_type expands at [TyRef ref] in namespace [ns] *)
Definition expand (d : decls) (ns ref : str) : option (str * sty) :=
  if has_sep ref then
    match strip_prefix cedar_prefix ref with
    | Some _ => None
    | None => common d ref
    end
  else
    match (if is_nil_str ns then None else common d (ns ++ sep ++ ref)) with
    | Some c => Some c
    | None => if negb (is_nil_str ns) && is_entity d (ns ++ sep ++ ref) then None else common d ref
    end.

(* a reference either continues with the expansion (one unit of fuel less) or is answered on the spot *)
Lemma resolve_ref f d ns ref :
  match expand d ns ref with
  | Some (ns', ct) => resolve_type (S f) d ns (TyRef ref) = resolve_type f d ns' ct
  | None => resolve_type (S f) d ns (TyRef ref) <> RFuel
  end.
Proof.
  unfold expand. cbn [resolve_type].
  destruct (has_sep ref).
  - destruct (strip_prefix cedar_prefix ref) as [b|]; [destruct (builtin b); discriminate|].
    destruct (common d ref) as [[cns c]|]; [reflexivity|]. destruct (is_entity d ref); discriminate.
  - destruct (if is_nil_str ns then None else common d (ns ++ sep ++ ref)) as [[cns c]|]; [reflexivity|].
    destruct (negb (is_nil_str ns) && is_entity d (ns ++ sep ++ ref)); [discriminate|].
    destruct (common d ref) as [[cns c]|]; [reflexivity|].
    destruct (is_entity d ref); [discriminate|]. destruct (builtin ref); discriminate.
Qed.

(* KEY consistency lemma: what resolve_type expands is what the cycle check looked at - for ANY namespace [ns] and any names *)
Lemma expand_dep d ns ref c : expand d ns ref = Some c -> common d (type_ref_path d ns ref) = Some c.
Proof.
  unfold expand, type_ref_path. destruct (has_sep ref) eqn:Hs.
  - destruct (strip_prefix cedar_prefix ref); [discriminate|]. auto.
  - destruct ns as [|z ns0].
    + cbn [is_nil_str negb andb]. auto.
    + cbn [is_nil_str negb andb]. destruct (common d ((z :: ns0) ++ sep ++ ref)) as [c0|] eqn:E.
      * intros H; inversion H; subst. exact E.
      * destruct (is_entity d ((z :: ns0) ++ sep ++ ref)); [discriminate|]. auto.
Qed.

(* a reference met in the body of common type [a], resolved in [a]'s recorded namespace, expands to a dependency of [a] *)
Lemma expand_in_deps d a cns body ref c :
  common d a = Some (cns, body) -> In ref (collect_refs body) -> expand d cns ref = Some c ->
  exists b, dep d a b /\ common d b = Some c.
Proof.
  intros Ha Hin He. pose proof (expand_dep _ _ _ _ He) as Hc.
  exists (type_ref_path d cns ref). split; [|exact Hc].
  unfold dep, deps_of. rewrite Ha. apply filter_In. split.
  - apply in_map. exact Hin.
  - rewrite Hc. reflexivity.
Qed.

Section Inner.
  Variable d : decls.
  Variable K : nat.

  Definition refs_ok (ns : str) (refs : list str) : Prop :=
    forall ref, In ref refs -> forall ns' ct, expand d ns ref = Some (ns', ct) ->
      forall f', K <= f' -> resolve_type f' d ns' ct <> RFuel.

  Lemma resolve_inner : forall t ns f, refs_ok ns (collect_refs t) -> sty_size t + K <= f -> resolve_type f d ns t <> RFuel.
  Proof.
    induction t as [ | | | n | e IHe | fs IHfs | r | r ] using sty_ind'; intros ns f Hrefs Hf;
      (destruct f as [|f]; [exfalso; pose proof (sty_size_pos TyString); cbn [sty_size] in Hf; lia|]).
    1-4: discriminate.
    - cbn [resolve_type]. apply rbind_nofuel; [|intros; discriminate].
      apply IHe; [exact Hrefs | cbn [sty_size] in Hf; lia].
    - rewrite resolve_type_rec. apply rbind_nofuel; [|intros; discriminate].
      rewrite sty_size_rec in Hf. rewrite collect_refs_rec in Hrefs.
      assert (Hf' : fields_size fs + K <= f) by lia. clear Hf.
      induction IHfs as [|[k [x opt]] l Hx Hl IHl].
      + cbn [resolve_fields]. discriminate.
      + cbn [resolve_fields]. cbn [fst snd] in Hx. cbn [fields_size] in Hf'. cbn [fields_refs] in Hrefs.
        apply rbind_nofuel.
        * apply Hx; [|lia]. intros ref Hin. apply Hrefs, in_or_app. left; exact Hin.
        * intros rx. apply rbind_nofuel; [|intros; discriminate].
          apply IHl; [|lia]. intros ref Hin. apply Hrefs, in_or_app. right; exact Hin.
    - cbn [resolve_type]. destruct (resolve_entity_ref d ns r); discriminate.
    - pose proof (resolve_ref f d ns r) as H. destruct (expand d ns r) as [[ns' ct]|] eqn:E; [|exact H].
      rewrite H. apply (Hrefs r (or_introl eq_refl) ns' ct E). cbn [sty_size] in Hf. lia.
  Qed.
End Inner.

Definition total_size (d : decls) : nat := fold_right (fun c acc => sty_size (snd (snd c)) + acc) 0 (d_commons d).

Lemma common_size d a cns ct : common d a = Some (cns, ct) -> sty_size ct <= total_size d.
Proof.
  intros H. apply common_In in H. unfold total_size. induction (d_commons d) as [|c l IH]; [destruct H|].
  cbn [fold_right]. destruct H as [->|H]; [cbn [snd]; lia | specialize (IH H); lia].
Qed.

(* the body of a common type, resolved in its recorded namespace, needs at most (rank+1) * total_size steps *)
Lemma resolve_common d (rank : str -> nat) : (forall a b, dep d a b -> rank b < rank a) ->
  forall k a cns ct, common d a = Some (cns, ct) -> rank a < k ->
  forall f, k * total_size d <= f -> resolve_type f d cns ct <> RFuel.
Proof.
  intros Hr. induction k as [|k IH]; intros a cns ct Ha Hk f Hf; [lia|].
  apply (resolve_inner d (k * total_size d)).
  - intros ref Hin ns' ct' He f' Hf'.
    destruct (expand_in_deps _ _ _ _ _ _ Ha Hin He) as (b & Hd & Hb).
    apply (IH b ns' ct' Hb); [|exact Hf']. specialize (Hr a b Hd). lia.
  - pose proof (common_size _ _ _ _ Ha). rewrite Nat.mul_succ_l in Hf. lia.
Qed.

Lemma nodup_length_le {A} (dec : forall x y : A, {x = y} + {x <> y}) l : List.length (nodup dec l) <= List.length l.
Proof. induction l as [|a l IH]; [reflexivity|]. cbn [nodup List.length]. destruct (in_dec dec a l); cbn [List.length]; lia. Qed.

(* no hypothesis on the namespace or on the names *)
Theorem resolve_type_terminates : forall d ns t, cycle_free d = true ->
  resolve_type (resolve_fuel d t) d ns t <> RFuel.
Proof.
  intros d ns t Hc. destruct (kahn_rank d Hc) as (rank & Hlt & Hr).
  apply (resolve_inner d (List.length (common_names d) * total_size d)).
  - intros ref Hin ns' ct He f' Hf'.
    pose proof (expand_dep _ _ _ _ He) as Hb.
    apply (resolve_common d rank Hr (List.length (common_names d)) _ ns' ct Hb); [|exact Hf'].
    apply Hlt. apply common_names_spec. eauto.
  - unfold resolve_fuel. fold (total_size d).
    assert (Hn : List.length (common_names d) <= List.length (d_commons d)).
    { unfold common_names. etransitivity; [apply nodup_length_le|]. rewrite map_length. lia. }
    nia.
Qed.

Lemma filter_length_mono {A} (p p' : A -> bool) l :
  (forall x, In x l -> p' x = true -> p x = true) -> List.length (filter p' l) <= List.length (filter p l).
Proof.
  induction l as [|a l IH]; intros H; [reflexivity|]. cbn [filter].
  assert (IH' : List.length (filter p' l) <= List.length (filter p l)) by (apply IH; intros x Hx; apply H; right; exact Hx).
  destruct (p' a) eqn:E'.
  - rewrite (H a (or_introl eq_refl) E'). cbn [List.length]. lia.
  - destruct (p a); cbn [List.length]; lia.
Qed.

Lemma filter_length_strict {A} (p p' : A -> bool) l u :
  (forall x, In x l -> p' x = true -> p x = true) -> In u l -> p u = true -> p' u = false ->
  List.length (filter p' l) < List.length (filter p l).
Proof.
  intros H Hu Hp Hp'. destruct (in_split _ _ Hu) as (l1 & l2 & ->).
  assert (H1 : List.length (filter p' l1) <= List.length (filter p l1)).
  { apply filter_length_mono. intros x Hx. apply H, in_or_app. left; exact Hx. }
  assert (H2 : List.length (filter p' l2) <= List.length (filter p l2)).
  { apply filter_length_mono. intros x Hx. apply H, in_or_app. right; right; exact Hx. }
  rewrite !filter_app, !app_length. cbn [filter]. rewrite Hp, Hp'. cbn [List.length]. lia.
Qed.

Lemma filter_length_le {A} (p : A -> bool) l : List.length (filter p l) <= List.length l.
Proof. induction l as [|a l IH]; [reflexivity|]. cbn [filter]. destruct (p a); cbn [List.length]; lia. Qed.

Definition visit_go (rec : uid -> list (uid * nat) -> option (bool * list (uid * nat))) (u : uid) :
  list uid -> list (uid * nat) -> option (bool * list (uid * nat)) :=
  fix go (ps : list uid) (vis : list (uid * nat)) : option (bool * list (uid * nat)) :=
    match ps with
    | [] => Some (false, (u, 2) :: vis)
    | p :: r => match rec p vis with
                | None => None
                | Some (true, v) => Some (true, v)
                | Some (false, v) => go r v
                end
    end.

Lemma visit_S f parents u vis :
  visit (S f) parents u vis =
  match colour u vis with
  | 1 => Some (true, vis)
  | 2 => Some (false, vis)
  | _ => visit_go (visit f parents) u (parents u) ((u, 1) :: vis)
  end.
Proof. reflexivity. Qed.

Lemma colour_cons x u c v : colour x ((u, c) :: v) = if uid_eqb u x then c else colour x v.
Proof. unfold colour. cbn [find fst snd]. destruct (uid_eqb u x); reflexivity. Qed.

(* "treated as unvisited by visit" *)
Definition white (vis : list (uid * nat)) (x : uid) : bool :=
  match colour x vis with 1 => false | 2 => false | _ => true end.
Definition whites (universe : list uid) (vis : list (uid * nat)) : nat := List.length (filter (white vis) universe).
Definition vmono (v v' : list (uid * nat)) : Prop := forall x, white v' x = true -> white v x = true.

Lemma vmono_refl v : vmono v v.
Proof. intros x H; exact H. Qed.
Lemma vmono_trans a b c : vmono a b -> vmono b c -> vmono a c.
Proof. intros H1 H2 x H. apply H1, H2, H. Qed.
Lemma vmono_cons1 u v : vmono v ((u, 1) :: v).
Proof. intros x. unfold white. rewrite colour_cons. destruct (uid_eqb u x); [discriminate | auto]. Qed.
Lemma vmono_cons2 u v : vmono v ((u, 2) :: v).
Proof. intros x. unfold white. rewrite colour_cons. destruct (uid_eqb u x); [discriminate | auto]. Qed.
Lemma whites_mono universe v v' : vmono v v' -> whites universe v' <= whites universe v.
Proof. intros H. apply filter_length_mono. intros x _. apply H. Qed.

Section Visit.
  Variable parents : uid -> list uid.
  Variable universe : list uid.
  Hypothesis Hclosed : forall x, In x universe -> incl (parents x) universe.

  Lemma visit_term : forall fuel u vis, In u universe -> whites universe vis + 1 <= fuel ->
    exists b v', visit fuel parents u vis = Some (b, v') /\ vmono vis v'.
  Proof.
    induction fuel as [|f IH]; intros u vis Hu Hf; [lia|].
    rewrite visit_S.
    assert (Hgo : white vis u = true ->
                  exists b v', visit_go (visit f parents) u (parents u) ((u, 1) :: vis) = Some (b, v') /\ vmono vis v').
    { intros Hw.
      assert (Hlt : whites universe ((u, 1) :: vis) < whites universe vis).
      { apply (filter_length_strict _ _ _ u); auto.
        - intros x _. apply vmono_cons1.
        - unfold white. rewrite colour_cons, uid_eqb_refl. reflexivity. }
      assert (G : forall ps v, incl ps universe -> whites universe v + 1 <= f ->
                  exists b v', visit_go (visit f parents) u ps v = Some (b, v') /\ vmono v v').
      { induction ps as [|p r IHr]; intros v Hin Hv.
        - cbn [visit_go]. exists false, ((u, 2) :: v). split; [reflexivity | apply vmono_cons2].
        - cbn [visit_go]. destruct (IH p v (Hin p (or_introl eq_refl)) Hv) as (b1 & v1 & E1 & M1).
          rewrite E1. destruct b1.
          + exists true, v1. split; [reflexivity | exact M1].
          + destruct (IHr v1) as (b2 & v2 & E2 & M2).
            * intros x Hx. apply Hin. right; exact Hx.
            * pose proof (whites_mono universe _ _ M1). lia.
            * exists b2, v2. split; [exact E2 | eapply vmono_trans; eauto]. }
      destruct (G (parents u) ((u, 1) :: vis) (Hclosed u Hu) ltac:(lia)) as (b & v' & E & M).
      exists b, v'. split; [exact E | eapply vmono_trans; [apply vmono_cons1 | exact M]]. }
    unfold white in Hgo.
    destruct (colour u vis) as [|[|[|k]]].
    - apply Hgo; reflexivity.
    - exists true, vis. split; [reflexivity | apply vmono_refl].
    - exists false, vis. split; [reflexivity | apply vmono_refl].
    - apply Hgo; reflexivity.
  Qed.

  (* enough fuel: one more than the number of nodes *)
  Theorem visit_terminates : forall u vis fuel, In u universe -> List.length universe + 1 <= fuel ->
    visit fuel parents u vis <> None.
  Proof.
    intros u vis fuel Hu Hf.
    destruct (visit_term fuel u vis Hu) as (b & v' & E & _).
    - pose proof (filter_length_le (white vis) universe). unfold whites. lia.
    - rewrite E. discriminate.
  Qed.
End Visit.

Definition desc_go (rec : str -> list str -> option (bool * list str)) (anc : str) :
  list str -> list str -> option (bool * list str) :=
  fix go (ps : list str) (vis : list str) : option (bool * list str) :=
    match ps with
    | [] => Some (false, vis)
    | p :: r => if str_eqb p anc then Some (true, vis)
                else match rec p vis with
                     | None => None
                     | Some (true, v) => Some (true, v)
                     | Some (false, v) => go r v
                     end
    end.

Lemma is_desc_S f parents child anc visited :
  is_descendant (S f) parents child anc visited =
  if mem child visited then Some (false, visited)
  else desc_go (fun p v => is_descendant f parents p anc v) anc (parents child) (child :: visited).
Proof. reflexivity. Qed.

Lemma mem_In x l : mem x l = true <-> In x l.
Proof. exact (existsb_eqb_In str_eqb str_eqb_eq x l). Qed.

Definition unvisited (types vis : list str) : nat := List.length (filter (fun x => negb (mem x vis)) types).

Lemma unvisited_mono types v v' : incl v v' -> unvisited types v' <= unvisited types v.
Proof.
  intros H. apply filter_length_mono. intros x _ Hx.
  destruct (mem x v) eqn:E; [|reflexivity]. apply mem_In in E. apply H in E. apply mem_In in E. rewrite E in Hx. discriminate.
Qed.

Section Desc.
  Variable parents : str -> list str.
  Variable anc : str.
  Let R (a p : str) : Prop := In p (parents a).

  Section Term.
    Variable types : list str.
    Hypothesis Hclosed : forall t, In t types -> incl (parents t) types.

    Lemma desc_term : forall fuel child vis, In child types -> unvisited types vis + 1 <= fuel ->
      exists b v', is_descendant fuel parents child anc vis = Some (b, v') /\ incl vis v'.
    Proof.
      induction fuel as [|f IH]; intros child vis Hc Hf; [lia|].
      rewrite is_desc_S. destruct (mem child vis) eqn:Em.
      - exists false, vis. split; [reflexivity | apply incl_refl].
      - assert (Hlt : unvisited types (child :: vis) < unvisited types vis).
        { apply (filter_length_strict _ _ _ child);
            [|exact Hc | rewrite Em; reflexivity | cbn [mem existsb]; rewrite str_eqb_refl; reflexivity].
          intros x _. cbn [mem existsb]. rewrite negb_orb. intros H. apply andb_true_iff in H. apply H. }
        assert (G : forall ps v, incl ps types -> unvisited types v + 1 <= f ->
                    exists b v', desc_go (fun p v => is_descendant f parents p anc v) anc ps v = Some (b, v') /\ incl v v').
        { induction ps as [|p r IHr]; intros v Hin Hv.
          - cbn [desc_go]. exists false, v. split; [reflexivity | apply incl_refl].
          - cbn [desc_go]. destruct (str_eqb p anc).
            + exists true, v. split; [reflexivity | apply incl_refl].
            + destruct (IH p v (Hin p (or_introl eq_refl)) Hv) as (b1 & v1 & E1 & M1).
              rewrite E1. destruct b1.
              * exists true, v1. split; [reflexivity | exact M1].
              * destruct (IHr v1) as (b2 & v2 & E2 & M2).
                -- intros x Hx. apply Hin. right; exact Hx.
                -- pose proof (unvisited_mono types _ _ M1). lia.
                -- exists b2, v2. split; [exact E2 | eapply incl_tran; eauto]. }
        destruct (G (parents child) (child :: vis) (Hclosed child Hc) ltac:(lia)) as (b & v' & E & M).
        exists b, v'. split; [exact E|]. intros x Hx. apply M. right; exact Hx.
    Qed.
  End Term.

  (* soundness: true -> reachable by at least one parent step *)
  Lemma desc_sound : forall fuel child vis v', is_descendant fuel parents child anc vis = Some (true, v') ->
    clos_trans _ R child anc.
  Proof.
    induction fuel as [|f IH]; intros child vis v' H; [discriminate|].
    rewrite is_desc_S in H. destruct (mem child vis); [discriminate|].
    assert (G : forall ps v, incl ps (parents child) ->
                desc_go (fun p v => is_descendant f parents p anc v) anc ps v = Some (true, v') -> clos_trans _ R child anc).
    { induction ps as [|p r IHr]; intros v Hin Hg; cbn [desc_go] in Hg; [discriminate|].
      destruct (str_eqbP p anc) as [->|Hne].
      - apply t_step. apply Hin. left; reflexivity.
      - destruct (is_descendant f parents p anc v) as [[[|] v1]|] eqn:E; [| |discriminate].
        + inversion Hg; subst. apply t_trans with p; [apply t_step, Hin; left; reflexivity | apply (IH _ _ _ E)].
        + apply (IHr v1); [|exact Hg]. intros x Hx. apply Hin. right; exact Hx. }
    apply (G _ _ (incl_refl _) H).
  Qed.

  (* completeness: the nodes added to the visited list by a call answering false are fully explored *)
  Definition explored (V V' : list str) : Prop :=
    incl V V' /\ forall x, In x V' -> ~ In x V -> forall p, In p (parents x) -> p <> anc /\ In p V'.

  Lemma explored_refl V : explored V V.
  Proof. split; [apply incl_refl|]. intros x H1 H2. contradiction. Qed.

  Lemma explored_trans A B C : explored A B -> explored B C -> explored A C.
  Proof.
    intros [I1 E1] [I2 E2]. split; [eapply incl_tran; eauto|].
    intros x HxC HxA p Hp.
    destruct (in_dec (list_eq_dec Z.eq_dec) x B) as [HB|HB].
    - destruct (E1 x HB HxA p Hp) as [Hne Hin]. split; [exact Hne | apply I2, Hin].
    - apply (E2 x HxC HB p Hp).
  Qed.

  Lemma desc_false : forall fuel child V V', is_descendant fuel parents child anc V = Some (false, V') ->
    explored V V' /\ In child V'.
  Proof.
    induction fuel as [|f IH]; intros child V V' H; [discriminate|].
    rewrite is_desc_S in H. destruct (mem child V) eqn:Em.
    - inversion H; subst. split; [apply explored_refl | apply mem_In, Em].
    - assert (G : forall ps v, desc_go (fun p v => is_descendant f parents p anc v) anc ps v = Some (false, V') ->
                  explored v V' /\ forall p, In p ps -> p <> anc /\ In p V').
      { induction ps as [|p r IHr]; intros v Hg; cbn [desc_go] in Hg.
        - inversion Hg; subst. split; [apply explored_refl | intros p []].
        - destruct (str_eqbP p anc) as [->|Hne]; [discriminate|].
          destruct (is_descendant f parents p anc v) as [[[|] v1]|] eqn:E; [discriminate| |discriminate].
          destruct (IH _ _ _ E) as [Ex1 Hp1]. destruct (IHr _ Hg) as [Ex2 Hr].
          split; [eapply explored_trans; eauto|].
          intros q [<-|Hq]; [|apply Hr, Hq]. split; [exact Hne | apply (proj1 Ex2), Hp1]. }
      destruct (G _ _ H) as [[I1 E1] Hps].
      assert (Hc : In child V') by (apply I1; left; reflexivity).
      split; [|exact Hc]. split.
      + intros x Hx. apply I1. right; exact Hx.
      + intros x HxV' HxV p Hp.
        destruct (list_eq_dec Z.eq_dec x child) as [->|Hne].
        * apply Hps, Hp.
        * apply (E1 x HxV'); [|exact Hp]. intros [X|X]; [congruence | contradiction].
  Qed.

  Lemma desc_complete : forall fuel child V', is_descendant fuel parents child anc [] = Some (false, V') ->
    ~ clos_trans _ R child anc.
  Proof.
    intros fuel child V' H Hc. destruct (desc_false _ _ _ _ H) as [[_ E] Hin].
    assert (G : forall x y, clos_trans _ R x y -> In x V' -> In y V' /\ y <> anc).
    { intros x y X. induction X as [x y X | x y z _ IH1 _ IH2]; intros Hx.
      - destruct (E x Hx (fun F => F) y X) as [Hne Hy]. split; assumption.
      - apply IH2. apply (IH1 Hx). }
    destruct (G _ _ Hc Hin) as [_ Hne]. apply Hne; reflexivity.
  Qed.

  (* correctness for ANY fuel and any start: whenever the search answers (from an empty visited list), the answer is right *)
  Theorem is_descendant_correct_gen : forall fuel child b vis',
    is_descendant fuel parents child anc [] = Some (b, vis') -> (b = true <-> clos_trans _ R child anc).
  Proof.
    intros fuel child b vis' H. destruct b.
    - split; [intros _; apply (desc_sound _ _ _ _ H) | reflexivity].
    - split; [discriminate | intros Hc; exfalso; apply (desc_complete _ _ _ H Hc)].
  Qed.
End Desc.

Theorem is_descendant_terminates : forall parents types child anc, (forall t, incl (parents t) types) -> In child types ->
  is_descendant (S (List.length types)) parents child anc [] <> None.
Proof.
  intros parents types child anc Hcl Hc.
  destruct (desc_term parents anc types (fun t _ => Hcl t) (S (List.length types)) child [] Hc) as (b & v' & E & _).
  - pose proof (filter_length_le (fun x => negb (mem x [])) types). unfold unvisited. lia.
  - rewrite E. discriminate.
Qed.

Theorem is_descendant_correct : forall parents types child anc, (forall t, incl (parents t) types) -> In child types ->
  forall b vis', is_descendant (S (List.length types)) parents child anc [] = Some (b, vis') ->
  (b = true <-> clos_trans _ (fun a p => In p (parents a)) child anc).
Proof.
  intros parents types child anc _ _ b vis' H. apply (is_descendant_correct_gen parents anc _ _ _ _ H).
Qed.

Lemma all_ok_cons {A B} (f : A -> rres B) x l : all_ok f (x :: l) = rbind (f x) (fun y => rbind (all_ok f l) (fun ys => ROk (y :: ys))).
Proof. reflexivity. Qed.

Lemma all_ok_nofuel {A B} (f : A -> rres B) l : (forall x, f x <> RFuel) -> all_ok f l <> RFuel.
Proof.
  intros H. induction l as [|a l IH]; [discriminate|]. rewrite all_ok_cons.
  apply rbind_nofuel; [apply H|]. intros y. apply rbind_nofuel; [exact IH | discriminate].
Qed.

(* [auto with nofuel]: a result put together with rbind and all_ok from parts that do not run out of fuel does not either.
   Each rbind, all_ok and match on the way costs one unit of depth; the longest chain (in r_act) needs 11. *)
Create HintDb nofuel.
#[local] Hint Resolve rbind_nofuel all_ok_nofuel : nofuel.
#[local] Hint Extern 1 (_ <> RFuel) => discriminate : nofuel.
#[local] Hint Extern 2 (match ?x with _ => _ end <> RFuel) => destruct x : nofuel.

Lemma action_dfs_terminates {X} (actions : list (uid * (list uid * X))) :
  let uids := map fst actions in
  let parents := fun u : uid => match find (fun kv : uid * (list uid * X) => uid_eqb (fst kv) u) (rev actions) with
                                | Some kv => fst (snd kv) | None => [] end in
  existsb (fun a : uid * (list uid * X) => existsb (fun p => negb (existsb (uid_eqb p) uids)) (fst (snd a))) actions = false ->
  fold_left (fun (st : option (bool * list (uid * nat))) (u : uid) =>
               match st with
               | None => None
               | Some (true, v) => Some (true, v)
               | Some (false, v) => visit (S (List.length actions) * S (List.length actions) + 2) parents u v
               end) uids (Some (false, [])) <> None.
Proof.
  intros uids parents Hex.
  assert (Hcl : forall x, In x uids -> incl (parents x) uids).
  { intros x _ p Hp. unfold parents in Hp.
    destruct (find (fun kv : uid * (list uid * X) => uid_eqb (fst kv) x) (rev actions)) as [kv|] eqn:E; [|destruct Hp].
    apply find_some in E. destruct E as [E _]. apply in_rev in E.
    rewrite existsb_false_Forall, Forall_forall in Hex. pose proof (Hex kv E) as H. cbv beta in H.
    rewrite existsb_false_Forall, Forall_forall in H. specialize (H p Hp). cbv beta in H.
    apply negb_false_iff in H. apply existsb_exists in H. destruct H as (y & Hy & Ey).
    apply uid_eqb_eq in Ey. subst. exact Hy. }
  assert (Hlen : List.length uids + 1 <= S (List.length actions) * S (List.length actions) + 2).
  { unfold uids. rewrite map_length. nia. }
  (* every prefix of the fold is at Some: generalise the list (kept inside uids) and the state *)
  pose proof (incl_refl uids) as Hin. revert Hin. generalize uids at 1 3. intros l.
  assert (Hst : Some (false, @nil (uid * nat)) <> None) by discriminate. revert Hst. generalize (Some (false, @nil (uid * nat))).
  induction l as [|u l IH]; intros st Hst Hin; cbn [fold_left]; [exact Hst|].
  apply IH; [|intros x Hx; apply Hin; right; exact Hx].
  destruct st as [[[|] v]|]; [discriminate | | congruence].
  apply (visit_terminates parents uids Hcl); [apply Hin; left; reflexivity | exact Hlen].
Qed.

(* resolve_schema with its local functions named *)
Local Notation rent := (str * (list str * option (list (str * (rty * bool))) * option rty))%type.
Local Notation ract := (uid * (list uid * option (list str * list str * list (str * (rty * bool)))))%type.

Definition r_eref (d : decls) (ns r : str) : rres str := match resolve_entity_ref d ns r with Some x => ROk x | None => RErr end.
Definition r_rt (d : decls) (ns : str) (t : sty) : rres rty := resolve_type (resolve_fuel d t) d ns t.
Definition r_ent_rest (d : decls) (ns : str) (e : s_entity) (ps : list str) : rres rent :=
  rbind (match se_shape e with None => ROk None | Some fs => rbind (r_rt d ns (TyRec fs)) (fun r => match r with RRec x => ROk (Some x) | _ => RErr end) end) (fun sh =>
  rbind (match se_tags e with None => ROk None | Some t => rbind (r_rt d ns t) (fun r => ROk (Some r)) end) (fun tg =>
  ROk (qualify ns (se_name e), (ps, sh, tg)))).
Definition r_ent (d : decls) (ns : str) (e : s_entity) : rres rent :=
  rbind (all_ok (r_eref d ns) (se_parents e)) (r_ent_rest d ns e).
Definition r_act (d : decls) (ns : str) (a : s_action) : rres ract :=
  rbind (match sac_applies a with
         | None => ROk None
         | Some ap =>
             rbind (all_ok (r_eref d ns) (sa_principals ap)) (fun pr =>
             rbind (all_ok (r_eref d ns) (sa_resources ap)) (fun rr =>
             rbind (match sa_context ap with
                    | None => ROk []
                    | Some t => rbind (r_rt d ns t) (fun r => match r with RRec x => ROk x | _ => RErr end)
                    end) (fun cx => ROk (Some (pr, rr, cx)))))
         end) (fun ap => ROk (action_uid ns a, (map (parent_uid ns) (sac_parents a), ap))).
Definition r_fin (ce : list rent) (actions : list ract) : verdict :=
  let uids := map fst actions in
  let parents (u : uid) : list uid := match find (fun kv : ract => uid_eqb (fst kv) u) (rev actions) with Some kv => fst (snd kv) | None => [] end in
  if existsb (fun a : ract => existsb (fun p => negb (existsb (uid_eqb p) uids)) (fst (snd a))) actions then VErr else
  let fuel := (S (List.length actions) * S (List.length actions) + 2)%nat in
  match fold_left (fun (st : option (bool * list (uid * nat))) (u : uid) =>
                     match st with
                     | None => None
                     | Some (true, v) => Some (true, v)
                     | Some (false, v) => visit fuel parents u v
                     end) uids (Some (false, [])) with
  | None => VFuel
  | Some (true, _) => VErr
  | Some (false, _) => VOk {| rs_entities := ce; rs_actions := actions |}
  end.

Lemma resolve_schema_eq S :
  resolve_schema S =
  match register S with
  | None => VErr
  | Some d =>
      if negb (shadowing_ok S) then VErr else
      if negb (cycle_free d) then VErr else
      match all_ok (fun ns => all_ok (r_ent d (sn_name ns)) (sn_entities ns)) S, all_ok (fun ns => all_ok (r_act d (sn_name ns)) (sn_actions ns)) S with
      | ROk es, ROk acts => r_fin (List.concat es) (List.concat acts)
      | RFuel, _ | _, RFuel => VFuel
      | _, _ => VErr
      end
  end.
Proof. reflexivity. Qed.

Lemma r_eref_nofuel d ns x : r_eref d ns x <> RFuel.
Proof. unfold r_eref. destruct (resolve_entity_ref d ns x); discriminate. Qed.

Lemma r_fin_nofuel ce actions : r_fin ce actions <> VFuel.
Proof.
  unfold r_fin. destruct (existsb _ actions) eqn:Hex; [discriminate|].
  pose proof (action_dfs_terminates actions Hex) as H. cbv zeta in H.
  destruct (fold_left _ _ _) as [[[|] v]|]; [discriminate | discriminate | congruence].
Qed.

(* no hypothesis on the names *)
Theorem resolve_schema_terminates : forall s, resolve_schema s <> VFuel.
Proof.
  intros s. rewrite resolve_schema_eq.
  destruct (register s) as [d|]; [|discriminate].
  destruct (negb (shadowing_ok s)); [discriminate|].
  destruct (cycle_free d) eqn:Hc; [|discriminate]. cbn [negb].
  pose proof (fun ns t => resolve_type_terminates d ns t Hc) as Hrt. pose proof (r_eref_nofuel d) as Href.
  assert (He : all_ok (fun ns => all_ok (r_ent d (sn_name ns)) (sn_entities ns)) s <> RFuel).
  { unfold r_ent, r_ent_rest, r_rt. auto 11 with nofuel. }
  assert (Ha : all_ok (fun ns => all_ok (r_act d (sn_name ns)) (sn_actions ns)) s <> RFuel).
  { unfold r_act, r_rt. auto 11 with nofuel. }
  destruct (all_ok _ s) as [es| |]; [| |congruence]; destruct (all_ok _ s) as [acts| |]; try discriminate; try congruence.
  apply r_fin_nofuel.
Qed.

(* Two schemas whose common type refers to itself only if the declaring namespace is the recorded one and is not re-derived from
   the qualified path "a:::T" (finding F40: cedar-go before the repair overflowed its stack on the first):
   (1) namespace "a", common type ":T" = ":T", used by an entity;
   (2) namespace "a:", common type "T" = "T", used by an entity.
   With the declaring namespace recorded at registration both are rejected as cycles. *)
Definition ex_schema (ns ct : str) : s_schema :=
  [ {| sn_name := ns;
       sn_entities := [ {| se_name := s_of "E"; se_parents := []; se_shape := Some [(s_of "f", (TyRef ct, false))]; se_tags := None |} ];
       sn_enums := []; sn_commons := [(ct, TyRef ct)]; sn_actions := [] |} ].

Example ex1_registered : option_map d_commons (register (ex_schema (s_of "a") (s_of ":T"))) = Some [(s_of "a:::T", (s_of "a", TyRef (s_of ":T")))].
Proof. vm_compute. reflexivity. Qed.
Example ex1_not_cycle_free : option_map cycle_free (register (ex_schema (s_of "a") (s_of ":T"))) = Some false.
Proof. vm_compute. reflexivity. Qed.
Example ex1_rejected : resolve_schema (ex_schema (s_of "a") (s_of ":T")) = VErr.
Proof. vm_compute. reflexivity. Qed.
Example ex2_not_cycle_free : option_map cycle_free (register (ex_schema (s_of "a:") (s_of "T"))) = Some false.
Proof. vm_compute. reflexivity. Qed.
Example ex2_rejected : resolve_schema (ex_schema (s_of "a:") (s_of "T")) = VErr.
Proof. vm_compute. reflexivity. Qed.

Print Assumptions kahn_rank.
Print Assumptions kahn_sound.
Print Assumptions expand_dep.
Print Assumptions resolve_type_terminates.
Print Assumptions resolve_schema_terminates.
Print Assumptions action_dfs_terminates.
Print Assumptions visit_terminates.
Print Assumptions is_descendant_terminates.
Print Assumptions is_descendant_correct.
Print Assumptions is_descendant_correct_gen.
