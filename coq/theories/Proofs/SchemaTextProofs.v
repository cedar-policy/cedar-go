(* Proofs about Impl/SchemaText.v, part 2 of 2: the schema TEXT codec round-trips.
     parse_print_schema     : wf_text s = true -> parse_schema (print_schema s) = SOk (norm_text s)
     norm_text_idempotent   : wf_text s = true -> norm_text (norm_text s) = norm_text s /\ wf_text (norm_text s) = true
     second_text_rendering  : wf_text s = true -> print_schema (norm_text s) = print_schema s
   The lexer lemmas ([rd], the token reader as a function of the unread input) are in SchemaTextProofs1.v.
   The printer writes a built-in type name as __cedar::Name when the schema declares a type of that name (shadowed_builtins);
   norm_text follows it, the parser lemmas are proved for an arbitrary set [sh] of built-in names (Section WithShadowed), and
   the resolution theorem (resolve_norm_text_names') needs no hypothesis on the declared names.

   Shape of the parser lemmas.  The parser state holds ONE token of lookahead, so parsing the text [X ++ rest] of a construct
   needs the first token of [rest] to be readable; every lemma has the form
       rd rest = SOk st' -> (side conditions on rest / st') -> 2 * length (X ++ rest) + c <= fuel ->
       exists st, rd (X ++ rest) = SOk st /\ parse_X fuel st = SOk (norm x, st')
   i.e. from the state that has just read the first token of X, parse_X returns the normalised value and the state that has just read
   the first token of [rest].  The side conditions say that [rest] does not continue X (stopb rest: no identifier byte; the token
   of st' is not '::' ...); where the caller has to choose a branch on the first token of X, the lemma also gives its kind (tk st).
   The fuel bound mentions the whole remaining text so that sub-calls and loop iterations only need "the text got shorter";
   its constant c is one more than the largest c of the lemmas called, plus one for every decrement of the fuel that does not
   consume text (the last entry of a loop, an optional part that is absent).
   Proofs run the parser on the text: [sst] evaluates the tests on a known current token, the [rd_*] rules read the next one.
   Loops whose body is large (applies_loop, record_loop) get one equation per iteration, stated about variables, so that the
   body is unfolded once and not in front of a long concrete text. *)
From Coq Require Import String.
From Coq Require Import ZArith List Bool Lia Arith.
Import ListNotations.
From Cedar Require Import Base.Utf8 Base.Utf8Enc Lang.Value Impl.Tokenizer Impl.Quote Impl.PolicyJson Impl.SchemaJson Impl.SchemaText.
From Cedar Require Import Impl.SchemaResolve Proofs.SchemaResolveProofs.
From Cedar Require Import Proofs.ValueProofs Proofs.QuoteProofs Proofs.SchemaJsonProofs Proofs.SchemaTextProofs1.
Local Open Scope Z_scope.

Local Notation "x <- e ;; f" := (sbind e (fun x => f)) (at level 61, e at next level, right associativity).
Local Notation "' p <- e ;; f" := (sbind e (fun p => f)) (at level 61, p pattern, e at next level, right associativity).
Local Notation xattr := (xty * bool * annots)%type.

(* What the text syntax can express: wf_text *)
(* byte-level isValidIdent *)
Definition identb (s : str) : bool := word s && negb (is_reserved s).
(* a name written by marshalAttrName / marshalActionName: bare when it is a valid identifier, else quoted - and quoteCedar only
   reads back on valid UTF-8 (an invalid byte is written as \u{fffd}) *)
Definition name_ok (s : str) : bool := is_valid_ident s || utf8_ok s.
(* a reference to an entity type (memberOfTypes, principal / resource types, the type of an action parent), written verbatim and
   read by parsePath: IDENT { '::' IDENT }; the first component may also be the reserved word __cedar *)
Definition ent_path (r : str) : bool :=
  match comps r with
  | c :: cs => word c && (negb (is_reserved c) || str_eqb (s_of "__cedar") c) && forallb identb cs
  | [] => false
  end.
(* a type name in a type position (attribute, Set element, common type body, tags, context): as above, but parseType takes a
   first component `Set` for the set constructor *)
Definition type_path (r : str) : bool :=
  ent_path r && negb (str_eqb (s_of "Set") (hd [] (comps r))).
(* a namespace name: parseNamespace rejects __cedar anywhere *)
Definition ns_path (r : str) : bool := forallb identb (comps r).
(* annotations: the key is written verbatim after '@' and may be any identifier-shaped word, reserved or not *)
Definition annots_ok (a : annots) : bool :=
  keys_sorted a && forallb (fun kv : str * str => word (fst kv) && utf8_ok (snd kv)) a.

Fixpoint wf_tty (t : xty) : bool :=
  match t with
  | XString | XLong | XBool => true
  | XExt n => type_path n
  | XEnt r => type_path r
  | XRef r => type_path r
  | XSet e => wf_tty e
  | XRec fs => keys_sorted fs
               && (fix go (l : xrec) : bool :=
                     match l with
                     | [] => true
                     | x :: rest => name_ok (fst x) && wf_tty (fst (fst (snd x))) && annots_ok (snd (snd x)) && go rest
                     end) fs
  end.
Definition wf_tattr (kv : str * xattr) : bool := name_ok (fst kv) && wf_tty (fst (fst (snd kv))) && annots_ok (snd (snd kv)).
Lemma wf_tty_rec fs : wf_tty (XRec fs) = keys_sorted fs && forallb wf_tattr fs.
Proof. reflexivity. Qed.

Definition opt_wf_tty (o : option xty) : bool := match o with Some t => wf_tty t | None => true end.
Definition wf_entity_t (e : x_entity) : bool :=
  annots_ok (xe_annots e) && forallb ent_path (xe_parents e) && opt_wf_tty (option_map XRec (xe_shape e)) && opt_wf_tty (xe_tags e).
Definition wf_enum_t (e : x_enum) : bool := annots_ok (xn_annots e) && forallb utf8_ok (xn_values e).
Definition wf_common_t (c : x_common) : bool := annots_ok (xc_annots c) && wf_tty (xc_type c).
(* the grammar requires both a principal and a resource list, and neither may be empty (finding F45) *)
Definition wf_applies_t (a : x_applies) : bool :=
  negb (is_nil (xa_principals a)) && forallb ent_path (xa_principals a)
  && negb (is_nil (xa_resources a)) && forallb ent_path (xa_resources a) && opt_wf_tty (xa_context a).
Definition wf_parent (p : str * str) : bool :=
  match fst p with [] => name_ok (snd p) | ty => ent_path ty && utf8_ok (snd p) end.
Definition wf_action_t (a : x_action) : bool :=
  annots_ok (xac_annots a) && forallb wf_parent (xac_parents a)
  && match xac_applies a with Some ap => wf_applies_t ap | None => true end.

Definition wf_ns_t (n : x_ns) : bool :=
  annots_ok (xs_annots n)
  && keys_sorted (xs_entities n) && forallb (fun kv : str * x_entity => is_valid_ident (fst kv) && wf_entity_t (snd kv)) (xs_entities n)
  && keys_sorted (xs_enums n) && forallb (fun kv : str * x_enum => is_valid_ident (fst kv) && wf_enum_t (snd kv)) (xs_enums n)
  && disjoint_keys (xs_entities n) (xs_enums n)
  && keys_sorted (xs_commons n)
  && forallb (fun kv : str * x_common => is_valid_ident (fst kv) && negb (is_reserved_type_name (fst kv)) && wf_common_t (snd kv)) (xs_commons n)
  && keys_sorted (xs_actions n) && forallb (fun kv : str * x_action => name_ok (fst kv) && wf_action_t (snd kv)) (xs_actions n).

Definition wf_text (s : x_schema) : bool :=
  keys_sorted s
  && forallb (fun kv : str * x_ns => wf_ns_t (snd kv) && match fst kv with [] => is_nil (xs_annots (snd kv)) | name => ns_path name end) s.

(* What comes back: norm_text *)
(* the parser does not classify type names: every name is an ast.TypeRef; a built-in name comes back as it was written,
   i.e. with the __cedar:: prefix when the schema declares a type of that name ([sh] = shadowedBuiltins) *)
Fixpoint norm_ty (sh : str -> bool) (t : xty) : xty :=
  match t with
  | XString => XRef (write_builtin sh (s_of "String"))
  | XLong => XRef (write_builtin sh (s_of "Long"))
  | XBool => XRef (write_builtin sh (s_of "Bool"))
  | XExt n => XRef (write_builtin sh n)
  | XEnt r => XRef r
  | XRef r => XRef r
  | XSet e => XSet (norm_ty sh e)
  | XRec fs => XRec ((fix go (l : xrec) : xrec :=
                        match l with [] => [] | x :: r => (fst x, (norm_ty sh (fst (fst (snd x))), snd (fst (snd x)), snd (snd x))) :: go r end) fs)
  end.
Definition norm_attr (sh : str -> bool) (a : xattr) : xattr := (norm_ty sh (fst (fst a)), snd (fst a), snd a).
Lemma norm_ty_rec sh fs : norm_ty sh (XRec fs) = XRec (mapv (norm_attr sh) fs).
Proof. reflexivity. Qed.
Definition norm_rec (sh : str -> bool) (fs : xrec) : xrec := mapv (norm_attr sh) fs.

Definition norm_entity_t (sh : str -> bool) (e : x_entity) : x_entity :=
  {| xe_annots := xe_annots e; xe_parents := xe_parents e; xe_shape := option_map (norm_rec sh) (xe_shape e);
     xe_tags := option_map (norm_ty sh) (xe_tags e) |}.
Definition norm_common_t (sh : str -> bool) (c : x_common) : x_common := {| xc_annots := xc_annots c; xc_type := norm_ty sh (xc_type c) |}.
Definition norm_applies_t (sh : str -> bool) (a : x_applies) : x_applies :=
  {| xa_principals := xa_principals a; xa_resources := xa_resources a; xa_context := option_map (norm_ty sh) (xa_context a) |}.
Definition norm_action_t (sh : str -> bool) (a : x_action) : x_action :=
  {| xac_annots := xac_annots a; xac_parents := xac_parents a; xac_applies := option_map (norm_applies_t sh) (xac_applies a) |}.
Definition norm_ns_t (sh : str -> bool) (n : x_ns) : x_ns :=
  {| xs_annots := xs_annots n; xs_entities := mapv (norm_entity_t sh) (xs_entities n); xs_enums := xs_enums n;
     xs_commons := mapv (norm_common_t sh) (xs_commons n); xs_actions := mapv (norm_action_t sh) (xs_actions n) |}.
(* the bare declarations are listed only when there are any (ns_keep, as for the JSON codec) *)
Definition norm_text (s : x_schema) : x_schema := mapv (norm_ns_t (shadowed_builtins s)) (filter ns_keep s).

(* the built-in names the printer may prefix *)
Definition is_builtin_name (n : str) : bool := existsb (fun b => str_eqb (s_of b) n) builtin_type_names.
Lemma shadowed_builtin : forall m n, shadowed_builtins m n = true -> is_builtin_name n = true.
Proof. intros m n H. unfold shadowed_builtins in H. apply andb_true_iff in H. destruct H as [H _]. exact H. Qed.
Lemma builtin_name_cases : forall n (P : str -> Prop), is_builtin_name n = true ->
  P (s_of "String") -> P (s_of "Long") -> P (s_of "Bool") -> P (s_of "ipaddr") -> P (s_of "decimal") -> P (s_of "datetime") -> P (s_of "duration") -> P n.
Proof.
  intros n P H. unfold is_builtin_name, builtin_type_names in H. cbn [existsb] in H. intros.
  repeat (apply orb_true_iff in H; destruct H as [H|H]); try discriminate; apply str_eqb_eq in H; subst n; assumption.
Qed.
Lemma type_path_wb : forall sh name, (forall n, sh n = true -> is_builtin_name n = true) -> type_path name = true ->
  type_path (write_builtin sh name) = true.
Proof.
  intros sh name Hsh Hp. unfold write_builtin. destruct (sh name) eqn:E; [|exact Hp].
  apply (builtin_name_cases name (fun n => type_path (s_of "__cedar::" ++ n) = true) (Hsh _ E)); reflexivity.
Qed.

Lemma is_mk : forall K t s K', is (MkSt (mk_tok K t) s) K' = ttype_beq K K'.
Proof. reflexivity. Qed.
Lemma txt_mk : forall K t s, txt (MkSt (mk_tok K t) s) = t.
Proof. reflexivity. Qed.
Lemma kw_mk : forall K t s w, kw (MkSt (mk_tok K t) s) w = str_eqb (s_of w) t.
Proof. reflexivity. Qed.
Lemma tk_mk : forall K t s, tk (MkSt (mk_tok K t) s) = K.
Proof. reflexivity. Qed.
Lemma read_token_mk : forall t s, read_token (MkSt t s) = rd s.
Proof. reflexivity. Qed.

(* [kwc] evaluates the comparisons of two keyword literals; [sst] is one step of running the parser on a state MkSt (mk_tok K t) s
   whose token is known: the tests is / kw / txt compute, read_token becomes rd s, sbind on SOk reduces.
   [flen] proves a fuel bound from the one in the context, both about lengths of concatenated texts. *)
Local Ltac kwc :=
  repeat match goal with
         | |- context [str_eqb (s_of ?a) (s_of ?b)] =>
           let v := eval vm_compute in (str_eqb (s_of a) (s_of b)) in change (str_eqb (s_of a) (s_of b)) with v
         end.
Local Ltac sst :=
  repeat (progress (unfold expect, opt_comma; rewrite ?is_mk, ?kw_mk, ?txt_mk, ?tk_mk, ?read_token_mk; kwc;
                    cbn [ttype_beq negb andb orb sbind])).
Local Ltac flen := repeat (first [rewrite app_length in * | progress cbn [length] in * ]); lia.
(* right-nested text: (a ++ b) ++ c and (x :: a) ++ b in normal form *)
Local Ltac tnorm := repeat (first [rewrite <- app_assoc | progress cbn [app]]).
Local Ltac tnorm_in H := repeat (first [rewrite <- app_assoc in H | progress cbn [app] in H]).
Lemma has_key_last : forall (A : Type) k (v : A) acc, keys_sorted (acc ++ [(k, v)]) = true -> has_key k acc = false.
Proof.
  intros A k v acc. induction acc as [|[k' v'] acc IH]; intros Hs; [reflexivity|].
  cbn [app] in Hs. pose proof (keys_sorted_all_lt _ _ _ Hs) as HF. rewrite Forall_forall in HF.
  assert (Hlt : str_ltb k' k = true) by (apply (HF (k, v)); apply in_app_iff; right; left; reflexivity).
  unfold has_key in *. cbn [rec_get].
  destruct (str_eqb k k') eqn:E.
  { apply str_eqb_eq in E. subst k'. rewrite str_ltb_irrefl in Hlt. discriminate. }
  apply IH. apply keys_sorted_cons in Hs. tauto.
Qed.

Lemma sorted_mapv_snoc : forall (A B : Type) (g : A -> B) pre k v, keys_sorted (pre ++ [(k, v)]) = true ->
  keys_sorted (mapv g pre ++ [(k, g v)]) = true.
Proof. intros A B g pre k v Hs. rewrite <- (sj_sorted_mapv g) in Hs. unfold mapv in Hs. rewrite map_app in Hs. exact Hs. Qed.
Lemma insert_mapv_last : forall (A B : Type) (g : A -> B) pre k v, keys_sorted (pre ++ [(k, v)]) = true ->
  rec_insert k (g v) (mapv g pre) = mapv g (pre ++ [(k, v)]).
Proof. intros A B g pre k v Hs. unfold mapv at 2. rewrite map_app. apply rec_insert_last, sorted_mapv_snoc, Hs. Qed.
Lemma has_key_mapv_last : forall (A B : Type) (g : A -> B) pre k v, keys_sorted (pre ++ [(k, v)]) = true -> has_key k (mapv g pre) = false.
Proof. intros A B g pre k v Hs. apply (has_key_last B k (g v)), sorted_mapv_snoc, Hs. Qed.
Lemma sorted_snoc : forall (A : Type) (pre : list (str * A)) kv l, keys_sorted (pre ++ kv :: l) = true -> keys_sorted (pre ++ [kv]) = true.
Proof. intros A pre kv l H. apply (keys_sorted_app_l (pre ++ [kv]) l). rewrite <- app_assoc. exact H. Qed.

Definition pa (ind : nat) (l : annots) : str :=
  flat_map (fun kv : str * str =>
              tabs ind ++ [64] ++ fst kv ++ (match snd kv with [] => [] | v => [40] ++ quote_cedar v ++ [41] end) ++ [10]) l.

Lemma print_annotations_sorted : forall ind a, keys_sorted a = true -> print_annotations ind a = pa ind a.
Proof. intros ind a H. unfold print_annotations. rewrite rec_of_list_sorted_id by exact H. reflexivity. Qed.

Definition annot_ok (kv : str * str) : bool := word (fst kv) && utf8_ok (snd kv).

(* the key of an annotation may be reserved or not *)
Lemma key_tok_ok : forall (b : bool) t s,
  let st := MkSt (mk_tok (if b then KReserved else KIdent) t) s in is st KIdent || is st KReserved = true.
Proof. intros [|] t s; reflexivity. Qed.

Lemma annots_lemma : forall l pre ind fuel rest st',
  keys_sorted (pre ++ l) = true -> forallb annot_ok l = true ->
  rd rest = SOk st' -> is st' KAt = false -> is st' KLParen = false ->
  (2 * length (pa ind l ++ rest) + 1 <= fuel)%nat ->
  exists st, rd (pa ind l ++ rest) = SOk st /\ parse_annotations fuel pre st = SOk (pre ++ l, st') /\ (tk st = KAt \/ st = st').
Proof.
  induction l as [|[key v] l IH]; intros pre ind fuel rest st' Hs Hok Hrd HnAt HnLP Hf.
  - exists st'. cbn [pa flat_map app]. split; [exact Hrd|]. split; [|right; reflexivity].
    destruct fuel as [|f]; [exfalso; flen|]. cbn [parse_annotations]. rewrite HnAt. cbn [negb]. rewrite app_nil_r. reflexivity.
  - cbn [forallb] in Hok. apply andb_true_iff in Hok. destruct Hok as [Hkv Hok]. unfold annot_ok in Hkv. cbn [fst snd] in Hkv.
    apply andb_true_iff in Hkv. destruct Hkv as [Hw Hv].
    cbn [pa flat_map fst snd] in Hf |- *. fold (pa ind l) in Hf |- *.
    destruct fuel as [|f]; [exfalso; flen|].
    assert (Hs' : keys_sorted ((pre ++ [(key, v)]) ++ l) = true) by (rewrite <- app_assoc; exact Hs).
    destruct (IH (pre ++ [(key, v)]) ind f rest st' Hs' Hok Hrd HnAt HnLP ltac:(flen)) as (st2 & Hrd2 & Hp2 & Hk2).
    assert (HLP2 : is st2 KLParen = false).
    { destruct Hk2 as [Hk2| ->]; [apply (is_no _ _ [KAt]); [left; symmetry; exact Hk2 | reflexivity] | exact HnLP]. }
    assert (Hins : rec_insert key v pre = pre ++ [(key, v)]) by (apply rec_insert_last; eapply keys_sorted_app_l; exact Hs').
    assert (Hhk : has_key key pre = false) by (eapply has_key_last; eapply keys_sorted_app_l; exact Hs').
    rewrite <- !app_assoc. cbn [app].
    eexists. split; [rewrite rd_tabs, rd_at; reflexivity|]. split; [|left; reflexivity].
    cbn [parse_annotations]. sst.
    destruct v as [|c v'].
    + cbn [app]. rewrite rd_word by (try exact Hw; reflexivity). cbn [sbind]. rewrite key_tok_ok. sst.
      rewrite rd_nl, Hrd2. sst. rewrite HLP2. sst. rewrite Hhk, Hins, Hp2, <- app_assoc. reflexivity.
    + cbn [app]. rewrite <- ?app_assoc. cbn [app]. rewrite rd_word by (try exact Hw; reflexivity). cbn [sbind]. rewrite key_tok_ok. sst.
      rewrite rd_lparen. sst. rewrite rd_string by exact Hv. sst. rewrite rd_rparen. sst.
      rewrite rd_nl, Hrd2. sst. rewrite Hhk, Hins, Hp2, <- app_assoc. reflexivity.
Qed.

Lemma name_lemma : forall key rest st', name_ok key = true -> stopb rest = true -> rd rest = SOk st' ->
  exists st, rd (print_name key ++ rest) = SOk st /\ parse_name st = SOk (key, st') /\ (tk st = KIdent \/ tk st = KString).
Proof.
  intros key rest st' Hok Hstop Hrd. unfold print_name, name_ok in *.
  destruct (is_valid_ident key) eqn:E.
  - destruct (valid_ident_word key E) as [Hw Hres]. eexists.
    split; [rewrite rd_word by assumption; rewrite Hres; reflexivity|].
    split; [|left; reflexivity]. unfold parse_name. sst. rewrite Hrd. reflexivity.
  - cbn [orb] in Hok. eexists. split; [apply rd_string; exact Hok|]. split; [|right; reflexivity].
    unfold parse_name. sst. rewrite Hrd. reflexivity.
Qed.

Lemma identb_inv : forall c, identb c = true -> word c = true /\ is_reserved c = false.
Proof. intros c H. unfold identb in H. apply andb_true_iff in H. destruct H as [H1 H2]. apply negb_true_iff in H2. tauto. Qed.

Lemma dcs_cons : forall c cs, dcs (c :: cs) = 58 :: 58 :: c ++ dcs cs.
Proof. reflexivity. Qed.

Lemma stopb_dcs : forall cs rest, stopb rest = true -> stopb (dcs cs ++ rest) = true.
Proof. intros [|c cs] rest H; [exact H|reflexivity]. Qed.

Lemma path_rest_lemma : forall cs fuel rest st', forallb identb cs = true -> stopb rest = true ->
  rd rest = SOk st' -> is st' KDoubleColon = false -> (2 * length (dcs cs ++ rest) + 1 <= fuel)%nat ->
  exists st, rd (dcs cs ++ rest) = SOk st /\ (forall path, path_rest fuel path st = SOk (path ++ dcs cs, st'))
             /\ (tk st = KDoubleColon \/ st = st').
Proof.
  induction cs as [|c cs IH]; intros fuel rest st' Hcs Hstop Hrd Hnd Hf.
  - exists st'. split; [exact Hrd|]. split; [|right; reflexivity]. intros path.
    destruct fuel as [|f]; [exfalso; flen|]. cbn [path_rest]. rewrite Hnd. cbn [negb dcs flat_map]. rewrite app_nil_r. reflexivity.
  - cbn [forallb] in Hcs. apply andb_true_iff in Hcs. destruct Hcs as [Hc Hcs]. destruct (identb_inv c Hc) as [Hw Hres].
    rewrite dcs_cons in Hf |- *. destruct fuel as [|f]; [exfalso; flen|].
    destruct (IH f rest st' Hcs Hstop Hrd Hnd ltac:(flen)) as (st2 & Hrd2 & Hp2 & _).
    cbn [app]. rewrite <- app_assoc. eexists. split; [apply rd_dcolon|]. split; [|left; reflexivity]. intros path.
    cbn [path_rest]. sst. rewrite rd_word by (try exact Hw; apply stopb_dcs; exact Hstop). rewrite Hres. sst.
    rewrite Hrd2. sst. rewrite Hp2. unfold dcolon. rewrite <- !app_assoc. reflexivity.
Qed.

Definition first_ok (c : str) : bool := word c && (negb (is_reserved c) || str_eqb (s_of "__cedar") c).

(* the first component of a path is an identifier or the reserved word __cedar *)
Lemma first_tok_ok : forall c s, first_ok c = true ->
  path_start_ok (MkSt (mk_tok (if is_reserved c then KReserved else KIdent) c) s) = true.
Proof.
  intros c s H. unfold first_ok in H. apply andb_true_iff in H. destruct H as [_ H]. unfold path_start_ok. rewrite !is_mk, kw_mk.
  destruct (is_reserved c); [exact H|reflexivity].
Qed.

Lemma path_lemma_c : forall c cs fuel rest st', first_ok c = true -> forallb identb cs = true -> stopb rest = true ->
  rd rest = SOk st' -> is st' KDoubleColon = false -> (2 * length ((c ++ dcs cs) ++ rest) + 1 <= fuel)%nat ->
  exists st, rd ((c ++ dcs cs) ++ rest) = SOk st /\ parse_path fuel st = SOk (c ++ dcs cs, st')
             /\ (tk st = KIdent \/ tk st = KReserved) /\ txt st = c.
Proof.
  intros c cs fuel rest st' Hc Hcs Hstop Hrd Hnd Hf. assert (Hw : word c = true) by (unfold first_ok in Hc; apply andb_true_iff in Hc; tauto).
  rewrite <- app_assoc in Hf |- *.
  destruct (path_rest_lemma cs fuel rest st' Hcs Hstop Hrd Hnd ltac:(flen)) as (st2 & Hrd2 & Hp2 & _).
  eexists. split; [apply rd_word; [exact Hw|apply stopb_dcs; exact Hstop]|].
  split; [|split; [destruct (is_reserved c); [right|left]; reflexivity | reflexivity]].
  unfold parse_path. rewrite (first_tok_ok c _ Hc). sst. rewrite Hrd2. sst. apply Hp2.
Qed.

Lemma ent_path_inv : forall r, ent_path r = true ->
  exists c cs, comps r = c :: cs /\ c ++ dcs cs = r /\ first_ok c = true /\ forallb identb cs = true.
Proof.
  intros r H. destruct (comps_spec r) as (c & cs & Hc & Hj). unfold ent_path in H. rewrite Hc in H.
  apply andb_true_iff in H. destruct H as [H1 H2]. exists c, cs. unfold first_ok. auto.
Qed.

Lemma path_lemma : forall r fuel rest st', ent_path r = true -> stopb rest = true ->
  rd rest = SOk st' -> is st' KDoubleColon = false -> (2 * length (r ++ rest) + 1 <= fuel)%nat ->
  exists st, rd (r ++ rest) = SOk st /\ parse_path fuel st = SOk (r, st')
             /\ (tk st = KIdent \/ tk st = KReserved) /\ txt st = hd [] (comps r).
Proof.
  intros r fuel rest st' Hr Hstop Hrd Hnd Hf. destruct (ent_path_inv r Hr) as (c & cs & Hc & Hj & Hfc & Hcs).
  rewrite Hc. cbn [hd]. rewrite <- Hj in Hf |- *. apply path_lemma_c; assumption.
Qed.

Lemma ns_path_ent_path : forall r, ns_path r = true -> ent_path r = true.
Proof.
  intros r H. unfold ns_path, ent_path in *. destruct (comps_spec r) as (c & cs & Hcomps & _). rewrite Hcomps in *.
  cbn [forallb] in H. apply andb_true_iff in H. destruct H as [Hc Hcs]. destruct (identb_inv c Hc) as [Hw Hr]. rewrite Hw, Hr, Hcs. reflexivity.
Qed.

Lemma ns_path_no_cedar : forall r, ns_path r = true -> existsb (str_eqb (s_of "__cedar")) (split_dcolon r []) = false.
Proof.
  intros r H. unfold ns_path, comps in H. induction (split_dcolon r []) as [|c cs IH]; [reflexivity|].
  cbn [forallb existsb] in *. apply andb_true_iff in H. destruct H as [Hc Hcs]. rewrite (IH Hcs), orb_false_r.
  destruct (identb_inv c Hc) as [_ Hr]. destruct (str_eqb (s_of "__cedar") c) eqn:E; [|reflexivity].
  apply str_eqb_eq in E. subst c. discriminate.
Qed.

(* Path '::' STR and the bare name of an action parent *)
Lemma path_ref_rest_q : forall cs fuel id rest st', forallb identb cs = true -> utf8_ok id = true -> rd rest = SOk st' ->
  (2 * length (dcs cs ++ 58%Z :: 58%Z :: quote_cedar id ++ rest) + 1 <= fuel)%nat ->
  exists st, rd (dcs cs ++ 58 :: 58 :: quote_cedar id ++ rest) = SOk st
             /\ forall path, path_ref_rest fuel path st = SOk (path ++ dcs cs, id, true, st').
Proof.
  induction cs as [|c cs IH]; intros fuel id rest st' Hcs Hid Hrd Hf.
  - cbn [dcs flat_map app] in *. eexists. split; [apply rd_dcolon|]. intros path.
    destruct fuel as [|f]; [exfalso; flen|]. cbn [path_ref_rest]. sst. rewrite rd_string by exact Hid. sst. rewrite Hrd. sst.
    rewrite app_nil_r. reflexivity.
  - cbn [forallb] in Hcs. apply andb_true_iff in Hcs. destruct Hcs as [Hc Hcs]. destruct (identb_inv c Hc) as [Hw Hres].
    rewrite dcs_cons in Hf |- *. destruct fuel as [|f]; [exfalso; flen|].
    destruct (IH f id rest st' Hcs Hid Hrd ltac:(flen)) as (st2 & Hrd2 & Hp2).
    cbn [app]. rewrite <- app_assoc. eexists. split; [apply rd_dcolon|]. intros path.
    cbn [path_ref_rest]. sst. rewrite rd_word by (try exact Hw; destruct cs; reflexivity). rewrite Hres. sst.
    rewrite Hrd2. sst. rewrite Hp2. unfold dcolon. rewrite <- !app_assoc. reflexivity.
Qed.

Lemma qual_name_lemma : forall p fuel rest st', wf_parent p = true -> stopb rest = true -> rd rest = SOk st' ->
  is st' KDoubleColon = false -> (2 * length (print_parent_ref p ++ rest) + 2 <= fuel)%nat ->
  exists st, rd (print_parent_ref p ++ rest) = SOk st /\ parse_qual_name fuel st = SOk (p, st')
             /\ In (tk st) [KIdent; KReserved; KString].
Proof.
  intros [ty id] fuel rest st' Hwf Hstop Hrd Hnd Hf. unfold wf_parent, print_parent_ref in *. cbn [fst snd] in *.
  destruct ty as [|t0 ty'].
  - unfold print_name, name_ok in *. destruct (is_valid_ident id) eqn:E.
    + destruct (valid_ident_word id E) as [Hw Hres]. eexists.
      split; [rewrite rd_word by assumption; rewrite Hres; reflexivity|]. split; [|left; reflexivity].
      unfold parse_qual_name, parse_path_for_ref, path_start_ok. sst. rewrite Hrd. sst.
      destruct fuel as [|f]; [exfalso; flen|]. cbn [path_ref_rest]. rewrite Hnd. reflexivity.
    + cbn [orb] in Hwf. eexists. split; [apply rd_string; exact Hwf|]. split; [|right; right; left; reflexivity].
      unfold parse_qual_name. sst. rewrite Hrd. reflexivity.
  - apply andb_true_iff in Hwf. destruct Hwf as [Hty Hid]. destruct (ent_path_inv _ Hty) as (c & cs & Hc & Hj & Hfc & Hcs).
    rewrite <- Hj in Hf |- *. unfold dcolon in *. rewrite <- !app_assoc in Hf |- *. cbn [app] in Hf |- *.
    assert (Hw : word c = true) by (unfold first_ok in Hfc; apply andb_true_iff in Hfc; tauto).
    destruct (path_ref_rest_q cs fuel id rest st' Hcs Hid Hrd ltac:(flen)) as (st2 & Hrd2 & Hp2).
    eexists. split; [apply rd_word; [exact Hw|destruct cs; reflexivity]|].
    split; [|destruct (is_reserved c); [right; left|left]; reflexivity].
    unfold parse_qual_name, parse_path_for_ref. rewrite (first_tok_ok c _ Hfc), (is_no _ KString [KReserved; KIdent]).
    + sst. rewrite Hrd2. sst. rewrite Hp2. reflexivity.
    + rewrite tk_mk. destruct (is_reserved c); cbn [In]; tauto.
    + reflexivity.
Qed.

Lemma join_comma_cons2 : forall x y r, join_comma (x :: y :: r) = x ++ 44 :: 32 :: join_comma (y :: r).
Proof. reflexivity. Qed.

(* parseEntityTypes and parseActionParents are one function up to the element parser: [elem] reads an element printed by [pr]
   ([c] is the fuel it needs beyond twice the text), [loop] is the loop after the '[' *)
Section BracketList.
Variables (A : Type) (pr : A -> str) (ok : A -> bool) (c : nat).
Variable elem : nat -> pst -> spres (A * pst).
Variable loop : nat -> list A -> pst -> spres (list A * pst).
Hypothesis loop_S : forall f acc st, loop (S f) acc st =
  if is st KRBracket then (st1 <- read_token st ;; SOk (acc, st1)) else
  ' (x, st1) <- elem f st ;;
  if is st1 KComma then (st2 <- read_token st1 ;; loop f (acc ++ [x]) st2)
  else if negb (is st1 KRBracket) then SErr
  else loop f (acc ++ [x]) st1.
Hypothesis elem_lemma : forall x fuel rest st', ok x = true -> stopb rest = true -> rd rest = SOk st' -> is st' KDoubleColon = false ->
  (2 * length (pr x ++ rest) + c <= fuel)%nat ->
  exists st, rd (pr x ++ rest) = SOk st /\ elem fuel st = SOk (x, st') /\ In (tk st) [KIdent; KReserved; KString].

Lemma bracket_loop_lemma : forall l acc fuel rest st', l <> [] -> forallb ok l = true -> rd rest = SOk st' ->
  (2 * length (join_comma (map pr l) ++ 93%Z :: rest) + (c + 2) <= fuel)%nat ->
  exists st, rd (join_comma (map pr l) ++ 93 :: rest) = SOk st /\ loop fuel acc st = SOk (acc ++ l, st').
Proof.
  induction l as [|x l IH]; intros acc fuel rest st' Hne Hl Hrd Hf; [contradiction|].
  cbn [forallb] in Hl. apply andb_true_iff in Hl. destruct Hl as [Hx Hl].
  destruct fuel as [|f]; [exfalso; flen|].
  destruct l as [|y l].
  - cbn [join_comma map] in *.
    destruct (elem_lemma x f (93 :: rest) (MkSt (mk_tok KRBracket [93]) rest) Hx eq_refl (rd_rbracket rest) eq_refl ltac:(flen))
      as (st & Hrds & Hp & Hk).
    exists st. split; [exact Hrds|]. rewrite loop_S, (is_no st KRBracket _ Hk) by reflexivity.
    rewrite Hp. sst. destruct f as [|f']; [exfalso; flen|]. rewrite loop_S. sst. rewrite Hrd. reflexivity.
  - cbn [map] in Hf |- *. rewrite join_comma_cons2 in Hf |- *. rewrite <- app_assoc in Hf |- *. cbn [app] in Hf |- *.
    destruct (IH (acc ++ [x]) f rest st' ltac:(discriminate) Hl Hrd ltac:(cbn [map]; flen)) as (st2 & Hrd2 & Hp2). cbn [map] in Hrd2.
    destruct (elem_lemma x f (44 :: 32 :: join_comma (pr y :: map pr l) ++ 93 :: rest)
                (MkSt (mk_tok KComma [44]) (32 :: join_comma (pr y :: map pr l) ++ 93 :: rest)) Hx eq_refl (rd_comma _) eq_refl ltac:(flen))
      as (st & Hrds & Hp & Hk).
    exists st. split; [exact Hrds|]. rewrite loop_S, (is_no st KRBracket _ Hk) by reflexivity.
    rewrite Hp. sst. rewrite rd_sp, Hrd2. sst. rewrite Hp2, <- app_assoc. reflexivity.
Qed.

(* one element stands alone, several are bracketed *)
Lemma bracket_list_lemma : forall l fuel rest st', l <> [] -> forallb ok l = true -> stopb rest = true ->
  rd rest = SOk st' -> is st' KDoubleColon = false -> (2 * length (print_list (map pr l) ++ rest) + (c + 3) <= fuel)%nat ->
  exists st, rd (print_list (map pr l) ++ rest) = SOk st
    /\ (if is st KLBracket then (st1 <- read_token st ;; loop fuel [] st1) else ' (x, st1) <- elem fuel st ;; SOk ([x], st1)) = SOk (l, st').
Proof.
  intros l fuel rest st' Hne Hl Hstop Hrd Hnd Hf. destruct l as [|x l]; [contradiction|]. destruct l as [|y l].
  - cbn [print_list map forallb] in *. rewrite andb_true_r in Hl.
    destruct (elem_lemma x fuel rest st' Hl Hstop Hrd Hnd ltac:(flen)) as (st & Hrds & Hp & Hk).
    exists st. split; [exact Hrds|]. rewrite (is_no st KLBracket _ Hk) by reflexivity. rewrite Hp. reflexivity.
  - cbn [map] in *. unfold print_list in *. rewrite <- !app_assoc in Hf |- *. cbn [app] in Hf |- *.
    destruct (bracket_loop_lemma (x :: y :: l) [] fuel rest st' Hne Hl Hrd ltac:(cbn [map]; flen)) as (st2 & Hrd2 & Hp2). cbn [map] in Hrd2.
    eexists. split; [apply rd_lbracket|]. sst. rewrite Hrd2. sst. exact Hp2.
Qed.
End BracketList.

Lemma entity_types_lemma : forall l fuel rest st', l <> [] -> forallb ent_path l = true -> stopb rest = true ->
  rd rest = SOk st' -> is st' KDoubleColon = false -> (2 * length (print_list l ++ rest) + 4 <= fuel)%nat ->
  exists st, rd (print_list l ++ rest) = SOk st /\ parse_entity_types fuel st = SOk (l, st').
Proof.
  intros l fuel rest st' Hne Hl Hstop Hrd Hnd Hf.
  replace (print_list l) with (print_list (map (fun x : str => x) l)) in * by (rewrite map_id; reflexivity).
  apply (bracket_list_lemma str (fun x => x) ent_path 1 parse_path entity_types_loop (fun _ _ _ => eq_refl)); try assumption.
  intros x f r s' Hx Hs Hr Hd Hfx. destruct (path_lemma x f r s' Hx Hs Hr Hd Hfx) as (st & H1 & H2 & Hk & _).
  exists st. split; [exact H1|]. split; [exact H2|]. cbn [In]. destruct Hk as [->| ->]; tauto.
Qed.

Lemma action_parents_lemma : forall l fuel rest st', l <> [] -> forallb wf_parent l = true -> stopb rest = true ->
  rd rest = SOk st' -> is st' KDoubleColon = false -> (2 * length (print_list (map print_parent_ref l) ++ rest) + 5 <= fuel)%nat ->
  exists st, rd (print_list (map print_parent_ref l) ++ rest) = SOk st /\ parse_action_parents fuel st = SOk (l, st').
Proof.
  apply (bracket_list_lemma (str * str) print_parent_ref wf_parent 2 parse_qual_name action_parents_loop (fun _ _ _ => eq_refl)).
  exact qual_name_lemma.
Qed.

Lemma enum_values_lemma : forall vs acc fuel rest st', forallb utf8_ok vs = true -> rd rest = SOk st' ->
  (2 * length (join_comma (map quote_cedar vs) ++ 93%Z :: rest) + 2 <= fuel)%nat ->
  exists st, rd (join_comma (map quote_cedar vs) ++ 93 :: rest) = SOk st /\ enum_values_loop fuel acc st = SOk (acc ++ vs, st').
Proof.
  induction vs as [|v vs IH]; intros acc fuel rest st' Hvs Hrd Hf.
  - cbn [map join_comma app] in *. eexists. split; [apply rd_rbracket|].
    destruct fuel as [|f]; [exfalso; flen|]. cbn [enum_values_loop]. sst. rewrite Hrd, app_nil_r. reflexivity.
  - cbn [forallb] in Hvs. apply andb_true_iff in Hvs. destruct Hvs as [Hv Hvs].
    destruct fuel as [|f]; [exfalso; flen|].
    destruct vs as [|w vs].
    + cbn [map join_comma] in *. eexists. split; [apply rd_string; exact Hv|].
      cbn [enum_values_loop]. sst. rewrite rd_rbracket. sst.
      destruct f as [|f']; [exfalso; flen|]. cbn [enum_values_loop]. sst. rewrite Hrd. reflexivity.
    + cbn [map] in Hf |- *. rewrite join_comma_cons2 in Hf |- *. rewrite <- app_assoc in Hf |- *. cbn [app] in Hf |- *.
      destruct (IH (acc ++ [v]) f rest st' Hvs Hrd ltac:(cbn [map]; flen)) as (st2 & Hrd2 & Hp2). cbn [map] in Hrd2.
      eexists. split; [apply rd_string; exact Hv|].
      cbn [enum_values_loop]. sst. rewrite rd_comma. sst. rewrite rd_sp, Hrd2. sst. rewrite Hp2, <- app_assoc. reflexivity.
Qed.

Section WithShadowed.
(* [sh] = the printer's set of shadowed built-in names; all that matters below is that it only holds built-in names *)
Variable sh : str -> bool.
Hypothesis Hsh : forall n, sh n = true -> is_builtin_name n = true.

(* marshalRecordType on a key-sorted attribute list *)
Fixpoint pf (ind : nat) (l : xrec) : str :=
  match l with
  | [] => []
  | x :: r => pa ind (snd (snd x)) ++ tabs ind ++ print_name (fst x) ++ (if snd (fst (snd x)) then [63] else []) ++ [58; 32]
              ++ print_type sh (fst (fst (snd x))) ind ++ (match r with [] => [] | _ => [44] end) ++ [10] ++ pf ind r
  end.

Definition pgo (fs : xrec) : list (str * ((nat -> str) * bool * annots)) :=
  map (fun x : str * xattr => (fst x, (print_type sh (fst (fst (snd x))), snd (fst (snd x)), snd (snd x)))) fs.

Lemma print_type_rec_pgo : forall fs ind, print_type sh (XRec fs) ind = print_record ind (rec_of_list (pgo fs)).
Proof.
  intros fs ind. cbn [print_type]. f_equal. f_equal.
  induction fs as [|[key [[ty opt] an]] fs IH]; [reflexivity|]. cbn [pgo map fst snd]. rewrite IH. reflexivity.
Qed.

Lemma print_attrs_pf : forall ind fs, forallb wf_tattr fs = true -> print_attrs ind (pgo fs) = pf ind fs.
Proof.
  intros ind fs. induction fs as [|[key [[ty opt] an]] fs IH]; intros H; [reflexivity|].
  cbn [forallb] in H. apply andb_true_iff in H. destruct H as [Hx H]. unfold wf_tattr in Hx. cbn [fst snd] in Hx.
  apply andb_true_iff in Hx. destruct Hx as [_ Han]. unfold annots_ok in Han. apply andb_true_iff in Han. destruct Han as [Han _].
  cbn [pgo map print_attrs pf fst snd]. fold (pgo fs). rewrite (IH H), (print_annotations_sorted ind an Han).
  destruct fs; reflexivity.
Qed.

Lemma print_type_rec_eq : forall fs ind, wf_tty (XRec fs) = true ->
  print_type sh (XRec fs) ind = 123 :: (match fs with [] => [] | _ => 10 :: pf (S ind) fs ++ tabs ind end) ++ [125].
Proof.
  intros fs ind H. rewrite wf_tty_rec in H. apply andb_true_iff in H. destruct H as [Hs Hall].
  rewrite print_type_rec_pgo. rewrite rec_of_list_sorted_id.
  2:{ rewrite (keys_sorted_ext _ fs); [exact Hs|]. unfold pgo. rewrite map_map. reflexivity. }
  unfold print_record. destruct fs as [|x fs]; [reflexivity|].
  rewrite <- (print_attrs_pf (S ind) (x :: fs) Hall). reflexivity.
Qed.

Definition PT (t : xty) : Prop :=
  forall ind fuel rest st', wf_tty t = true -> stopb rest = true -> rd rest = SOk st' -> is st' KDoubleColon = false ->
  (2 * length (print_type sh t ind ++ rest) + 4 <= fuel)%nat ->
  exists st, rd (print_type sh t ind ++ rest) = SOk st /\ parse_type fuel st = SOk (norm_ty sh t, st').

Lemma annots_ok_inv : forall an, annots_ok an = true -> keys_sorted an = true /\ forallb annot_ok an = true.
Proof. intros an H. unfold annots_ok in H. apply andb_true_iff in H. exact H. Qed.

(* One attribute of a record: annotations, name, '?' if optional, ": ", type, [sep] = "," unless it is the last, newline.
   [st_next] is the state in front of what follows, the next attribute or the closing brace. *)
Lemma record_attr_lemma : forall key ty (opt : bool) an sep ind f tail st_next rec,
  let text := pa ind an ++ tabs ind ++ print_name key ++ (if opt then [63] else []) ++ 58 :: 32 :: print_type sh ty ind
              ++ sep ++ 10 :: tail in
  PT ty -> wf_tattr (key, (ty, opt, an)) = true -> sep = [] \/ sep = [44] ->
  rd tail = SOk st_next -> In (tk st_next) [KRBrace; KAt; KIdent; KString] -> (2 * length text + 3 <= S f)%nat ->
  exists st, rd text = SOk st /\ In (tk st) [KAt; KIdent; KString]
    /\ record_loop (S f) rec st = record_loop f (rec_insert key (norm_attr sh (ty, opt, an)) rec) st_next.
Proof.
  intros key ty opt an sep ind f tail st_next rec text Hty Hx Hsep Hrd_next Hk_next Hf. subst text.
  unfold wf_tattr in Hx. cbn [fst snd] in Hx. apply andb_true_iff in Hx. destruct Hx as [Hx Han]. apply andb_true_iff in Hx. destruct Hx as [Hkey Hwty].
  destruct (annots_ok_inv an Han) as [Hans Hanok].
  set (rest_ty := sep ++ 10 :: tail) in *.
  set (rest_name := (if opt then [63] else []) ++ 58 :: 32 :: print_type sh ty ind ++ rest_ty) in *.
  assert (Hrt : exists st_ty', rd rest_ty = SOk st_ty' /\ stopb rest_ty = true /\ is st_ty' KDoubleColon = false
                               /\ opt_comma st_ty' = SOk st_next).
  { subst rest_ty. destruct Hsep as [-> | ->]; cbn [app].
    - exists st_next. rewrite rd_nl. split; [exact Hrd_next|]. split; [reflexivity|].
      split; [apply (is_no _ _ _ Hk_next); reflexivity|]. unfold opt_comma. rewrite (is_no _ KComma _ Hk_next) by reflexivity. reflexivity.
    - eexists. split; [apply rd_comma|]. split; [reflexivity|]. split; [reflexivity|]. sst. rewrite rd_nl. exact Hrd_next. }
  destruct Hrt as (st_ty' & Hrd_ty' & Hstop_ty & Hnd_ty & Hoc).
  destruct (Hty ind f rest_ty st_ty' Hwty Hstop_ty Hrd_ty' Hnd_ty ltac:(subst rest_name; flen)) as (st_ty & Hrd_ty & Hp_ty).
  assert (Hrn : exists st_q, rd rest_name = SOk st_q /\ stopb rest_name = true
                             /\ (' (optional, st3) <- (if is st_q KQuestion then (st3 <- read_token st_q ;; SOk (true, st3)) else SOk (false, st_q)) ;;
                                 st4 <- expect KColon st3 ;; SOk (optional, st4)) = SOk (opt, st_ty)).
  { subst rest_name. destruct opt; cbn [app].
    - eexists. split; [apply rd_question|]. split; [reflexivity|]. sst. rewrite rd_colon_sp. sst. rewrite rd_sp, Hrd_ty. reflexivity.
    - eexists. split; [apply rd_colon_sp|]. split; [reflexivity|]. sst. rewrite rd_sp, Hrd_ty. reflexivity. }
  destruct Hrn as (st_q & Hrd_q & Hstop_q & Hfrag).
  destruct (name_lemma key rest_name st_q Hkey Hstop_q Hrd_q) as (st_name & Hrd_name & Hp_name & Hk_name).
  assert (Hk_name' : In (tk st_name) [KIdent; KString]) by (cbn [In]; destruct Hk_name as [->| ->]; tauto).
  destruct (annots_lemma an [] ind f (tabs ind ++ print_name key ++ rest_name) st_name Hans Hanok
              ltac:(rewrite rd_tabs; exact Hrd_name) ltac:(apply (is_no _ _ _ Hk_name'); reflexivity)
              ltac:(apply (is_no _ _ _ Hk_name'); reflexivity) ltac:(flen)) as (st & Hrd_st & Hp_st & Hk_st).
  assert (Hk : In (tk st) [KAt; KIdent; KString]).
  { destruct Hk_st as [Hk_st|Hk_st]; [rewrite Hk_st; cbn [In]; tauto|]. subst st. cbn [In]. tauto. }
  exists st. split; [exact Hrd_st|]. split; [exact Hk|].
  cbn [record_loop]. rewrite (is_no st KRBrace _ Hk), (is_no st KEOF _ Hk) by reflexivity.
  rewrite Hp_st. cbn [sbind app]. rewrite Hp_name. cbn [sbind].
  revert Hfrag. unfold expect.
  destruct (if is st_q KQuestion then st3 <- read_token st_q;; SOk (true, st3) else SOk (false, st_q)) as [[o st3]| | |]; cbn [sbind]; try discriminate.
  destruct (is st3 KColon); [|discriminate]. destruct (read_token st3) as [st4| | |]; cbn [sbind]; try discriminate.
  intros Hfrag. inversion Hfrag; subst o st4. rewrite Hp_ty. cbn [sbind]. rewrite Hoc. reflexivity.
Qed.

Lemma record_loop_lemma : forall l pre ind0 ind fuel rest st',
  Forall (fun kv : str * xattr => PT (fst (fst (snd kv)))) l -> keys_sorted (pre ++ l) = true -> forallb wf_tattr l = true ->
  rd rest = SOk st' -> (2 * length (pf ind l ++ tabs ind0 ++ 125%Z :: rest) + 3 <= fuel)%nat ->
  exists st, rd (pf ind l ++ tabs ind0 ++ 125 :: rest) = SOk st
             /\ record_loop fuel (mapv (norm_attr sh) pre) st = SOk (mapv (norm_attr sh) (pre ++ l), st')
             /\ In (tk st) [KRBrace; KAt; KIdent; KString].
Proof.
  induction l as [|x l IH]; intros pre ind0 ind fuel rest st' HF Hs Hwf Hrd Hf.
  - cbn [pf app] in *. eexists. split; [rewrite rd_tabs; apply rd_rbrace|]. split; [|left; reflexivity].
    destruct fuel as [|f]; [exfalso; flen|]. cbn [record_loop]. sst. rewrite Hrd, app_nil_r. reflexivity.
  - destruct x as [key [[ty opt] an]]. inversion HF as [|x' l' Hty HF']; subst. cbn [fst snd] in Hty.
    cbn [forallb] in Hwf. apply andb_true_iff in Hwf. destruct Hwf as [Hx Hwf].
    destruct fuel as [|f]; [exfalso; flen|].
    cbn [pf fst snd] in Hf |- *. tnorm. tnorm_in Hf.
    assert (Hs' : keys_sorted ((pre ++ [(key, (ty, opt, an))]) ++ l) = true) by (rewrite <- app_assoc; exact Hs).
    destruct (IH (pre ++ [(key, (ty, opt, an))]) ind0 ind f rest st' HF' Hs' Hwf Hrd ltac:(flen)) as (st_next & Hrd_next & Hp_next & Hk_next).
    destruct (record_attr_lemma key ty opt an (match l with [] => [] | _ => [44] end) ind f _ st_next (mapv (norm_attr sh) pre) Hty Hx
                ltac:(destruct l; [left|right]; reflexivity) Hrd_next Hk_next Hf) as (st & Hrd_st & Hk & Hstep).
    exists st. split; [exact Hrd_st|]. split; [|right; exact Hk].
    rewrite Hstep, insert_mapv_last by (eapply keys_sorted_app_l; exact Hs'). rewrite Hp_next, <- app_assoc. reflexivity.
Qed.

Lemma record_lemma : forall fs ind fuel rest st',
  Forall (fun kv : str * xattr => PT (fst (fst (snd kv)))) fs -> wf_tty (XRec fs) = true -> rd rest = SOk st' ->
  (2 * length (print_type sh (XRec fs) ind ++ rest) + 3 <= fuel)%nat ->
  exists st, rd (print_type sh (XRec fs) ind ++ rest) = SOk st /\ parse_record_type fuel st = SOk (norm_rec sh fs, st') /\ tk st = KLBrace.
Proof.
  intros fs ind fuel rest st' HF Hwf Hrd Hf. rewrite (print_type_rec_eq fs ind Hwf) in Hf |- *.
  rewrite wf_tty_rec in Hwf. apply andb_true_iff in Hwf. destruct Hwf as [Hs Hall].
  destruct fuel as [|f]; [exfalso; flen|].
  destruct fs as [|x fs].
  - cbn [app] in *. eexists. split; [apply rd_lbrace|]. split; [|reflexivity].
    cbn [parse_record_type]. sst. rewrite rd_rbrace. sst.
    destruct f as [|f']; [exfalso; flen|]. cbn [record_loop]. sst. rewrite Hrd. reflexivity.
  - cbn [app] in Hf |- *. rewrite <- !app_assoc in Hf |- *. cbn [app] in Hf |- *.
    destruct (record_loop_lemma (x :: fs) [] ind (S ind) f rest st' HF Hs Hall Hrd ltac:(flen)) as (st1 & Hrd1 & Hp1 & _).
    eexists. split; [apply rd_lbrace|]. split; [|reflexivity].
    cbn [parse_record_type]. sst. rewrite rd_nl, Hrd1. sst. exact Hp1.
Qed.

Lemma type_ref_lemma : forall r fuel rest st', type_path r = true -> stopb rest = true -> rd rest = SOk st' ->
  is st' KDoubleColon = false -> (2 * length (r ++ rest) + 4 <= fuel)%nat ->
  exists st, rd (r ++ rest) = SOk st /\ parse_type fuel st = SOk (XRef r, st').
Proof.
  intros r fuel rest st' Hr Hstop Hrd Hnd Hf. unfold type_path in Hr. apply andb_true_iff in Hr. destruct Hr as [Hr Hset].
  apply negb_true_iff in Hset. destruct fuel as [|f]; [exfalso; flen|].
  destruct (path_lemma r f rest st' Hr Hstop Hrd Hnd ltac:(flen)) as (st & Hrds & Hp & Hk & Htxt).
  exists st. split; [exact Hrds|]. cbn [parse_type].
  assert (Hk' : In (tk st) [KIdent; KReserved]) by (cbn [In]; destruct Hk as [->| ->]; tauto).
  rewrite (is_no st KLBrace _ Hk') by reflexivity. unfold kw. rewrite Htxt, Hset, andb_false_r. rewrite Hp. reflexivity.
Qed.

Theorem type_lemma : forall t, PT t.
Proof.
  induction t as [| | |n|e IHe|fs IHfs|r|r] using xty_ind'; unfold PT; intros ind fuel rest st' Hwf Hstop Hrd Hnd Hf.
  - apply (type_ref_lemma (write_builtin sh (s_of "String"))); try assumption. apply type_path_wb; [exact Hsh|reflexivity].
  - apply (type_ref_lemma (write_builtin sh (s_of "Long"))); try assumption. apply type_path_wb; [exact Hsh|reflexivity].
  - apply (type_ref_lemma (write_builtin sh (s_of "Bool"))); try assumption. apply type_path_wb; [exact Hsh|reflexivity].
  - apply (type_ref_lemma (write_builtin sh n)); try assumption. apply type_path_wb; [exact Hsh|exact Hwf].
  - cbn [wf_tty print_type norm_ty] in *.
    change (s_of "Set<") with (s_of "Set" ++ [60]) in Hf |- *. rewrite <- !app_assoc in Hf |- *. cbn [app] in Hf |- *.
    destruct fuel as [|f]; [exfalso; flen|].
    destruct (IHe ind f (62 :: rest) (MkSt (mk_tok KRAngle [62]) rest) Hwf eq_refl (rd_rangle rest) eq_refl ltac:(flen))
      as (st_e & Hrd_e & Hp_e).
    eexists. split; [apply (rd_kw "Set" KIdent); reflexivity|].
    cbn [parse_type]. sst. rewrite rd_langle. sst. rewrite Hrd_e. sst. rewrite Hp_e. sst. rewrite Hrd. reflexivity.
  - destruct fuel as [|f]; [exfalso; flen|].
    destruct (record_lemma fs ind f rest st' IHfs Hwf Hrd ltac:(flen)) as (st & Hrds & Hp & Hk).
    exists st. split; [exact Hrds|]. cbn [parse_type]. rewrite (is_yes st KLBrace Hk). rewrite Hp. rewrite norm_ty_rec. reflexivity.
  - apply (type_ref_lemma r); assumption.
  - apply (type_ref_lemma r); assumption.
Qed.

Lemma record_lemma' : forall fs ind fuel rest st', wf_tty (XRec fs) = true -> rd rest = SOk st' ->
  (2 * length (print_type sh (XRec fs) ind ++ rest) + 3 <= fuel)%nat ->
  exists st, rd (print_type sh (XRec fs) ind ++ rest) = SOk st /\ parse_record_type fuel st = SOk (norm_rec sh fs, st') /\ tk st = KLBrace.
Proof.
  intros fs ind fuel rest st' Hwf Hrd Hf. apply record_lemma; try assumption.
  apply Forall_forall. intros kv _. apply type_lemma.
Qed.

Inductive ditem := DC (kv : str * x_common) | DE (kv : str * x_entity) | DN (kv : str * x_enum) | DA (kv : str * x_action).

Definition print_item (ind : nat) (it : ditem) : str :=
  match it with
  | DC kv => print_common sh ind kv | DE kv => print_entity sh ind kv | DN kv => print_enum ind kv | DA kv => print_action sh ind kv
  end.
Definition wf_item (it : ditem) : bool :=
  match it with
  | DC kv => is_valid_ident (fst kv) && negb (is_reserved_type_name (fst kv)) && wf_common_t (snd kv)
  | DE kv => is_valid_ident (fst kv) && wf_entity_t (snd kv)
  | DN kv => is_valid_ident (fst kv) && wf_enum_t (snd kv)
  | DA kv => name_ok (fst kv) && wf_action_t (snd kv)
  end.
Definition fresh_item (it : ditem) (n : x_ns) : bool :=
  match it with
  | DC kv => negb (has_key (fst kv) (xs_commons n))
  | DE kv => negb (has_key (fst kv) (xs_entities n) || has_key (fst kv) (xs_enums n))
  | DN kv => negb (has_key (fst kv) (xs_enums n) || has_key (fst kv) (xs_entities n))
  | DA kv => negb (has_key (fst kv) (xs_actions n))
  end.
Definition add_item (it : ditem) (n : x_ns) : x_ns :=
  match it with
  | DC kv => set_commons n (rec_insert (fst kv) (norm_common_t sh (snd kv)) (xs_commons n))
  | DE kv => set_entities n (rec_insert (fst kv) (norm_entity_t sh (snd kv)) (xs_entities n))
  | DN kv => set_enums n (rec_insert (fst kv) (snd kv) (xs_enums n))
  | DA kv => set_actions n (rec_insert (fst kv) (norm_action_t sh (snd kv)) (xs_actions n))
  end.

Lemma decl_wrap : forall an ind (kwd : string) body fuel, annots_ok an = true -> word (s_of kwd) = true ->
  is_reserved (s_of kwd) = false ->
  (2 * length (pa ind an ++ tabs ind ++ s_of kwd ++ 32%Z :: body) + 1 <= fuel)%nat ->
  exists st, rd (pa ind an ++ tabs ind ++ s_of kwd ++ 32 :: body) = SOk st /\ In (tk st) [KAt; KIdent]
             /\ parse_annotations fuel [] st = SOk (an, MkSt (mk_tok KIdent (s_of kwd)) (32 :: body)).
Proof.
  intros an ind kwd body fuel Han Hw Hres Hf. destruct (annots_ok_inv an Han) as [Hs Hok].
  destruct (annots_lemma an [] ind fuel (tabs ind ++ s_of kwd ++ 32 :: body) (MkSt (mk_tok KIdent (s_of kwd)) (32 :: body)) Hs Hok
              ltac:(rewrite rd_tabs; apply rd_kw; [exact Hw|rewrite Hres; reflexivity|reflexivity]) eq_refl eq_refl Hf) as (st & Hrd & Hp & Hk).
  exists st. split; [exact Hrd|]. split; [|exact Hp]. destruct Hk as [Hk|Hk]; [rewrite Hk; cbn [In]; tauto|subst st; cbn [In]; tauto].
Qed.

(* what the declaration loops need of one block: annotations, then a declaration (not a namespace) that adds the item *)
Definition item_spec (it : ditem) : Prop :=
  forall ind n fuel rest st', wf_item it = true -> fresh_item it n = true -> rd rest = SOk st' ->
  (2 * length (print_item ind it ++ rest) + 12 <= fuel)%nat ->
  exists st st1 an, rd (print_item ind it ++ rest) = SOk st /\ In (tk st) [KAt; KIdent]
    /\ parse_annotations fuel [] st = SOk (an, st1) /\ is st1 KIdent = true /\ kw st1 "namespace" = false
    /\ parse_decl fuel an n st1 = SOk (add_item it n, st').

(* every block is its annotations, a keyword and a body: what is left to show is how parse_decl reads the body *)
Lemma item_wrap : forall it ind n fuel rest st' an (kwd : string) body,
  annots_ok an = true -> word (s_of kwd) = true -> is_reserved (s_of kwd) = false -> str_eqb (s_of "namespace") (s_of kwd) = false ->
  print_item ind it ++ rest = pa ind an ++ tabs ind ++ s_of kwd ++ 32 :: body ->
  (2 * length (print_item ind it ++ rest) + 12 <= fuel)%nat ->
  ((2 * length body + 12 <= fuel)%nat -> parse_decl fuel an n (MkSt (mk_tok KIdent (s_of kwd)) (32 :: body)) = SOk (add_item it n, st')) ->
  exists st st1 an, rd (print_item ind it ++ rest) = SOk st /\ In (tk st) [KAt; KIdent]
    /\ parse_annotations fuel [] st = SOk (an, st1) /\ is st1 KIdent = true /\ kw st1 "namespace" = false
    /\ parse_decl fuel an n st1 = SOk (add_item it n, st').
Proof.
  intros it ind n fuel rest st' an kwd body Han Hw Hres Hns Htext Hf Hp. rewrite Htext in Hf |- *.
  destruct (decl_wrap an ind kwd body fuel Han Hw Hres ltac:(flen)) as (st & Hrds & Hk & Hpa).
  exists st. eexists. exists an. split; [exact Hrds|]. split; [exact Hk|]. split; [exact Hpa|]. split; [reflexivity|]. split; [exact Hns|].
  apply Hp. flen.
Qed.

Lemma common_item : forall kv, item_spec (DC kv).
Proof.
  intros [name c] ind n fuel rest st' Hwf Hfresh Hrd Hf. cbn [wf_item fresh_item fst snd] in Hwf, Hfresh.
  apply andb_true_iff in Hwf. destruct Hwf as [Hwf Hc]. apply andb_true_iff in Hwf. destruct Hwf as [Hname Hrtn].
  apply negb_true_iff in Hrtn, Hfresh. unfold wf_common_t in Hc. apply andb_true_iff in Hc. destruct Hc as [Han Hty].
  destruct (valid_ident_word name Hname) as [Hw Hres].
  apply (item_wrap (DC (name, c)) ind n fuel rest st' (xc_annots c) "type"
                   (name ++ 32 :: 61 :: 32 :: print_type sh (xc_type c) ind ++ 59 :: 10 :: rest)); try reflexivity; try assumption.
  - cbn [print_item]. unfold print_common. cbn [fst snd]. rewrite (print_annotations_sorted _ _ (proj1 (annots_ok_inv _ Han))).
    change (s_of "type ") with (s_of "type" ++ [32]). tnorm. reflexivity.
  - intros Hf'.
    destruct (type_lemma (xc_type c) ind fuel (59 :: 10 :: rest) (MkSt (mk_tok KSemicolon [59]) (10 :: rest)) Hty eq_refl (rd_semi _) eq_refl ltac:(flen))
      as (st_t & Hrd_t & Hp_t).
    unfold parse_decl. sst. rewrite rd_sp, rd_word by (try exact Hw; reflexivity). rewrite Hres. sst.
    unfold parse_type_decl. sst. rewrite Hrtn. rewrite rd_sp, rd_equals. sst. rewrite rd_sp, Hrd_t. sst. rewrite Hp_t. sst.
    rewrite rd_nl, Hrd. sst. rewrite Hfresh. reflexivity.
Qed.

(* What may follow an optional part of a declaration: a token of one of the kinds [ks]; if it is an identifier, it is the keyword
   [w] of the next optional part. *)
Definition follows (ks : list ttype) (w : string) (st : pst) : Prop := In (tk st) ks /\ (tk st = KIdent -> txt st = s_of w).

Lemma follows_is : forall ks w st K, follows ks w st -> forallb (fun k => negb (ttype_beq k K)) ks = true -> is st K = false.
Proof. intros ks w st K [H _] Hall. exact (is_no st K ks H Hall). Qed.
Lemma follows_kw : forall ks w st (w' : string), follows ks w st -> str_eqb (s_of w') (s_of w) = false -> is st KIdent && kw st w' = false.
Proof.
  intros ks w st w' [_ H] Hne. destruct (is st KIdent) eqn:E; [|reflexivity]. unfold kw. rewrite (H (is_tk_eq st KIdent E)). exact Hne.
Qed.
Lemma follows_incl : forall ks ks' w st, follows ks w st -> incl ks ks' -> follows ks' w st.
Proof. intros ks ks' w st [H1 H2] Hi. split; [apply Hi; exact H1|exact H2]. Qed.
Lemma follows_tok : forall ks w K t s, In K ks -> K <> KIdent -> follows ks w (MkSt (mk_tok K t) s).
Proof. intros ks w K t s Hin Hne. split; [exact Hin|intros E; contradiction]. Qed.
Lemma follows_kwd : forall ks w s, In KIdent ks -> follows ks w (MkSt (mk_tok KIdent (s_of w)) s).
Proof. intros ks w s Hin. split; [exact Hin|reflexivity]. Qed.

Definition tags_text (ind : nat) (tags : option xty) : str :=
  match tags with None => [] | Some t => s_of " tags " ++ print_type sh t ind end.
Definition shape_text (ind : nat) (shape : option xrec) : str :=
  match shape with None => [] | Some fs => [32] ++ print_type sh (XRec fs) ind end.
Definition parents_text (parents : list str) : str :=
  match parents with [] => [] | p :: ps => s_of " in " ++ print_list (p :: ps) end.

Lemma frag_tags_lemma : forall tags ind fuel rest, opt_wf_tty tags = true ->
  (2 * length (tags_text ind tags ++ 59%Z :: 10%Z :: rest) + 4 <= fuel)%nat ->
  exists st, rd (tags_text ind tags ++ 59 :: 10 :: rest) = SOk st
             /\ frag_tags fuel st = SOk (option_map (norm_ty sh) tags, MkSt (mk_tok KSemicolon [59]) (10 :: rest))
             /\ follows [KSemicolon; KIdent] "tags" st.
Proof.
  intros [t|] ind fuel rest Hwf Hf; cbn [tags_text opt_wf_tty option_map] in *.
  - change (s_of " tags ") with (32 :: s_of "tags" ++ [32]) in Hf |- *. cbn [app] in Hf |- *. rewrite <- !app_assoc in Hf |- *. cbn [app] in Hf |- *.
    destruct (type_lemma t ind fuel (59 :: 10 :: rest) (MkSt (mk_tok KSemicolon [59]) (10 :: rest)) Hwf eq_refl (rd_semi _) eq_refl ltac:(flen))
      as (st_t & Hrd_t & Hp_t).
    eexists. split; [rewrite rd_sp; apply (rd_kw "tags" KIdent); reflexivity|]. split; [|apply follows_kwd; cbn; tauto].
    unfold frag_tags. sst. rewrite rd_sp, Hrd_t. sst. rewrite Hp_t. reflexivity.
  - cbn [app]. eexists. split; [apply rd_semi|]. split; [reflexivity|apply follows_tok; [cbn; tauto|discriminate]].
Qed.

Lemma frag_shape_lemma : forall shape ind fuel X st3, opt_wf_tty (option_map XRec shape) = true -> rd X = SOk st3 -> follows [KSemicolon; KIdent] "tags" st3 ->
  (2 * length (shape_text ind shape ++ X) + 3 <= fuel)%nat ->
  exists st, rd (shape_text ind shape ++ X) = SOk st /\ frag_shape fuel st = SOk (option_map (norm_rec sh) shape, st3)
             /\ follows [KLBrace; KSemicolon; KIdent] "tags" st.
Proof.
  intros [fs|] ind fuel X st3 Hwf HrdX HF Hf; cbn [shape_text opt_wf_tty option_map] in *.
  - rewrite <- app_assoc in Hf |- *. cbn [app] in Hf |- *.
    destruct (record_lemma' fs ind fuel X st3 Hwf HrdX ltac:(flen)) as (st & Hrds & Hp & Hk).
    exists st. split; [rewrite rd_sp; exact Hrds|]. split; [|split; rewrite Hk; [cbn; tauto|discriminate]].
    unfold frag_shape. rewrite (is_no st KEquals [KLBrace]), (is_yes st KLBrace Hk), Hp by (rewrite ?Hk; cbn; tauto). reflexivity.
  - exists st3. split; [exact HrdX|]. split; [|apply (follows_incl _ _ _ _ HF); intros k Hk; right; exact Hk].
    unfold frag_shape. rewrite (follows_is _ _ _ KEquals HF), (follows_is _ _ _ KLBrace HF) by reflexivity. reflexivity.
Qed.

Lemma frag_in_lemma : forall parents fuel X st2, forallb ent_path parents = true -> rd X = SOk st2 -> follows [KLBrace; KSemicolon; KIdent] "tags" st2 -> stopb X = true ->
  (2 * length (parents_text parents ++ X) + 4 <= fuel)%nat ->
  exists st, rd (parents_text parents ++ X) = SOk st /\ frag_in fuel st = SOk (parents, st2)
             /\ follows [KReserved; KLBrace; KSemicolon; KIdent] "tags" st.
Proof.
  intros parents fuel X st2 Hwf HrdX HF Hstop Hf. destruct parents as [|p ps].
  - exists st2. split; [exact HrdX|]. split; [|apply (follows_incl _ _ _ _ HF); intros k Hk; right; exact Hk].
    unfold frag_in. rewrite (follows_is _ _ _ KReserved HF) by reflexivity. reflexivity.
  - unfold parents_text in *. change (s_of " in ") with (32 :: s_of "in" ++ [32]) in Hf |- *. cbn [app] in Hf |- *.
    rewrite <- !app_assoc in Hf |- *. cbn [app] in Hf |- *.
    destruct (entity_types_lemma (p :: ps) fuel X st2 ltac:(discriminate) Hwf Hstop HrdX (follows_is _ _ _ KDoubleColon HF eq_refl) ltac:(flen)) as (st & Hrds & Hp).
    eexists. split; [rewrite rd_sp; apply (rd_kw "in" KReserved); reflexivity|]. split; [|apply follows_tok; [cbn; tauto|discriminate]].
    unfold frag_in. sst. rewrite rd_sp, Hrds. sst. exact Hp.
Qed.

Lemma stopb_ent_tail : forall ind shape tags rest, stopb (shape_text ind shape ++ tags_text ind tags ++ 59 :: 10 :: rest) = true.
Proof. intros ind [fs|] [t|] rest; reflexivity. Qed.
Lemma stopb_ent_tail1 : forall ind parents shape tags rest,
  stopb (parents_text parents ++ shape_text ind shape ++ tags_text ind tags ++ 59 :: 10 :: rest) = true.
Proof. intros ind [|p ps] shape tags rest; [apply stopb_ent_tail|reflexivity]. Qed.

Lemma entity_item : forall kv, item_spec (DE kv).
Proof.
  intros [name e] ind n fuel rest st' Hwf Hfresh Hrd Hf. cbn [wf_item fresh_item fst snd] in Hwf, Hfresh.
  apply andb_true_iff in Hwf. destruct Hwf as [Hname Hwf]. apply negb_true_iff in Hfresh.
  unfold wf_entity_t in Hwf. apply andb_true_iff in Hwf. destruct Hwf as [Hwf Htags]. apply andb_true_iff in Hwf. destruct Hwf as [Hwf Hshape].
  apply andb_true_iff in Hwf. destruct Hwf as [Han Hpar]. destruct (valid_ident_word name Hname) as [Hw Hres].
  apply (item_wrap (DE (name, e)) ind n fuel rest st' (xe_annots e) "entity"
                   (name ++ parents_text (xe_parents e) ++ shape_text ind (xe_shape e) ++ tags_text ind (xe_tags e) ++ 59 :: 10 :: rest));
    try reflexivity; try assumption.
  - cbn [print_item]. unfold print_entity, parents_text, shape_text, tags_text. cbv zeta. cbn [fst snd].
    rewrite (print_annotations_sorted _ _ (proj1 (annots_ok_inv _ Han))). change (s_of "entity ") with (s_of "entity" ++ [32]). tnorm. reflexivity.
  - intros Hf'.
    destruct (frag_tags_lemma (xe_tags e) ind fuel rest Htags ltac:(flen)) as (st3 & Hrd3 & Hp3 & HF3).
    destruct (frag_shape_lemma (xe_shape e) ind fuel _ st3 Hshape Hrd3 HF3 ltac:(flen)) as (st2 & Hrd2 & Hp2 & HF2).
    destruct (frag_in_lemma (xe_parents e) fuel _ st2 Hpar Hrd2 HF2 (stopb_ent_tail _ _ _ _) ltac:(flen)) as (st1 & Hrd1 & Hp1 & HF1).
    unfold parse_decl. sst. rewrite rd_sp, rd_word by (try exact Hw; apply stopb_ent_tail1). rewrite Hres. sst.
    rewrite parse_entity_eq. unfold parse_idents. sst. rewrite Hrd1. sst.
    destruct fuel as [|f]; [exfalso; flen|]. cbn [idents_rest]. rewrite (follows_is _ _ _ KComma HF1) by reflexivity. cbn [negb sbind].
    rewrite (follows_kw _ _ _ "enum" HF1) by reflexivity. rewrite Hp1. cbn [sbind]. rewrite Hp2. cbn [sbind]. rewrite Hp3. sst.
    rewrite rd_nl, Hrd. sst. cbn [add_entities]. rewrite Hfresh. reflexivity.
Qed.

Lemma enum_item : forall kv, item_spec (DN kv).
Proof.
  intros [name [an vs]] ind n fuel rest st' Hwf Hfresh Hrd Hf. cbn [wf_item fresh_item fst snd] in Hwf, Hfresh.
  apply andb_true_iff in Hwf. destruct Hwf as [Hname Hwf]. apply negb_true_iff in Hfresh.
  unfold wf_enum_t in Hwf. cbn [xn_annots xn_values] in Hwf. apply andb_true_iff in Hwf. destruct Hwf as [Han Hvs].
  destruct (valid_ident_word name Hname) as [Hw Hres].
  apply (item_wrap (DN (name, {| xn_annots := an; xn_values := vs |})) ind n fuel rest st' an "entity"
                   (name ++ 32 :: s_of "enum" ++ 32 :: 91 :: join_comma (map quote_cedar vs) ++ 93 :: 59 :: 10 :: rest));
    try reflexivity; try assumption.
  - cbn [print_item]. unfold print_enum. cbn [fst snd xn_annots xn_values]. rewrite (print_annotations_sorted _ _ (proj1 (annots_ok_inv _ Han))).
    change (s_of "entity ") with (s_of "entity" ++ [32]). change (s_of " enum [") with (32 :: s_of "enum" ++ [32; 91]). tnorm. reflexivity.
  - intros Hf'.
    destruct (enum_values_lemma vs [] fuel (59 :: 10 :: rest) (MkSt (mk_tok KSemicolon [59]) (10 :: rest)) Hvs (rd_semi _) ltac:(flen))
      as (st_v & Hrd_v & Hp_v).
    unfold parse_decl. sst. rewrite rd_sp, rd_word by (try exact Hw; reflexivity). rewrite Hres. sst.
    unfold parse_entity, parse_idents. sst. rewrite rd_sp, (rd_kw "enum" KIdent) by reflexivity. sst.
    destruct fuel as [|f]; [exfalso; flen|]. cbn [idents_rest]. sst.
    rewrite rd_sp, rd_lbracket. sst. unfold parse_enum_entity. sst. rewrite Hrd_v. sst. rewrite Hp_v. sst.
    rewrite rd_nl, Hrd. sst. cbn [add_enums]. rewrite Hfresh. reflexivity.
Qed.

Definition aparents_text (l : list (str * str)) : str :=
  match l with [] => [] | p :: ps => s_of " in " ++ print_list (map print_parent_ref (p :: ps)) end.
Definition applies_opt_text (ind : nat) (o : option x_applies) : str :=
  match o with None => [] | Some ap => print_applies sh ind ap end.
Definition ctx_text (ind : nat) (c : option xty) : str :=
  match c with
  | None => [10]
  | Some t => 44 :: 10 :: tabs (S ind) ++ s_of "context" ++ 58 :: 32 :: print_type sh t (S ind) ++ [10]
  end.
Definition applies_nf (ind : nat) (ps rs : list str) (c : option xty) (X : str) : str :=
  32 :: s_of "appliesTo" ++ 32 :: 123 :: 10 :: tabs (S ind) ++ s_of "principal" ++ 58 :: 32 :: print_list ps
  ++ 44 :: 10 :: tabs (S ind) ++ s_of "resource" ++ 58 :: 32 :: print_list rs ++ ctx_text ind c ++ tabs ind ++ 125 :: X.

Lemma print_applies_nf : forall ind a X, xa_principals a <> [] -> xa_resources a <> [] ->
  print_applies sh ind a ++ X = applies_nf ind (xa_principals a) (xa_resources a) (xa_context a) X.
Proof.
  intros ind [ps rs c] X Hp Hr. cbn [xa_principals xa_resources xa_context] in *.
  destruct ps as [|p ps]; [contradiction|]. destruct rs as [|r rs]; [contradiction|].
  unfold print_applies, applies_nf, ctx_text. cbn [xa_principals xa_resources xa_context].
  destruct c as [t|]; repeat (first [rewrite <- app_assoc | progress cbn [app]]); reflexivity.
Qed.

Lemma rd_close : forall ind X, rd (10 :: tabs ind ++ 125 :: X) = SOk (MkSt (mk_tok KRBrace [125]) X).
Proof. intros ind X. rewrite rd_nl, rd_tabs. apply rd_rbrace. Qed.

(* The appliesTo loop, one iteration at a time: the keyword of a field is the current token, the text goes on with ": " and
   the value.  Stated about variables, so that the body of applies_loop is unfolded here and nowhere else. *)
Lemma applies_refs_step : forall f pr rs cx s st2 l st3 st4, l <> [] ->
  rd s = SOk st2 -> parse_entity_types f st2 = SOk (l, st3) -> opt_comma st3 = SOk st4 ->
  applies_loop (S f) None rs cx (MkSt (mk_tok KIdent (s_of "principal")) (58 :: 32 :: s)) = applies_loop f (Some l) rs cx st4
  /\ applies_loop (S f) pr None cx (MkSt (mk_tok KIdent (s_of "resource")) (58 :: 32 :: s)) = applies_loop f pr (Some l) cx st4.
Proof.
  intros f pr rs cx s st2 l st3 st4 Hne Hrd Hp Hoc. unfold opt_comma in Hoc. destruct l as [|x l]; [contradiction|].
  split; cbn [applies_loop]; sst; rewrite rd_colon_sp; sst; rewrite rd_sp, Hrd; sst; rewrite Hp; cbn [sbind]; rewrite Hoc; reflexivity.
Qed.

Lemma applies_ctx_step : forall f pr rs s st2 t st3 st4,
  rd s = SOk st2 -> parse_type f st2 = SOk (t, st3) -> opt_comma st3 = SOk st4 ->
  applies_loop (S f) pr rs None (MkSt (mk_tok KIdent (s_of "context")) (58 :: 32 :: s)) = applies_loop f pr rs (Some t) st4.
Proof.
  intros f pr rs s st2 t st3 st4 Hrd Hp Hoc. unfold opt_comma in Hoc.
  cbn [applies_loop]. sst. rewrite rd_colon_sp. sst. rewrite rd_sp, Hrd. sst. rewrite Hp. cbn [sbind]. rewrite Hoc. reflexivity.
Qed.

Lemma applies_close : forall f ps rs cx s st', rd s = SOk st' ->
  applies_loop (S f) (Some ps) (Some rs) cx (MkSt (mk_tok KRBrace [125]) s)
  = SOk ({| xa_principals := ps; xa_resources := rs; xa_context := cx |}, st').
Proof. intros f ps rs cx s st' Hrd. cbn [applies_loop]. sst. rewrite Hrd. reflexivity. Qed.

(* the separator between two fields *)
Lemma opt_comma_kw : forall n (w : string) s, word (s_of w) = true -> is_reserved (s_of w) = false -> stopb s = true ->
  opt_comma (MkSt (mk_tok KComma [44]) (10 :: tabs n ++ s_of w ++ s)) = SOk (MkSt (mk_tok KIdent (s_of w)) s).
Proof. intros n w s Hw Hres Hs. sst. rewrite rd_nl, rd_tabs. apply rd_kw; [exact Hw|rewrite Hres; reflexivity|exact Hs]. Qed.

(* from the end of the resource list to the closing brace *)
Lemma applies_ctx_lemma : forall c ind f ps rs X st', opt_wf_tty c = true -> rd X = SOk st' ->
  (2 * length (ctx_text ind c ++ tabs ind ++ 125%Z :: X) + 6 <= f)%nat ->
  exists st3 st4, rd (ctx_text ind c ++ tabs ind ++ 125 :: X) = SOk st3 /\ is st3 KDoubleColon = false /\ opt_comma st3 = SOk st4
    /\ applies_loop f (Some ps) (Some rs) None st4
       = SOk ({| xa_principals := ps; xa_resources := rs; xa_context := option_map (norm_ty sh) c |}, st').
Proof.
  intros [t|] ind f ps rs X st' Hwf Hrd Hf; cbn [ctx_text opt_wf_tty option_map] in *; tnorm; tnorm_in Hf.
  - destruct f as [|f]; [exfalso; flen|]. destruct f as [|f]; [exfalso; flen|].
    destruct (type_lemma t (S ind) (S f) (10 :: tabs ind ++ 125 :: X) _ Hwf eq_refl (rd_close _ _) eq_refl ltac:(flen)) as (st_t & Hrd_t & Hp_t).
    eexists. eexists. split; [apply rd_comma|]. split; [reflexivity|]. split; [apply opt_comma_kw; reflexivity|].
    rewrite (applies_ctx_step _ _ _ _ _ _ _ _ Hrd_t Hp_t eq_refl). apply applies_close. exact Hrd.
  - destruct f as [|f]; [exfalso; flen|].
    eexists. eexists. split; [apply rd_close|]. split; [reflexivity|]. split; [reflexivity|]. apply applies_close. exact Hrd.
Qed.

Lemma stopb_ctx_text : forall ind c s, stopb (ctx_text ind c ++ s) = true.
Proof. intros ind [t|] s; reflexivity. Qed.

Lemma frag_applies_lemma : forall o ind fuel rest, match o with Some a => wf_applies_t a | None => true end = true ->
  (2 * length (applies_opt_text ind o ++ 59%Z :: 10%Z :: rest) + 8 <= fuel)%nat ->
  exists st, rd (applies_opt_text ind o ++ 59 :: 10 :: rest) = SOk st
             /\ frag_applies fuel st = SOk (option_map (norm_applies_t sh) o, MkSt (mk_tok KSemicolon [59]) (10 :: rest))
             /\ follows [KSemicolon; KIdent] "appliesTo" st.
Proof.
  intros [a|] ind fuel rest Hwf Hf; cbn [applies_opt_text option_map] in *.
  2:{ cbn [app]. eexists. split; [apply rd_semi|]. split; [reflexivity|apply follows_tok; [cbn; tauto|discriminate]]. }
  unfold wf_applies_t in Hwf. destruct a as [ps rs c]. cbn [xa_principals xa_resources xa_context] in Hwf.
  apply andb_true_iff in Hwf. destruct Hwf as [Hwf Hc]. apply andb_true_iff in Hwf. destruct Hwf as [Hwf Hrs].
  apply andb_true_iff in Hwf. destruct Hwf as [Hwf Hrn]. apply andb_true_iff in Hwf. destruct Hwf as [Hpn Hps].
  assert (Hpne : ps <> []) by (destruct ps; [discriminate Hpn|discriminate]).
  assert (Hrne : rs <> []) by (destruct rs; [discriminate Hrn|discriminate]).
  rewrite print_applies_nf in Hf |- * by assumption. cbn [xa_principals xa_resources xa_context] in Hf |- *.
  unfold applies_nf, norm_applies_t in *. cbn [xa_principals xa_resources xa_context]. tnorm. tnorm_in Hf.
  destruct fuel as [|f1]; [exfalso; flen|]. destruct f1 as [|f2]; [exfalso; flen|].
  set (T2 := ctx_text ind c ++ tabs ind ++ 125 :: 59 :: 10 :: rest) in *.
  set (T1 := 44 :: 10 :: tabs (S ind) ++ s_of "resource" ++ 58 :: 32 :: print_list rs ++ T2) in *.
  destruct (applies_ctx_lemma c ind f2 ps rs (59 :: 10 :: rest) _ Hc (rd_semi _) ltac:(subst T1 T2; flen)) as (st3 & st4 & Hrd3 & Hnd3 & Hoc3 & Hloop).
  destruct (entity_types_lemma rs f2 T2 st3 Hrne Hrs (stopb_ctx_text _ _ _) Hrd3 Hnd3 ltac:(subst T1 T2; flen)) as (st_rs & Hrd_rs & Hp_rs).
  destruct (entity_types_lemma ps (S f2) T1 _ Hpne Hps eq_refl (rd_comma _) eq_refl ltac:(subst T1 T2; flen)) as (st_ps & Hrd_ps & Hp_ps).
  eexists. split; [rewrite rd_sp; apply (rd_kw "appliesTo" KIdent); reflexivity|]. split; [|apply follows_kwd; cbn; tauto].
  unfold frag_applies. sst. rewrite rd_sp, rd_lbrace. sst. unfold parse_applies_to. sst.
  rewrite rd_nl, rd_tabs, (rd_kw "principal" KIdent) by reflexivity. cbn [sbind].
  rewrite (proj1 (applies_refs_step _ None _ _ _ _ _ _ _ Hpne Hrd_ps Hp_ps (opt_comma_kw _ "resource" (58 :: 32 :: print_list rs ++ T2) eq_refl eq_refl eq_refl))).
  rewrite (proj2 (applies_refs_step _ _ None _ _ _ _ _ _ Hrne Hrd_rs Hp_rs Hoc3)), Hloop. reflexivity.
Qed.

Lemma frag_ain_lemma : forall parents fuel X st2, forallb wf_parent parents = true -> rd X = SOk st2 -> follows [KSemicolon; KIdent] "appliesTo" st2 -> stopb X = true ->
  (2 * length (aparents_text parents ++ X) + 5 <= fuel)%nat ->
  exists st, rd (aparents_text parents ++ X) = SOk st /\ frag_ain fuel st = SOk (parents, st2)
             /\ follows [KReserved; KSemicolon; KIdent] "appliesTo" st.
Proof.
  intros parents fuel X st2 Hwf HrdX HG Hstop Hf. destruct parents as [|p ps].
  - exists st2. split; [exact HrdX|]. split; [|apply (follows_incl _ _ _ _ HG); intros k Hk; right; exact Hk].
    unfold frag_ain. rewrite (follows_is _ _ _ KReserved HG) by reflexivity. reflexivity.
  - unfold aparents_text in *. change (s_of " in ") with (32 :: s_of "in" ++ [32]) in Hf |- *. tnorm. tnorm_in Hf.
    destruct (action_parents_lemma (p :: ps) fuel X st2 ltac:(discriminate) Hwf Hstop HrdX (follows_is _ _ _ KDoubleColon HG eq_refl) ltac:(flen)) as (st & Hrds & Hp).
    eexists. split; [rewrite rd_sp; apply (rd_kw "in" KReserved); reflexivity|]. split; [|apply follows_tok; [cbn; tauto|discriminate]].
    unfold frag_ain. sst. rewrite rd_sp, Hrds. sst. exact Hp.
Qed.

Lemma stopb_act_tail : forall ind o rest, stopb (applies_opt_text ind o ++ 59 :: 10 :: rest) = true.
Proof. intros ind [a|] rest; reflexivity. Qed.
Lemma stopb_act_tail1 : forall ind parents o rest, stopb (aparents_text parents ++ applies_opt_text ind o ++ 59 :: 10 :: rest) = true.
Proof. intros ind [|p ps] o rest; [apply stopb_act_tail|reflexivity]. Qed.

Lemma action_item : forall kv, item_spec (DA kv).
Proof.
  intros [key a] ind n fuel rest st' Hwf Hfresh Hrd Hf. cbn [wf_item fresh_item fst snd] in Hwf, Hfresh.
  apply andb_true_iff in Hwf. destruct Hwf as [Hkey Hwf]. apply negb_true_iff in Hfresh.
  unfold wf_action_t in Hwf. apply andb_true_iff in Hwf. destruct Hwf as [Hwf Happ]. apply andb_true_iff in Hwf. destruct Hwf as [Han Hpar].
  apply (item_wrap (DA (key, a)) ind n fuel rest st' (xac_annots a) "action"
                   (print_name key ++ aparents_text (xac_parents a) ++ applies_opt_text ind (xac_applies a) ++ 59 :: 10 :: rest));
    try reflexivity; try assumption.
  - cbn [print_item]. unfold print_action, aparents_text, applies_opt_text. cbv zeta. cbn [fst snd].
    rewrite (print_annotations_sorted _ _ (proj1 (annots_ok_inv _ Han))). change (s_of "action ") with (s_of "action" ++ [32]). tnorm. reflexivity.
  - intros Hf'.
    destruct (frag_applies_lemma (xac_applies a) ind fuel rest Happ ltac:(flen)) as (st2 & Hrd2 & Hp2 & HG2).
    destruct (frag_ain_lemma (xac_parents a) fuel _ st2 Hpar Hrd2 HG2 (stopb_act_tail _ _ _) ltac:(flen)) as (st1 & Hrd1 & Hp1 & HG1).
    destruct (name_lemma key _ st1 Hkey (stopb_act_tail1 ind (xac_parents a) (xac_applies a) rest) Hrd1) as (st0 & Hrd0 & Hp0 & _).
    unfold parse_decl. sst. rewrite rd_sp, Hrd0. sst.
    rewrite parse_action_eq. unfold parse_names. rewrite Hp0. cbn [sbind].
    destruct fuel as [|f]; [exfalso; flen|]. cbn [names_rest]. rewrite (follows_is _ _ _ KComma HG1) by reflexivity. cbn [negb sbind].
    rewrite Hp1. cbn [sbind]. rewrite Hp2. cbn [sbind]. unfold frag_attrs. sst.
    rewrite rd_nl, Hrd. sst. cbn [add_actions]. rewrite Hfresh. reflexivity.
Qed.

Lemma item_lemma : forall it, item_spec it.
Proof. intros [kv|kv|kv|kv]; [apply common_item|apply entity_item|apply enum_item|apply action_item]. Qed.

Fixpoint fresh_chain (its : list ditem) (n : x_ns) : Prop :=
  match its with [] => True | it :: r => fresh_item it n = true /\ fresh_chain r (add_item it n) end.
Definition add_items (its : list ditem) (n : x_ns) : x_ns := fold_left (fun n it => add_item it n) its n.

Lemma join_blocks_cons : forall first b r, join_blocks first (b :: r) = (if first then [] else [10]) ++ b ++ join_blocks false r.
Proof. reflexivity. Qed.
Lemma rd_first : forall (first : bool) s, rd ((if first then [] else [10]) ++ s) = rd s.
Proof. intros [|] s; [reflexivity|apply rd_nl]. Qed.

Lemma print_item_len : forall ind it, (1 <= length (print_item ind it))%nat.
Proof.
  intros ind [kv|kv|kv|kv]; unfold print_item, print_common, print_entity, print_enum, print_action; cbv zeta;
    repeat rewrite app_length; cbn [length]; lia.
Qed.

Lemma namespace_loop_lemma : forall its first n fuel rest st', forallb wf_item its = true -> fresh_chain its n -> rd rest = SOk st' ->
  (2 * length (join_blocks first (map (print_item 1) its) ++ 125%Z :: 10%Z :: rest) + 14 <= fuel)%nat ->
  exists st, rd (join_blocks first (map (print_item 1) its) ++ 125 :: 10 :: rest) = SOk st
             /\ namespace_loop fuel n st = SOk (add_items its n, st').
Proof.
  induction its as [|it its IH]; intros first n fuel rest st' Hwf Hfr Hrd Hf.
  - cbn [map join_blocks app] in *. eexists. split; [apply rd_rbrace|].
    destruct fuel as [|f]; [exfalso; flen|]. cbn [namespace_loop]. sst. rewrite rd_nl, Hrd. reflexivity.
  - cbn [map forallb] in *. apply andb_true_iff in Hwf. destruct Hwf as [Hit Hwf]. destruct Hfr as [Hfi Hfr].
    rewrite join_blocks_cons in Hf |- *. rewrite <- !app_assoc in Hf |- *. rewrite rd_first.
    destruct fuel as [|f]; [exfalso; flen|].
    pose proof (print_item_len 1 it) as Hlen.
    destruct (IH false (add_item it n) f rest st' Hwf Hfr Hrd ltac:(destruct first; flen)) as (st2 & Hrd2 & Hp2).
    destruct (item_lemma it 1%nat n f _ st2 Hit Hfi Hrd2 ltac:(destruct first; flen)) as (st & st1 & an & Hrds & Hk & Hpa & _ & _ & Hpd).
    exists st. split; [exact Hrds|]. cbn [namespace_loop].
    rewrite (is_no st KRBrace _ Hk), (is_no st KEOF _ Hk) by reflexivity.
    rewrite Hpa. cbn [sbind]. rewrite Hpd. cbn [sbind]. exact Hp2.
Qed.

Definition items_of (n : x_ns) : list ditem :=
  map DC (xs_commons n) ++ map DE (xs_entities n) ++ map DN (xs_enums n) ++ map DA (xs_actions n).

Lemma fresh_chain_app : forall a b n, fresh_chain (a ++ b) n <-> fresh_chain a n /\ fresh_chain b (add_items a n).
Proof.
  induction a as [|x a IH]; intros b n; cbn [app fresh_chain add_items fold_left]; [tauto|].
  fold (add_items a (add_item x n)). rewrite IH. tauto.
Qed.
Lemma add_items_app : forall a b n, add_items (a ++ b) n = add_items b (add_items a n).
Proof. intros a b n. unfold add_items. apply fold_left_app. Qed.

Lemma has_key_mem : forall (A : Type) k (l : list (str * A)), has_key k l = mem k (map fst l).
Proof.
  intros A k l. unfold has_key, mem. induction l as [|[k' v] l IH]; [reflexivity|].
  cbn [rec_get map fst existsb]. destruct (str_eqb k k'); [reflexivity|exact IH].
Qed.

(* Adding the declarations of one kind, in key order, to a namespace that holds the (normalised) earlier ones of that kind: every
   key is new and goes to the end.  [get] / [set] are the field of that kind; [other] is the clash test against the kind it shares
   its names with (entity types and enumerated types). *)
Lemma phase : forall (A : Type) (mk : str * A -> ditem) (g : A -> A) (get : x_ns -> list (str * A)) (set : x_ns -> list (str * A) -> x_ns)
    (other : x_ns -> str -> bool),
  (forall kv n, add_item (mk kv) n = set n (rec_insert (fst kv) (g (snd kv)) (get n))) ->
  (forall kv n, has_key (fst kv) (get n) = false -> other n (fst kv) = false -> fresh_item (mk kv) n = true) ->
  (forall n v, get (set n v) = v) -> (forall n v v', set (set n v) v' = set n v') -> (forall n v k, other (set n v) k = other n k) ->
  forall l pre n, keys_sorted (pre ++ l) = true -> (forall kv, In kv l -> other n (fst kv) = false) ->
  fresh_chain (map mk l) (set n (mapv g pre)) /\ add_items (map mk l) (set n (mapv g pre)) = set n (mapv g (pre ++ l)).
Proof.
  intros A mk g get set other Hadd Hfresh Hgs Hss Hos. induction l as [|[k v] l IH]; intros pre n Hs Hoth.
  - rewrite app_nil_r. split; [exact I|reflexivity].
  - pose proof (sorted_snoc _ _ _ _ Hs) as Hs1.
    cbn [map fresh_chain add_items fold_left]. fold (add_items (map mk l)).
    rewrite Hadd, Hgs, Hss. cbn [fst snd]. rewrite (insert_mapv_last _ _ g pre k v Hs1).
    destruct (IH (pre ++ [(k, v)]) n ltac:(rewrite <- app_assoc; exact Hs) ltac:(intros kv Hkv; apply Hoth; right; exact Hkv)) as [IH1 IH2].
    rewrite <- app_assoc in IH2. split; [split; [|exact IH1]|exact IH2].
    apply Hfresh; [rewrite Hgs; exact (has_key_mapv_last _ _ g pre k v Hs1)|rewrite Hos; exact (Hoth (k, v) (or_introl eq_refl))].
Qed.

Record wf_ns_tp (n : x_ns) : Prop := {
  wt_annots : annots_ok (xs_annots n) = true;
  wt_es : keys_sorted (xs_entities n) = true;
  wt_es_wf : forallb (fun kv : str * x_entity => is_valid_ident (fst kv) && wf_entity_t (snd kv)) (xs_entities n) = true;
  wt_ens : keys_sorted (xs_enums n) = true;
  wt_ens_wf : forallb (fun kv : str * x_enum => is_valid_ident (fst kv) && wf_enum_t (snd kv)) (xs_enums n) = true;
  wt_disj : disjoint_keys (xs_entities n) (xs_enums n) = true;
  wt_cs : keys_sorted (xs_commons n) = true;
  wt_cs_wf : forallb (fun kv : str * x_common => is_valid_ident (fst kv) && negb (is_reserved_type_name (fst kv)) && wf_common_t (snd kv)) (xs_commons n) = true;
  wt_as : keys_sorted (xs_actions n) = true;
  wt_as_wf : forallb (fun kv : str * x_action => name_ok (fst kv) && wf_action_t (snd kv)) (xs_actions n) = true }.

Lemma wf_ns_t_iff : forall n, wf_ns_t n = true <-> wf_ns_tp n.
Proof.
  intros n. unfold wf_ns_t. rewrite !andb_true_iff. split.
  - intros H. constructor; tauto.
  - intros [H1 H2 H3 H4 H5 H6 H7 H8 H9 H10]. tauto.
Qed.

Lemma items_fold : forall n, wf_ns_t n = true ->
  fresh_chain (items_of n) empty_ns /\ add_items (items_of n) empty_ns = set_annots (norm_ns_t sh n) [].
Proof.
  intros n Hwf. apply wf_ns_t_iff in Hwf. destruct Hwf as [Han Hes Hesw Hens Hensw Hdj Hcs Hcsw Has Hasw].
  set (n1 := set_commons empty_ns (mapv (norm_common_t sh) (xs_commons n))).
  set (n2 := set_entities n1 (mapv (norm_entity_t sh) (xs_entities n))).
  set (n3 := set_enums n2 (xs_enums n)).
  (* four uses of [phase], each from the namespace the previous one ends in; the equations between get / set / other and
     "no clash with a kind that is still empty" hold by computation, what is left is fresh_item and, for the enumerated
     types, disjointness from the entity types *)
  assert (P1 : fresh_chain (map DC (xs_commons n)) empty_ns /\ add_items (map DC (xs_commons n)) empty_ns = n1).
  { apply (phase _ DC (norm_common_t sh) xs_commons set_commons (fun _ _ => false)) with (pre := []) (n := empty_ns); try reflexivity; try assumption.
    intros kv m H _. cbn [fresh_item]. rewrite H. reflexivity. }
  assert (P2 : fresh_chain (map DE (xs_entities n)) n1 /\ add_items (map DE (xs_entities n)) n1 = n2).
  { apply (phase _ DE (norm_entity_t sh) xs_entities set_entities (fun m k => has_key k (xs_enums m))) with (pre := []) (n := n1);
      try reflexivity; try assumption.
    intros kv m H1 H2. cbn [fresh_item]. rewrite H1, H2. reflexivity. }
  assert (P3 : fresh_chain (map DN (xs_enums n)) n2 /\ add_items (map DN (xs_enums n)) n2 = n3).
  { unfold n3. rewrite <- (sj_mapv_id (xs_enums n)) at 3.
    apply (phase _ DN (fun x => x) xs_enums set_enums (fun m k => has_key k (xs_entities m))) with (pre := []) (n := n2);
      try reflexivity; try assumption.
    - intros kv m H1 H2. cbn [fresh_item]. rewrite H1, H2. reflexivity.
    - intros kv Hkv. cbn [n2 n1 set_entities xs_entities]. rewrite has_key_mem, sj_mapv_keys. unfold disjoint_keys in Hdj. rewrite forallb_forall in Hdj.
      apply negb_true_iff. apply Hdj. exact Hkv. }
  assert (P4 : fresh_chain (map DA (xs_actions n)) n3
               /\ add_items (map DA (xs_actions n)) n3 = set_actions n3 (mapv (norm_action_t sh) (xs_actions n))).
  { apply (phase _ DA (norm_action_t sh) xs_actions set_actions (fun _ _ => false)) with (pre := []) (n := n3); try reflexivity; try assumption.
    intros kv m H _. cbn [fresh_item]. rewrite H. reflexivity. }
  destruct P1 as [F1 E1], P2 as [F2 E2], P3 as [F3 E3], P4 as [F4 E4]. unfold items_of. split.
  - apply fresh_chain_app. split; [exact F1|]. rewrite E1. apply fresh_chain_app. split; [exact F2|]. rewrite E2.
    apply fresh_chain_app. split; [exact F3|]. rewrite E3. exact F4.
  - rewrite !add_items_app, E1, E2, E3, E4. reflexivity.
Qed.

Lemma decl_blocks_items : forall ind n, wf_ns_t n = true -> decl_blocks sh ind n = map (print_item ind) (items_of n).
Proof.
  intros ind n Hwf. apply wf_ns_t_iff in Hwf. destruct Hwf as [Han Hes Hesw Hens Hensw Hdj Hcs Hcsw Has Hasw].
  unfold decl_blocks, items_of. rewrite !rec_of_list_sorted_id by assumption. rewrite !map_app, !map_map. reflexivity.
Qed.

Lemma wf_items_of : forall n, wf_ns_t n = true -> forallb wf_item (items_of n) = true.
Proof.
  intros n Hwf. apply wf_ns_t_iff in Hwf. destruct Hwf as [Han Hes Hesw Hens Hensw Hdj Hcs Hcsw Has Hasw].
  unfold items_of. rewrite !forallb_app. rewrite !forallb_forall in *.
  repeat (apply andb_true_iff; split); apply forallb_forall; intros it Hit; apply in_map_iff in Hit; destruct Hit as (kv & <- & Hkv);
    cbn [wf_item]; auto.
Qed.

Lemma namespace_text : forall name n rest, wf_ns_t n = true ->
  print_namespace sh (name, n) ++ rest
  = pa 0 (xs_annots n) ++ tabs 0 ++ s_of "namespace" ++ 32 :: name ++ 32 :: 123 :: 10
    :: join_blocks true (map (print_item 1) (items_of n)) ++ 125 :: 10 :: rest.
Proof.
  intros name n rest Hwf. unfold print_namespace. cbn [fst snd]. rewrite (decl_blocks_items 1 n Hwf).
  apply wf_ns_t_iff in Hwf. destruct Hwf as [Han _ _ _ _ _ _ _ _ _]. destruct (annots_ok_inv _ Han) as [Hans _].
  rewrite (print_annotations_sorted _ _ Hans).
  change (s_of "namespace ") with (s_of "namespace" ++ [32]). change (s_of " {") with [32; 123]. tnorm. reflexivity.
Qed.

Lemma namespace_lemma : forall name n fuel rest st', ns_path name = true -> wf_ns_t n = true -> rd rest = SOk st' ->
  (2 * length (print_namespace sh (name, n) ++ rest) + 8 <= fuel)%nat ->
  exists st st1 st2, rd (print_namespace sh (name, n) ++ rest) = SOk st /\ In (tk st) [KAt; KIdent]
    /\ parse_annotations fuel [] st = SOk (xs_annots n, st1) /\ is st1 KIdent && kw st1 "namespace" = true
    /\ read_token st1 = SOk st2 /\ parse_namespace fuel (xs_annots n) st2 = SOk (name, norm_ns_t sh n, st').
Proof.
  intros name n fuel rest st' Hname Hwf Hrd Hf. rewrite (namespace_text name n rest Hwf) in Hf |- *.
  destruct (items_fold n Hwf) as [Hfresh Hfold].
  assert (Han : annots_ok (xs_annots n) = true) by (apply wf_ns_t_iff in Hwf; destruct Hwf; assumption).
  destruct (namespace_loop_lemma (items_of n) true empty_ns fuel rest st' (wf_items_of n Hwf) Hfresh Hrd ltac:(flen)) as (st_l & Hrd_l & Hp_l).
  destruct (path_lemma name fuel (32 :: 123 :: 10 :: join_blocks true (map (print_item 1) (items_of n)) ++ 125 :: 10 :: rest)
              (MkSt (mk_tok KLBrace [123]) (10 :: join_blocks true (map (print_item 1) (items_of n)) ++ 125 :: 10 :: rest))
              (ns_path_ent_path _ Hname) eq_refl ltac:(rewrite rd_sp; apply rd_lbrace) eq_refl ltac:(flen)) as (st_p & Hrd_p & Hp_p & _).
  match goal with |- context [rd (pa 0 ?an ++ tabs 0 ++ s_of ?kwd ++ 32 :: ?body)] =>
    destruct (decl_wrap an 0 kwd body fuel Han eq_refl eq_refl ltac:(flen)) as (st & Hrds & Hk & Hp) end.
  exists st. eexists. exists st_p. split; [exact Hrds|]. split; [exact Hk|]. split; [exact Hp|]. split; [reflexivity|].
  split; [rewrite read_token_mk, rd_sp; exact Hrd_p|].
  unfold parse_namespace. rewrite Hp_p. cbn [sbind]. rewrite (ns_path_no_cedar _ Hname). sst.
  rewrite rd_nl, Hrd_l. sst. rewrite Hp_l. cbn [sbind]. rewrite Hfold. reflexivity.
Qed.

Inductive sitem := SD (it : ditem) | SN (kv : str * x_ns).
Definition print_sitem (x : sitem) : str := match x with SD it => print_item 0 it | SN kv => print_namespace sh kv end.
Definition swf (x : sitem) : bool := match x with SD it => wf_item it | SN kv => ns_path (fst kv) && wf_ns_t (snd kv) end.
Definition sstep (x : sitem) (p : x_ns * x_schema) : x_ns * x_schema :=
  match x with
  | SD it => (add_item it (fst p), snd p)
  | SN kv => (fst p, rec_insert (fst kv) (norm_ns_t sh (snd kv)) (snd p))
  end.
Definition sfresh1 (x : sitem) (p : x_ns * x_schema) : bool :=
  match x with SD it => fresh_item it (fst p) | SN kv => negb (has_key (fst kv) (snd p)) end.
Fixpoint sfresh (l : list sitem) (p : x_ns * x_schema) : Prop :=
  match l with [] => True | x :: r => sfresh1 x p = true /\ sfresh r (sstep x p) end.
Definition ssteps (l : list sitem) (p : x_ns * x_schema) : x_ns * x_schema := fold_left (fun p x => sstep x p) l p.
Definition sresult (p : x_ns * x_schema) : x_schema := (if has_decls (fst p) then [([], fst p)] else []) ++ snd p.

Lemma print_sitem_len : forall x, (1 <= length (print_sitem x))%nat.
Proof. intros [it|kv]; [apply print_item_len|]. unfold print_sitem, print_namespace. repeat rewrite app_length. cbn [length]. lia. Qed.

Lemma schema_loop_lemma : forall l first bare nss fuel, forallb swf l = true -> sfresh l (bare, nss) ->
  (2 * length (join_blocks first (map print_sitem l)) + 16 <= fuel)%nat ->
  exists st, rd (join_blocks first (map print_sitem l)) = SOk st
             /\ schema_loop fuel bare nss st = SOk (sresult (ssteps l (bare, nss))).
Proof.
  induction l as [|x l IH]; intros first bare nss fuel Hwf Hfr Hf.
  - cbn [map join_blocks] in *. eexists. split; [apply rd_nil|].
    destruct fuel as [|f]; [exfalso; flen|]. cbn [schema_loop]. sst. reflexivity.
  - cbn [map forallb] in *. apply andb_true_iff in Hwf. destruct Hwf as [Hx Hwf]. destruct Hfr as [Hfx Hfr].
    rewrite join_blocks_cons in Hf |- *. rewrite rd_first.
    destruct fuel as [|f]; [exfalso; flen|].
    pose proof (print_sitem_len x) as Hlen.
    destruct (IH false (fst (sstep x (bare, nss))) (snd (sstep x (bare, nss))) f Hwf
                ltac:(rewrite <- surjective_pairing; exact Hfr) ltac:(destruct first; flen)) as (st2 & Hrd2 & Hp2).
    rewrite <- surjective_pairing in Hp2.
    destruct x as [it|[name n]]; cbn [print_sitem swf sfresh1 sstep fst snd] in *.
    + destruct (item_lemma it 0%nat bare f _ st2 Hx Hfx Hrd2 ltac:(destruct first; flen)) as (st & st1 & an & Hrds & Hk & Hpa & Hi1 & Hkw1 & Hpd).
      exists st. split; [exact Hrds|]. cbn [schema_loop]. rewrite (is_no st KEOF _ Hk) by reflexivity.
      rewrite Hpa. cbn [sbind]. rewrite Hi1, Hkw1. cbn [andb]. rewrite Hpd. cbn [sbind]. exact Hp2.
    + apply andb_true_iff in Hx. destruct Hx as [Hname Hn]. apply negb_true_iff in Hfx.
      destruct (namespace_lemma name n f _ st2 Hname Hn Hrd2 ltac:(destruct first; flen))
        as (st & st1 & st_p & Hrds & Hk & Hpa & Hi1 & Hrt & Hpn).
      exists st. split; [exact Hrds|]. cbn [schema_loop]. rewrite (is_no st KEOF _ Hk) by reflexivity.
      rewrite Hpa. cbn [sbind]. rewrite Hi1, Hrt. cbn [sbind]. rewrite Hpn. cbn [sbind]. rewrite Hfx. exact Hp2.
Qed.

Definition named_kv (kv : str * x_ns) : bool := negb (is_nil (fst kv)).
Definition sitems_of (s : x_schema) : list sitem :=
  (match rec_get [] s with Some n => map SD (items_of n) | None => [] end) ++ map SN (filter named_kv s).

Lemma sfresh_app : forall a b p, sfresh (a ++ b) p <-> sfresh a p /\ sfresh b (ssteps a p).
Proof.
  induction a as [|x a IH]; intros b p; cbn [app sfresh ssteps fold_left]; [tauto|].
  fold (ssteps a (sstep x p)). rewrite IH. tauto.
Qed.
Lemma ssteps_app : forall a b p, ssteps (a ++ b) p = ssteps b (ssteps a p).
Proof. intros a b p. unfold ssteps. apply fold_left_app. Qed.

Lemma ssteps_SD : forall its b m, ssteps (map SD its) (b, m) = (add_items its b, m) /\ (fresh_chain its b -> sfresh (map SD its) (b, m)).
Proof.
  induction its as [|it its IH]; intros b m; [split; [reflexivity|intros _; exact I]|].
  cbn [map ssteps fold_left sstep fst snd sfresh sfresh1 fresh_chain add_items]. fold (ssteps (map SD its)). fold (add_items its).
  destruct (IH (add_item it b) m) as [E F]. split; [exact E|]. intros [H1 H2]. split; [exact H1|exact (F H2)].
Qed.

Lemma ssteps_SN : forall l pre b, keys_sorted (pre ++ l) = true ->
  ssteps (map SN l) (b, mapv (norm_ns_t sh) pre) = (b, mapv (norm_ns_t sh) (pre ++ l)) /\ sfresh (map SN l) (b, mapv (norm_ns_t sh) pre).
Proof.
  induction l as [|[k v] l IH]; intros pre b Hs.
  - rewrite app_nil_r. split; [reflexivity|exact I].
  - pose proof (sorted_snoc _ _ _ _ Hs) as Hs1.
    cbn [map ssteps fold_left sstep fst snd sfresh sfresh1]. fold (ssteps (map SN l)).
    rewrite insert_mapv_last by exact Hs1. rewrite (has_key_mapv_last _ _ _ _ _ _ Hs1).
    destruct (IH (pre ++ [(k, v)]) b ltac:(rewrite <- app_assoc; exact Hs)) as [E F]. rewrite <- app_assoc in E.
    split; [exact E|]. split; [reflexivity|exact F].
Qed.

Lemma str_ltb_nil_r : forall k, str_ltb k [] = false.
Proof. intros [|c k]; reflexivity. Qed.

(* A key-sorted schema is all named namespaces, or the bare declarations followed by named namespaces. *)
Definition named (l : x_schema) : Prop := Forall (fun kv => fst kv <> []) l.

Lemma sorted_schema_shape : forall s : x_schema, keys_sorted s = true ->
  named s \/ exists kv l, s = kv :: l /\ fst kv = [] /\ named l.
Proof.
  intros [|[k n0] l] Hs; [left; constructor|].
  assert (Hnn : named l).
  { eapply Forall_impl; [|exact (keys_sorted_all_lt _ _ _ Hs)]. intros [k' v'] Hlt E. cbn [fst] in *. subst k'.
    rewrite str_ltb_nil_r in Hlt. discriminate. }
  destruct k as [|c k]; [right; exists ([], n0), l; repeat split; exact Hnn|left; constructor; [discriminate|exact Hnn]].
Qed.

Lemma named_facts : forall l, named l -> rec_get [] l = None /\ filter named_kv l = l /\ filter ns_keep l = l.
Proof.
  intros l H. induction H as [|[k v] l Hk Hl (IH1 & IH2 & IH3)]; [repeat split; reflexivity|].
  destruct k as [|c k]; [exfalso; apply Hk; reflexivity|]. split; [exact IH1|].
  cbn [filter]. unfold named_kv at 1, ns_keep at 1. cbn [fst is_nil negb orb]. rewrite IH2, IH3. split; reflexivity.
Qed.

Lemma bare_facts : forall (kv : str * x_ns) l, fst kv = [] -> named l ->
  rec_get [] (kv :: l) = Some (snd kv) /\ filter named_kv (kv :: l) = l
  /\ filter ns_keep (kv :: l) = if has_decls (snd kv) then kv :: l else l.
Proof.
  intros [k n0] l E H. cbn [fst snd] in *. subst k. destruct (named_facts l H) as (_ & R2 & R3).
  split; [reflexivity|]. split; [exact R2|].
  cbn [filter]. unfold ns_keep at 1. cbn [fst snd is_nil negb orb]. rewrite R3. reflexivity.
Qed.

Lemma named_mapv : forall (g : x_ns -> x_ns) l, named l -> named (mapv g l).
Proof. intros g l H. unfold named, mapv. rewrite Forall_map. exact H. Qed.

Lemma wf_text_sorted : forall s, wf_text s = true -> keys_sorted s = true.
Proof. intros s H. unfold wf_text in H. apply andb_true_iff in H. tauto. Qed.

Lemma wf_text_in : forall s kv, wf_text s = true -> In kv s ->
  wf_ns_t (snd kv) = true /\ (fst kv = [] -> xs_annots (snd kv) = []) /\ (fst kv <> [] -> ns_path (fst kv) = true).
Proof.
  intros s kv H Hin. unfold wf_text in H. apply andb_true_iff in H. destruct H as [_ H]. rewrite forallb_forall in H.
  specialize (H kv Hin). apply andb_true_iff in H. destruct H as [H1 H2]. split; [exact H1|].
  destruct (fst kv) as [|c k]; split; intros E; try congruence.
  destruct (xs_annots (snd kv)); [reflexivity|discriminate].
Qed.

Lemma has_decls_norm_t : forall n, has_decls (norm_ns_t sh n) = has_decls n.
Proof. intros n. unfold has_decls, norm_ns_t. cbn [xs_entities xs_enums xs_actions xs_commons]. rewrite !is_nil_mapv. reflexivity. Qed.

Lemma swf_sitems : forall s, wf_text s = true -> forallb swf (sitems_of s) = true.
Proof.
  intros s Hwf. unfold sitems_of. rewrite forallb_app. apply andb_true_iff. split.
  - destruct (rec_get [] s) as [n|] eqn:E; [|reflexivity].
    destruct (wf_text_in s _ Hwf (rec_get_In _ _ _ E)) as [Hn _]. cbn [snd] in Hn.
    apply forallb_forall. intros x Hx. apply in_map_iff in Hx. destruct Hx as (it & <- & Hit).
    exact (proj1 (forallb_forall _ _) (wf_items_of n Hn) it Hit).
  - apply forallb_forall. intros x Hx. apply in_map_iff in Hx. destruct Hx as (kv & <- & Hkv). apply filter_In in Hkv. destruct Hkv as [Hkv Hnm].
    destruct (wf_text_in s kv Hwf Hkv) as (Hn & _ & Hp). cbn [swf]. rewrite Hn, Hp; [reflexivity|].
    unfold named_kv in Hnm. destruct (fst kv); [discriminate|discriminate].
Qed.

Lemma set_annots_nil_id : forall n, xs_annots n = [] -> set_annots (norm_ns_t sh n) [] = norm_ns_t sh n.
Proof. intros [an es ens cs acts] H. cbn in H. subst an. reflexivity. Qed.

Lemma sitems_result : forall s, wf_text s = true ->
  sfresh (sitems_of s) (empty_ns, []) /\ sresult (ssteps (sitems_of s) (empty_ns, [])) = mapv (norm_ns_t sh) (filter ns_keep s).
Proof.
  intros s Hwf. pose proof (wf_text_sorted s Hwf) as Hs.
  unfold sitems_of.
  destruct (sorted_schema_shape s Hs) as [Hnm|(kv & l & -> & Hk & Hnm)]; destruct (named_facts _ Hnm) as (R1 & R2 & R3).
  - rewrite R1, R2, R3. cbn [app].
    destruct (ssteps_SN s [] empty_ns Hs) as [E2 F2]. change (mapv (norm_ns_t sh) []) with (@nil (str * x_ns)) in E2, F2.
    split; [exact F2|]. exact (f_equal sresult E2).
  - destruct (bare_facts kv l Hk Hnm) as (B1 & B2 & B3). rewrite B1, B2, B3.
    destruct (wf_text_in _ kv Hwf (or_introl eq_refl)) as (Hn & Han & _). destruct kv as [k n0]. cbn [fst snd] in *. subst k.
    destruct (items_fold n0 Hn) as [Hfresh Hfold].
    destruct (ssteps_SD (items_of n0) empty_ns []) as [E1 F1].
    destruct (ssteps_SN l [] (add_items (items_of n0) empty_ns) ltac:(apply keys_sorted_cons in Hs; tauto)) as [E2 F2].
    change (mapv (norm_ns_t sh) []) with (@nil (str * x_ns)) in E2, F2.
    cbn [app] in E2.
    (* [eq_ind_r] instead of rewriting: the pairs agree only up to unfolding x_schema *)
    split.
    + apply sfresh_app. split; [exact (F1 Hfresh)|]. exact (eq_ind_r (sfresh (map SN l)) F2 E1).
    + rewrite ssteps_app. transitivity (sresult (add_items (items_of n0) empty_ns, mapv (norm_ns_t sh) l)).
      { apply (f_equal sresult). etransitivity; [exact (f_equal (ssteps (map SN l)) E1)|exact E2]. }
      unfold sresult. cbn [fst snd]. rewrite Hfold, (set_annots_nil_id n0 (Han eq_refl)), has_decls_norm_t.
      destruct (has_decls n0); reflexivity.
Qed.

End WithShadowed.

Lemma print_schema_items : forall s, wf_text s = true -> print_schema s = join_blocks true (map (print_sitem (shadowed_builtins s)) (sitems_of s)).
Proof.
  intros s Hwf. pose proof (wf_text_sorted s Hwf) as Hs.
  unfold print_schema. cbv zeta. rewrite (rec_of_list_sorted_id s Hs). unfold sitems_of. rewrite map_app, !map_map. cbn [print_sitem].
  fold named_kv. f_equal. f_equal.
  destruct (rec_get [] s) as [n|] eqn:E; [|reflexivity].
  destruct (wf_text_in s _ Hwf (rec_get_In _ _ _ E)) as [Hn _]. cbn [snd] in Hn. rewrite (decl_blocks_items (shadowed_builtins s) 0 n Hn), map_map. reflexivity.
Qed.

Theorem parse_print_schema : forall s, wf_text s = true -> parse_schema (print_schema s) = SOk (norm_text s).
Proof.
  intros s Hwf. unfold parse_schema. change (read_token {| p_tok := mk_tok KEOF []; p_src := print_schema s |}) with (rd (print_schema s)).
  rewrite (print_schema_items s Hwf). set (sh := shadowed_builtins s).
  assert (Hsh : forall n, sh n = true -> is_builtin_name n = true) by (intros n; apply shadowed_builtin).
  destruct (sitems_result sh s Hwf) as [Hfresh Hres].
  destruct (schema_loop_lemma sh Hsh (sitems_of s) true empty_ns [] (parse_schema_fuel (length (join_blocks true (map (print_sitem sh) (sitems_of s)))))
              (swf_sitems s Hwf) Hfresh ltac:(unfold parse_schema_fuel; lia)) as (st & Hrd & Hp).
  rewrite Hrd. cbn [sbind]. rewrite Hp. f_equal. exact Hres.
Qed.

(* a normalised type only holds references: normalising it again, with whatever set of shadowed names, changes nothing *)
Lemma norm_ty_idem : forall sh sh' t, norm_ty sh' (norm_ty sh t) = norm_ty sh t.
Proof.
  intros sh sh'. induction t as [| | |n|e IHe|fs IHfs|r|r] using xty_ind'; try reflexivity.
  - cbn [norm_ty]. rewrite IHe. reflexivity.
  - rewrite !norm_ty_rec. f_equal. rewrite sj_mapv_mapv. apply sj_mapv_ext_in. intros [key [[ty opt] an]] Hin.
    rewrite Forall_forall in IHfs. specialize (IHfs _ Hin). cbn [fst snd] in *. unfold norm_attr. cbn [fst snd]. rewrite IHfs. reflexivity.
Qed.

Lemma norm_entity_t_idem : forall sh sh' e, norm_entity_t sh' (norm_entity_t sh e) = norm_entity_t sh e.
Proof.
  intros sh sh' [an ps shp tg]. unfold norm_entity_t. cbn [xe_annots xe_parents xe_shape xe_tags]. f_equal.
  - destruct shp as [fs|]; [|reflexivity]. cbn [option_map]. f_equal.
    pose proof (norm_ty_idem sh sh' (XRec fs)) as H. rewrite !norm_ty_rec in H. injection H as H1. exact H1.
  - destruct tg as [t|]; [|reflexivity]. cbn [option_map]. rewrite norm_ty_idem. reflexivity.
Qed.
Lemma norm_common_t_idem : forall sh sh' c, norm_common_t sh' (norm_common_t sh c) = norm_common_t sh c.
Proof. intros sh sh' [an t]. unfold norm_common_t. cbn [xc_annots xc_type]. rewrite norm_ty_idem. reflexivity. Qed.
Lemma norm_applies_t_idem : forall sh sh' a, norm_applies_t sh' (norm_applies_t sh a) = norm_applies_t sh a.
Proof.
  intros sh sh' [ps rs c]. unfold norm_applies_t. cbn [xa_principals xa_resources xa_context]. destruct c as [t|]; [|reflexivity].
  cbn [option_map]. rewrite norm_ty_idem. reflexivity.
Qed.
Lemma norm_action_t_idem : forall sh sh' a, norm_action_t sh' (norm_action_t sh a) = norm_action_t sh a.
Proof.
  intros sh sh' [an ps ap]. unfold norm_action_t. cbn [xac_annots xac_parents xac_applies]. destruct ap as [a|]; [|reflexivity].
  cbn [option_map]. rewrite norm_applies_t_idem. reflexivity.
Qed.

Lemma norm_ns_t_idem : forall sh sh' n, norm_ns_t sh' (norm_ns_t sh n) = norm_ns_t sh n.
Proof.
  intros sh sh' n. unfold norm_ns_t. cbn [xs_annots xs_entities xs_enums xs_commons xs_actions]. rewrite !sj_mapv_mapv. f_equal.
  - apply sj_mapv_ext_in. intros kv _. apply norm_entity_t_idem.
  - apply sj_mapv_ext_in. intros kv _. apply norm_common_t_idem.
  - apply sj_mapv_ext_in. intros kv _. apply norm_action_t_idem.
Qed.

Lemma filter_keep_norm_t : forall sh l, filter ns_keep (mapv (norm_ns_t sh) l) = mapv (norm_ns_t sh) (filter ns_keep l).
Proof.
  intros sh. induction l as [|[name n] l IH]; [reflexivity|]. rewrite sj_mapv_cons. cbn [filter fst snd]. rewrite IH.
  unfold ns_keep. cbn [fst snd]. rewrite has_decls_norm_t. destruct (negb (is_nil name) || has_decls n); reflexivity.
Qed.

Theorem norm_text_idem : forall s, norm_text (norm_text s) = norm_text s.
Proof.
  intros s. unfold norm_text at 1. generalize (shadowed_builtins (norm_text s)). intros sh'. unfold norm_text.
  rewrite filter_keep_norm_t, filter_idem, sj_mapv_mapv.
  apply sj_mapv_ext_in. intros kv _. apply norm_ns_t_idem.
Qed.

Lemma forallb_mapv : forall (A B : Type) (g : A -> B) (p : str * B -> bool) (q : str * A -> bool) l,
  (forall kv, In kv l -> q kv = true -> p (fst kv, g (snd kv)) = true) -> forallb q l = true -> forallb p (mapv g l) = true.
Proof.
  intros A B g p q l H Hq. rewrite forallb_forall in *. intros kv Hkv. unfold mapv in Hkv. apply in_map_iff in Hkv.
  destruct Hkv as (x & <- & Hx). apply H; [exact Hx|apply Hq; exact Hx].
Qed.

Section NormWf.
Variable sh : str -> bool.
Hypothesis Hsh : forall n, sh n = true -> is_builtin_name n = true.

Lemma wf_tty_norm : forall t, wf_tty t = true -> wf_tty (norm_ty sh t) = true.
Proof.
  induction t as [| | |n|e IHe|fs IHfs|r|r] using xty_ind'; intros H; try exact H.
  - apply type_path_wb; [exact Hsh|reflexivity].
  - apply type_path_wb; [exact Hsh|reflexivity].
  - apply type_path_wb; [exact Hsh|reflexivity].
  - apply type_path_wb; [exact Hsh|exact H].
  - cbn [norm_ty wf_tty] in *. exact (IHe H).
  - rewrite norm_ty_rec, wf_tty_rec in *. apply andb_true_iff in H. destruct H as [Hs Hall]. apply andb_true_iff. split.
    + rewrite sj_sorted_mapv. exact Hs.
    + rewrite forallb_forall in *. intros kv Hkv. unfold mapv in Hkv. apply in_map_iff in Hkv. destruct Hkv as (x & <- & Hx).
      specialize (Hall x Hx). rewrite Forall_forall in IHfs. specialize (IHfs x Hx).
      unfold wf_tattr, norm_attr in *. cbn [fst snd]. apply andb_true_iff in Hall. destruct Hall as [Hall Han].
      apply andb_true_iff in Hall. destruct Hall as [Hk Ht]. rewrite Hk, Han, (IHfs Ht). reflexivity.
Qed.

Lemma opt_wf_tty_norm : forall o, opt_wf_tty o = true -> opt_wf_tty (option_map (norm_ty sh) o) = true.
Proof. intros [t|] H; [exact (wf_tty_norm t H)|reflexivity]. Qed.
Lemma opt_wf_rec_norm : forall o, opt_wf_tty (option_map XRec o) = true -> opt_wf_tty (option_map XRec (option_map (norm_rec sh) o)) = true.
Proof. intros [fs|] H; [|reflexivity]. cbn [option_map opt_wf_tty] in *. unfold norm_rec. rewrite <- norm_ty_rec. exact (wf_tty_norm _ H). Qed.

Lemma wf_entity_t_norm : forall e, wf_entity_t e = true -> wf_entity_t (norm_entity_t sh e) = true.
Proof.
  intros e H. unfold wf_entity_t in *. cbn [norm_entity_t xe_annots xe_parents xe_shape xe_tags].
  apply andb_true_iff in H. destruct H as [H Ht]. apply andb_true_iff in H. destruct H as [H Hs]. rewrite H.
  rewrite (opt_wf_rec_norm _ Hs), (opt_wf_tty_norm _ Ht). reflexivity.
Qed.
Lemma wf_common_t_norm : forall c, wf_common_t c = true -> wf_common_t (norm_common_t sh c) = true.
Proof.
  intros c H. unfold wf_common_t in *. cbn [norm_common_t xc_annots xc_type]. apply andb_true_iff in H. destruct H as [H Ht].
  rewrite H, (wf_tty_norm _ Ht). reflexivity.
Qed.
Lemma wf_action_t_norm : forall a, wf_action_t a = true -> wf_action_t (norm_action_t sh a) = true.
Proof.
  intros a H. unfold wf_action_t in *. cbn [norm_action_t xac_annots xac_parents xac_applies]. apply andb_true_iff in H. destruct H as [H Hap].
  rewrite H. destruct (xac_applies a) as [ap|]; [|reflexivity]. cbn [option_map andb].
  unfold wf_applies_t in *. cbn [norm_applies_t xa_principals xa_resources xa_context]. apply andb_true_iff in Hap. destruct Hap as [Hap Hc].
  rewrite Hap, (opt_wf_tty_norm _ Hc). reflexivity.
Qed.

Lemma wf_ns_t_norm : forall n, wf_ns_t n = true -> wf_ns_t (norm_ns_t sh n) = true.
Proof.
  intros n Hwf. apply wf_ns_t_iff in Hwf. destruct Hwf as [Han Hes Hesw Hens Hensw Hdj Hcs Hcsw Has Hasw].
  apply wf_ns_t_iff. constructor; cbn [norm_ns_t xs_annots xs_entities xs_enums xs_commons xs_actions]; auto.
  - rewrite sj_sorted_mapv. exact Hes.
  - refine (forallb_mapv _ _ _ _ _ _ _ Hesw). intros kv _ H. cbn [fst snd]. apply andb_true_iff in H. destruct H as [H1 H2].
    rewrite H1, (wf_entity_t_norm _ H2). reflexivity.
  - unfold disjoint_keys in *. rewrite sj_mapv_keys. exact Hdj.
  - rewrite sj_sorted_mapv. exact Hcs.
  - refine (forallb_mapv _ _ _ _ _ _ _ Hcsw). intros kv _ H. cbn [fst snd]. apply andb_true_iff in H. destruct H as [H1 H2].
    rewrite H1, (wf_common_t_norm _ H2). reflexivity.
  - rewrite sj_sorted_mapv. exact Has.
  - refine (forallb_mapv _ _ _ _ _ _ _ Hasw). intros kv _ H. cbn [fst snd]. apply andb_true_iff in H. destruct H as [H1 H2].
    rewrite H1, (wf_action_t_norm _ H2). reflexivity.
Qed.
End NormWf.

Theorem wf_norm_text : forall s, wf_text s = true -> wf_text (norm_text s) = true.
Proof.
  intros s Hwf. pose proof (wf_text_sorted s Hwf) as Hs.
  unfold wf_text. apply andb_true_iff. split.
  - unfold norm_text. rewrite sj_sorted_mapv. apply sj_sorted_filter. exact Hs.
  - apply forallb_forall. intros kv Hkv. unfold norm_text, mapv in Hkv. apply in_map_iff in Hkv. destruct Hkv as (x & <- & Hx).
    apply filter_In in Hx. destruct Hx as [Hx _]. unfold wf_text in Hwf. apply andb_true_iff in Hwf. destruct Hwf as [_ Hall].
    rewrite forallb_forall in Hall. specialize (Hall x Hx). apply andb_true_iff in Hall. destruct Hall as [H1 H2]. cbn [fst snd].
    rewrite (wf_ns_t_norm _ (shadowed_builtin s) _ H1). exact H2.
Qed.

Theorem norm_text_idempotent : forall s, wf_text s = true -> norm_text (norm_text s) = norm_text s /\ wf_text (norm_text s) = true.
Proof. intros s Hwf. split; [apply norm_text_idem|apply wf_norm_text; exact Hwf]. Qed.

(* a normalised type is printed verbatim, whatever the set of shadowed names of the second rendering is *)
Section SecondRendering.
Variables sh sh' : str -> bool.
Hypothesis Hsh : forall n, sh n = true -> is_builtin_name n = true.

Lemma pf_norm : forall ind fs,
  Forall (fun kv : str * xattr => wf_tty (fst (fst (snd kv))) = true ->
                                  forall i, print_type sh' (norm_ty sh (fst (fst (snd kv)))) i = print_type sh (fst (fst (snd kv))) i) fs ->
  forallb wf_tattr fs = true -> pf sh' ind (mapv (norm_attr sh) fs) = pf sh ind fs.
Proof.
  intros ind fs HF. induction HF as [|[key [[ty opt] an]] fs Hx HF IH]; intros Hwf; [reflexivity|].
  cbn [forallb] in Hwf. apply andb_true_iff in Hwf. destruct Hwf as [Hw Hwf].
  unfold wf_tattr in Hw. cbn [fst snd] in *. apply andb_true_iff in Hw. destruct Hw as [Hw _]. apply andb_true_iff in Hw. destruct Hw as [_ Hty].
  rewrite sj_mapv_cons. cbn [pf fst snd norm_attr]. rewrite (IH Hwf), (Hx Hty). destruct fs; reflexivity.
Qed.

Lemma print_type_norm : forall t, wf_tty t = true -> forall ind, print_type sh' (norm_ty sh t) ind = print_type sh t ind.
Proof.
  induction t as [| | |n|e IHe|fs IHfs|r|r] using xty_ind'; intros Hwf ind; try reflexivity.
  - cbn [norm_ty print_type wf_tty] in *. rewrite (IHe Hwf). reflexivity.
  - pose proof (wf_tty_norm sh Hsh _ Hwf) as Hwf'. rewrite norm_ty_rec in *.
    rewrite (print_type_rec_eq sh' _ ind Hwf'), (print_type_rec_eq sh _ ind Hwf).
    rewrite wf_tty_rec in Hwf. apply andb_true_iff in Hwf. destruct Hwf as [_ Hall].
    rewrite (pf_norm (S ind) fs IHfs Hall). destruct fs; reflexivity.
Qed.

Lemma print_entity_norm : forall ind k e, wf_entity_t e = true -> print_entity sh' ind (k, norm_entity_t sh e) = print_entity sh ind (k, e).
Proof.
  intros ind k e H. unfold wf_entity_t in H. apply andb_true_iff in H. destruct H as [H Ht]. apply andb_true_iff in H. destruct H as [_ Hs].
  unfold print_entity. cbv zeta. cbn [fst snd norm_entity_t xe_annots xe_parents xe_shape xe_tags].
  destruct (xe_shape e) as [fs|]; destruct (xe_tags e) as [t|]; cbn [option_map opt_wf_tty] in *;
    unfold norm_rec; rewrite <- ?norm_ty_rec, ?(print_type_norm _ Hs), ?(print_type_norm _ Ht); reflexivity.
Qed.
Lemma print_common_norm : forall ind k c, wf_common_t c = true -> print_common sh' ind (k, norm_common_t sh c) = print_common sh ind (k, c).
Proof.
  intros ind k c H. unfold wf_common_t in H. apply andb_true_iff in H. destruct H as [_ Ht].
  unfold print_common. cbn [fst snd norm_common_t xc_annots xc_type]. rewrite (print_type_norm _ Ht). reflexivity.
Qed.
Lemma print_action_norm : forall ind k a, wf_action_t a = true -> print_action sh' ind (k, norm_action_t sh a) = print_action sh ind (k, a).
Proof.
  intros ind k a H. unfold wf_action_t in H. apply andb_true_iff in H. destruct H as [_ Hap].
  unfold print_action. cbv zeta. cbn [fst snd norm_action_t xac_annots xac_parents xac_applies].
  destruct (xac_applies a) as [ap|]; [|reflexivity]. cbn [option_map]. f_equal. f_equal. f_equal.
  unfold wf_applies_t in Hap. apply andb_true_iff in Hap. destruct Hap as [_ Hc].
  unfold print_applies. cbn [norm_applies_t xa_principals xa_resources xa_context].
  destruct (xa_context ap) as [t|]; [|reflexivity]. cbn [option_map opt_wf_tty] in *. rewrite (print_type_norm _ Hc). reflexivity.
Qed.

Lemma map_mapv_ext : forall (A : Type) (g : A -> A) (h h' : str * A -> str) l,
  (forall kv, In kv l -> h' (fst kv, g (snd kv)) = h kv) -> map h' (mapv g l) = map h l.
Proof. intros A g h h' l H. unfold mapv. rewrite map_map. apply map_ext_in. intros kv Hkv. apply H. exact Hkv. Qed.

Lemma decl_blocks_norm : forall ind n, wf_ns_t n = true -> decl_blocks sh' ind (norm_ns_t sh n) = decl_blocks sh ind n.
Proof.
  intros ind n Hwf. pose proof (wf_ns_t_norm sh Hsh _ Hwf) as Hwf'.
  apply wf_ns_t_iff in Hwf. destruct Hwf as [Han Hes Hesw Hens Hensw Hdj Hcs Hcsw Has Hasw].
  apply wf_ns_t_iff in Hwf'. destruct Hwf' as [Han' Hes' _ Hens' _ _ Hcs' _ Has' _].
  unfold decl_blocks. rewrite !rec_of_list_sorted_id by assumption. cbn [norm_ns_t xs_entities xs_enums xs_commons xs_actions].
  rewrite forallb_forall in Hesw, Hcsw, Hasw. f_equal; [|f_equal; [|f_equal]].
  - apply map_mapv_ext. intros [k c] Hkv. specialize (Hcsw _ Hkv). cbn [fst snd] in *. apply andb_true_iff in Hcsw. destruct Hcsw as [_ Hc].
    apply print_common_norm. exact Hc.
  - apply map_mapv_ext. intros [k e] Hkv. specialize (Hesw _ Hkv). cbn [fst snd] in *. apply andb_true_iff in Hesw. destruct Hesw as [_ He].
    apply print_entity_norm. exact He.
  - apply map_mapv_ext. intros [k a] Hkv. specialize (Hasw _ Hkv). cbn [fst snd] in *. apply andb_true_iff in Hasw. destruct Hasw as [_ Ha].
    apply print_action_norm. exact Ha.
Qed.

Lemma print_namespace_norm : forall k n, wf_ns_t n = true -> print_namespace sh' (k, norm_ns_t sh n) = print_namespace sh (k, n).
Proof. intros k n Hwf. unfold print_namespace. cbn [fst snd]. rewrite (decl_blocks_norm 1 n Hwf). reflexivity. Qed.

Lemma map_print_namespace_norm : forall (l : x_schema), (forall kv, In kv l -> wf_ns_t (snd kv) = true) ->
  map (print_namespace sh') (mapv (norm_ns_t sh) l) = map (print_namespace sh) l.
Proof.
  intros l H. apply map_mapv_ext. intros [k n] Hkv. cbn [fst snd]. apply print_namespace_norm. apply (H _ Hkv).
Qed.
End SecondRendering.

Lemma decl_blocks_empty : forall sh ind n, has_decls n = false -> decl_blocks sh ind n = [].
Proof.
  intros sh ind n H. unfold has_decls in H. apply negb_false_iff in H. repeat (apply andb_true_iff in H; destruct H as [H ?]).
  unfold decl_blocks. destruct (xs_entities n); [|discriminate]. destruct (xs_enums n); [|discriminate].
  destruct (xs_actions n); [|discriminate]. destruct (xs_commons n); [|discriminate]. reflexivity.
Qed.

Corollary second_text_rendering : forall s, wf_text s = true -> print_schema (norm_text s) = print_schema s.
Proof.
  intros s Hwf. pose proof (wf_text_sorted s Hwf) as Hs.
  pose proof (wf_norm_text s Hwf) as Hwf'.
  pose proof (wf_text_sorted _ Hwf') as Hs'.
  unfold print_schema. cbv zeta. rewrite (rec_of_list_sorted_id _ Hs), (rec_of_list_sorted_id _ Hs').
  change (fun kv : str * x_ns => negb (is_nil (fst kv))) with named_kv.
  generalize (shadowed_builtins (norm_text s)). intros sh'.
  assert (Hin : forall kv, In kv s -> wf_ns_t (snd kv) = true) by (intros kv Hkv; apply (wf_text_in s kv Hwf Hkv)).
  clear Hwf' Hs'. unfold norm_text.
  pose proof (shadowed_builtin s) as Hsh. set (sh := shadowed_builtins s) in *.
  destruct (sorted_schema_shape s Hs) as [Hnm|(kv & l & -> & Hk & Hnm)]; destruct (named_facts _ Hnm) as (R1 & R2 & R3);
    destruct (named_facts _ (named_mapv (norm_ns_t sh) _ Hnm)) as (R1' & R2' & _).
  - rewrite R3, R1, R2, R1', R2', (map_print_namespace_norm sh sh' Hsh _ Hin). reflexivity.
  - destruct (bare_facts kv l Hk Hnm) as (B1 & B2 & B3). rewrite B1, B2, B3.
    assert (Hl : map (print_namespace sh') (mapv (norm_ns_t sh) l) = map (print_namespace sh) l).
    { apply (map_print_namespace_norm sh sh' Hsh). intros x Hx. apply Hin. right. exact Hx. }
    destruct (has_decls (snd kv)) eqn:Hd.
    + rewrite sj_mapv_cons.
      destruct (bare_facts (fst kv, norm_ns_t sh (snd kv)) _ Hk (named_mapv (norm_ns_t sh) _ Hnm)) as (B1' & B2' & _).
      rewrite B1', B2', Hl. cbn [snd]. rewrite (decl_blocks_norm sh sh' Hsh 0 _ (Hin kv (or_introl eq_refl))). reflexivity.
    + rewrite R1', R2', Hl, (decl_blocks_empty sh 0 _ Hd). reflexivity.
Qed.

(* Why each clause of wf_text is there: concrete schemas (vm_compute) *)
Definition t_ent0 : x_entity := {| xe_annots := []; xe_parents := []; xe_shape := None; xe_tags := None |}.
Definition t_ns0 : x_ns := {| xs_annots := []; xs_entities := [(s_of "A", t_ent0)]; xs_enums := []; xs_commons := []; xs_actions := [] |}.
Definition with_entity (name : str) (e : x_entity) (n : x_ns) : x_ns := set_entities n (rec_insert name e (xs_entities n)).
Definition act (ap : option x_applies) : x_action := {| xac_annots := []; xac_parents := []; xac_applies := ap |}.

(* finding F45: an appliesTo without principal (or resource) types prints as a text that the grammar rejects *)
Definition f45_schema : x_schema :=
  [([], set_actions t_ns0 [(s_of "view", act (Some {| xa_principals := []; xa_resources := [s_of "A"]; xa_context := None |}))])].
Example f45_rejected : parse_schema (print_schema f45_schema) = SErr /\ wf_text f45_schema = false.
Proof. split; vm_compute; reflexivity. Qed.

(* a type named `Set` cannot be referenced in a type position (parseType takes it for the set constructor) ... *)
Definition set_attr_schema : x_schema :=
  [([], with_entity (s_of "B") {| xe_annots := []; xe_parents := []; xe_shape := Some [(s_of "x", (XRef (s_of "Set"), false, []))]; xe_tags := None |}
                    (with_entity (s_of "Set") t_ent0 t_ns0))].
Example set_type_rejected : parse_schema (print_schema set_attr_schema) = SErr /\ wf_text set_attr_schema = false.
Proof. split; vm_compute; reflexivity. Qed.
(* ... but it can be declared and referenced as an entity type (memberOfTypes, principal / resource types): ent_path is weaker than type_path *)
Definition set_parent_schema : x_schema :=
  [([], with_entity (s_of "B") {| xe_annots := []; xe_parents := [s_of "Set"]; xe_shape := None; xe_tags := None |} (with_entity (s_of "Set") t_ent0 t_ns0))].
Example set_parent_ok : wf_text set_parent_schema = true /\ parse_schema (print_schema set_parent_schema) = SOk set_parent_schema.
Proof. split; vm_compute; reflexivity. Qed.

(* quoted strings must be valid UTF-8: quoteCedar writes an invalid byte as \u{fffd} *)
Definition bad_utf8_schema : x_schema :=
  [([], {| xs_annots := []; xs_entities := []; xs_enums := [(s_of "E", {| xn_annots := []; xn_values := [[255]] |})]; xs_commons := []; xs_actions := [] |})].
Example bad_utf8_changes : parse_schema (print_schema bad_utf8_schema)
  = SOk [([], {| xs_annots := []; xs_entities := []; xs_enums := [(s_of "E", {| xn_annots := []; xn_values := [[239; 191; 189]] |})];
                 xs_commons := []; xs_actions := [] |})]
  /\ wf_text bad_utf8_schema = false.
Proof. split; vm_compute; reflexivity. Qed.

(* a common type may not be named like a reserved type name (parseTypeDecl rejects `type Bool = ...`) *)
Definition reserved_common_schema : x_schema :=
  [([], set_commons t_ns0 [(s_of "Bool", {| xc_annots := []; xc_type := XLong |})])].
Example reserved_common_rejected : parse_schema (print_schema reserved_common_schema) = SErr /\ wf_text reserved_common_schema = false.
Proof. split; vm_compute; reflexivity. Qed.

(* declared entity names are written verbatim: they must be identifiers *)
Definition bad_name_schema : x_schema := [([], with_entity (s_of "a b") t_ent0 t_ns0)].
Example bad_name_rejected : parse_schema (print_schema bad_name_schema) = SErr /\ wf_text bad_name_schema = false.
Proof. split; vm_compute; reflexivity. Qed.

(* an entity type and an enumerated type of the same name: the second declaration is rejected *)
Definition clash_schema : x_schema := [([], set_enums t_ns0 [(s_of "A", {| xn_annots := []; xn_values := [s_of "v"] |})])].
Example clash_rejected : parse_schema (print_schema clash_schema) = SErr /\ wf_text clash_schema = false.
Proof. split; vm_compute; reflexivity. Qed.

(* the annotations of the bare declarations are not part of the AST: the printer drops them *)
Definition bare_annot_schema : x_schema := [([], set_annots t_ns0 [(s_of "doc", s_of "x")])].
Example bare_annot_dropped : parse_schema (print_schema bare_annot_schema) = SOk [([], t_ns0)] /\ wf_text bare_annot_schema = false.
Proof. split; vm_compute; reflexivity. Qed.

(* no component of a namespace name may be __cedar (while a type reference may start with it) *)
Definition cedar_ns_schema : x_schema := [(s_of "__cedar", t_ns0)].
Example cedar_ns_rejected : parse_schema (print_schema cedar_ns_schema) = SErr /\ wf_text cedar_ns_schema = false.
Proof. split; vm_compute; reflexivity. Qed.
Definition cedar_ref_schema : x_schema :=
  [([], with_entity (s_of "B") {| xe_annots := []; xe_parents := []; xe_shape := Some [(s_of "x", (XRef (s_of "__cedar::String"), false, []))]; xe_tags := None |} t_ns0)].
Example cedar_ref_ok : wf_text cedar_ref_schema = true /\ parse_schema (print_schema cedar_ref_schema) = SOk cedar_ref_schema.
Proof. split; vm_compute; reflexivity. Qed.

(* an annotation key may be a reserved word; a name that is one is written quoted *)
Definition reserved_words_schema : x_schema :=
  [([], set_actions (set_annots t_ns0 []) [(s_of "in", {| xac_annots := [(s_of "if", []); (s_of "is", s_of "x")]; xac_parents := []; xac_applies := None |})])].
Example reserved_words_ok : wf_text reserved_words_schema = true /\ parse_schema (print_schema reserved_words_schema) = SOk reserved_words_schema.
Proof. split; vm_compute; reflexivity. Qed.

(* the builtin names come back as type references *)
Definition builtin_schema : x_schema :=
  [([], set_commons t_ns0 [(s_of "T", {| xc_annots := []; xc_type := XSet (XRec [(s_of "a", (XLong, true, [])); (s_of "b", (XExt (s_of "ipaddr"), false, []))]) |})])].
Example builtin_normalised : parse_schema (print_schema builtin_schema)
  = SOk [([], set_commons t_ns0 [(s_of "T", {| xc_annots := []; xc_type := XSet (XRec [(s_of "a", (XRef (s_of "Long"), true, [])); (s_of "b", (XRef (s_of "ipaddr"), false, []))]) |})])].
Proof. vm_compute. reflexivity. Qed.

(* wf_text implies the well-formedness of the JSON codec (SchemaJsonProofs.wf_schema) *)
Lemma wf_tty_wf_ty : forall t, wf_tty t = true -> wf_ty t = true.
Proof.
  induction t as [| | |n|e IHe|fs IHfs|r|r] using xty_ind'; intros H; try reflexivity.
  - exact (IHe H).
  - rewrite wf_tty_rec in H. rewrite wf_ty_rec. apply andb_true_iff in H. destruct H as [Hs Hall]. rewrite Hs. cbn [andb].
    rewrite forallb_forall in *. intros kv Hkv. specialize (Hall kv Hkv). rewrite Forall_forall in IHfs. specialize (IHfs kv Hkv).
    unfold wf_tattr in Hall. unfold wf_xattr. apply andb_true_iff in Hall. destruct Hall as [Hall Han]. apply andb_true_iff in Hall.
    destruct Hall as [_ Ht]. destruct (annots_ok_inv _ Han) as [Hans _]. rewrite (IHfs Ht), Hans. reflexivity.
Qed.
Lemma opt_wf_tty_wf_ty : forall o, opt_wf_tty o = true -> opt_wf_ty o = true.
Proof. intros [t|] H; [exact (wf_tty_wf_ty t H)|reflexivity]. Qed.

Lemma forallb_impl : forall (A : Type) (p q : A -> bool) l, (forall x, p x = true -> q x = true) -> forallb p l = true -> forallb q l = true.
Proof. intros A p q l H Hp. rewrite forallb_forall in *. intros x Hx. apply H. apply Hp. exact Hx. Qed.

Lemma wf_ns_t_wf_ns : forall n, wf_ns_t n = true -> wf_ns n = true.
Proof.
  intros n Hwf. apply wf_ns_t_iff in Hwf. destruct Hwf as [Han Hes Hesw Hens Hensw Hdj Hcs Hcsw Has Hasw].
  apply wf_ns_iff. constructor; try assumption.
  - apply (annots_ok_inv _ Han).
  - intros kv Hkv. rewrite forallb_forall in Hesw. specialize (Hesw kv Hkv). apply andb_true_iff in Hesw. destruct Hesw as [_ He].
    unfold wf_entity_t in He. unfold wf_entity. apply andb_true_iff in He. destruct He as [He Ht]. apply andb_true_iff in He. destruct He as [He Hs].
    apply andb_true_iff in He. destruct He as [Ha _]. destruct (annots_ok_inv _ Ha) as [Ha' _].
    rewrite Ha', (opt_wf_tty_wf_ty _ Hs), (opt_wf_tty_wf_ty _ Ht). reflexivity.
  - intros kv Hkv. rewrite forallb_forall in Hensw. specialize (Hensw kv Hkv). apply andb_true_iff in Hensw. destruct Hensw as [_ He].
    unfold wf_enum_t in He. unfold wf_enum. apply andb_true_iff in He. destruct He as [Ha _]. apply (annots_ok_inv _ Ha).
  - intros kv Hkv. rewrite forallb_forall in Hcsw. specialize (Hcsw kv Hkv). apply andb_true_iff in Hcsw. destruct Hcsw as [_ Hc].
    unfold wf_common_t in Hc. unfold wf_common. apply andb_true_iff in Hc. destruct Hc as [Ha Ht]. destruct (annots_ok_inv _ Ha) as [Ha' _].
    rewrite Ha', (wf_tty_wf_ty _ Ht). reflexivity.
  - intros kv Hkv. rewrite forallb_forall in Hasw. specialize (Hasw kv Hkv). apply andb_true_iff in Hasw. destruct Hasw as [_ Hc].
    unfold wf_action_t in Hc. unfold wf_action. apply andb_true_iff in Hc. destruct Hc as [Hc Hap]. apply andb_true_iff in Hc. destruct Hc as [Ha _].
    destruct (annots_ok_inv _ Ha) as [Ha' _]. rewrite Ha'. cbn [andb]. destruct (xac_applies (snd kv)) as [ap|]; [|reflexivity].
    unfold wf_applies_t in Hap. unfold wf_applies. apply andb_true_iff in Hap. destruct Hap as [_ Hc]. exact (opt_wf_tty_wf_ty _ Hc).
Qed.

Theorem wf_text_wf_schema : forall s, wf_text s = true -> wf_schema s = true.
Proof.
  intros s H. unfold wf_text in H. unfold wf_schema. apply andb_true_iff in H. destruct H as [Hs Hall]. rewrite Hs. cbn [andb].
  refine (forallb_impl _ _ _ _ _ Hall). intros kv Hkv. apply andb_true_iff in Hkv. destruct Hkv as [H1 H2].
  rewrite (wf_ns_t_wf_ns _ H1). cbn [andb]. destruct (fst kv); [exact H2|reflexivity].
Qed.

(* resolution (Impl/SchemaResolve.v) of the schema that comes back *)
(* imported again here: from this line on [sep] and [mem] are the resolver's; above it they are those of the proof files imported
   at the top, and a lemma about the resolver placed above this line will not see the right ones *)
Import Cedar.Impl.SchemaResolve.
Section ResolveSh.
(* the set of shadowed built-in names the text was printed with (any set, in this section) *)
Variable sh : str -> bool.

(* norm_text on what the resolver reads: every type name becomes a TypeRef, a shadowed built-in name with the __cedar:: prefix;
   the empty bare namespace goes *)
Fixpoint nrm (t : sty) : sty :=
  match t with
  | TyString => TyRef (write_builtin sh (s_of "String"))
  | TyLong => TyRef (write_builtin sh (s_of "Long"))
  | TyBool => TyRef (write_builtin sh (s_of "Bool"))
  | TyExt n => TyRef (write_builtin sh n)
  | TyEnt r => TyRef r
  | TyRef r => TyRef r
  | TySet e => TySet (nrm e)
  | TyRec fs => TyRec ((fix go (l : list (str * (sty * bool))) : list (str * (sty * bool)) :=
                          match l with [] => [] | x :: r => (fst x, (nrm (fst (snd x)), snd (snd x))) :: go r end) fs)
  end.
Definition nrm_fields (fs : list (str * (sty * bool))) : list (str * (sty * bool)) :=
  map (fun x => (fst x, (nrm (fst (snd x)), snd (snd x)))) fs.
Lemma nrm_rec : forall fs, nrm (TyRec fs) = TyRec (nrm_fields fs).
Proof. reflexivity. Qed.

Definition nrm_entity (e : s_entity) : s_entity :=
  {| se_name := se_name e; se_parents := se_parents e; se_shape := option_map nrm_fields (se_shape e); se_tags := option_map nrm (se_tags e) |}.
Definition nrm_applies (ap : s_applies) : s_applies :=
  {| sa_principals := sa_principals ap; sa_resources := sa_resources ap; sa_context := option_map nrm (sa_context ap) |}.
Definition nrm_action (a : s_action) : s_action :=
  {| sac_name := sac_name a; sac_parents := sac_parents a; sac_applies := option_map nrm_applies (sac_applies a) |}.
Definition nrm_common (c : str * sty) : str * sty := (fst c, nrm (snd c)).
Definition nrm_ns (ns : s_ns) : s_ns :=
  {| sn_name := sn_name ns; sn_entities := map nrm_entity (sn_entities ns); sn_enums := sn_enums ns;
     sn_commons := map nrm_common (sn_commons ns); sn_actions := map nrm_action (sn_actions ns) |}.
Definition nrm_s (S : s_schema) : s_schema := map nrm_ns (filter s_keep S).

Definition erase_fields (fs : xrec) : list (str * (sty * bool)) :=
  map (fun x : str * xattr => (fst x, (erase_ty (fst (fst (snd x))), snd (fst (snd x))))) fs.
Lemma erase_ty_rec : forall fs, erase_ty (XRec fs) = TyRec (erase_fields fs).
Proof.
  intros fs. cbn [erase_ty]. f_equal. induction fs as [|[key [[ty opt] an]] fs IH]; [reflexivity|].
  cbn [erase_fields map fst snd]. rewrite IH. reflexivity.
Qed.
Lemma erase_rec_fields : forall fs, erase_rec fs = erase_fields fs.
Proof. intros fs. unfold erase_rec. rewrite erase_ty_rec. reflexivity. Qed.

Lemma erase_norm_ty : forall t, erase_ty (norm_ty sh t) = nrm (erase_ty t).
Proof.
  induction t as [| | |n|e IHe|fs IHfs|r|r] using xty_ind'; try reflexivity.
  - cbn [norm_ty erase_ty nrm]. rewrite IHe. reflexivity.
  - rewrite norm_ty_rec, !erase_ty_rec, nrm_rec. f_equal. unfold erase_fields, nrm_fields, mapv. rewrite !map_map.
    apply map_ext_in. intros kv Hkv. rewrite Forall_forall in IHfs. specialize (IHfs kv Hkv). cbn [fst snd norm_attr]. rewrite IHfs. reflexivity.
Qed.

Lemma erase_norm_text_sh : forall s, erase (mapv (norm_ns_t sh) (filter ns_keep s)) = nrm_s (erase s).
Proof.
  intros s. unfold erase, nrm_s. rewrite sj_filter_map.
  assert (Hf : filter (fun x => s_keep (erase_ns x)) s = filter ns_keep s).
  { apply filter_ext. intros [name n]. unfold s_keep, ns_keep, has_decls, erase_ns. cbn [fst snd sn_name sn_entities sn_enums sn_commons sn_actions].
    rewrite !is_nil_map. reflexivity. }
  rewrite Hf. unfold mapv. rewrite !map_map. apply map_ext. intros [name n].
  unfold erase_ns, nrm_ns, norm_ns_t. cbn [fst snd sn_name sn_entities sn_enums sn_commons sn_actions xs_annots xs_entities xs_enums xs_commons xs_actions].
  f_equal; unfold mapv; rewrite !map_map; apply map_ext; intros [key v]; cbn [fst snd].
  - unfold nrm_entity, norm_entity_t. cbn [se_name se_parents se_shape se_tags xe_annots xe_parents xe_shape xe_tags]. f_equal.
    + destruct (xe_shape v) as [fs|]; [|reflexivity]. cbn [option_map]. f_equal. rewrite !erase_rec_fields.
      pose proof (erase_norm_ty (XRec fs)) as H. rewrite norm_ty_rec, !erase_ty_rec, nrm_rec in H. injection H as H1. exact H1.
    + destruct (xe_tags v) as [t|]; [|reflexivity]. cbn [option_map]. rewrite erase_norm_ty. reflexivity.
  - unfold nrm_common, norm_common_t. cbn [fst snd xc_type]. rewrite erase_norm_ty. reflexivity.
  - unfold nrm_action, norm_action_t. cbn [sac_name sac_parents sac_applies xac_annots xac_parents xac_applies]. f_equal.
    destruct (xac_applies v) as [ap|]; [|reflexivity]. cbn [option_map]. f_equal.
    unfold nrm_applies, norm_applies_t. cbn [sa_principals sa_resources sa_context xa_principals xa_resources xa_context]. f_equal.
    destruct (xa_context ap) as [t|]; [|reflexivity]. cbn [option_map]. rewrite erase_norm_ty. reflexivity.
Qed.

(* registration and the shadowing check only look at names *)
Definition nrm_dc (c : str * (str * sty)) : str * (str * sty) := (fst c, (fst (snd c), nrm (snd (snd c)))).
Definition nrm_d (d : decls) : decls := {| d_ents := d_ents d; d_enums := d_enums d; d_commons := map nrm_dc (d_commons d) |}.

(* in both, the side conditions say that nrm_ns keeps the names that are read, and that nothing is read from s_empty_ns *)
Lemma register_nrm : forall S, register (nrm_s S) = option_map nrm_d (register S).
Proof.
  intros S. unfold register, nrm_s.
  rewrite (existsb_nf nrm_ns _ S); [|intros ns; cbn [nrm_ns sn_entities sn_enums]; rewrite existsb_map; reflexivity|reflexivity].
  destruct (existsb _ S); [reflexivity|]. cbn [option_map]. unfold nrm_d. cbn [d_ents d_enums d_commons]. f_equal. f_equal.
  - apply flat_map_nf_id; [|reflexivity]. intros ns. cbn [nrm_ns sn_entities sn_name]. rewrite map_map. reflexivity.
  - apply flat_map_nf_id; reflexivity.
  - apply flat_map_nf; [|reflexivity]. intros ns. cbn [nrm_ns sn_commons sn_name]. rewrite !map_map. reflexivity.
Qed.

Lemma shadowing_nrm : forall S, shadowing_ok (nrm_s S) = shadowing_ok S.
Proof.
  intros S. unfold shadowing_ok, nrm_s. rewrite !flat_map_filter, !existsb_filter.
  rewrite !(flat_map_nf_id nrm_ns _ S), (existsb_nf nrm_ns _ S); try reflexivity;
    intros ns; cbn [nrm_ns sn_entities sn_name sn_enums sn_commons sn_actions]; rewrite ?map_map, ?(existsb_map _ nrm_action); reflexivity.
Qed.

(* the declarations: same names, normalised bodies *)
Lemma assoc_map_snd : forall (A B : Type) (h : A -> B) x (l : list (str * A)),
  assoc x (map (fun c => (fst c, h (snd c))) l) = option_map h (assoc x l).
Proof.
  intros A B h x l. induction l as [|[k v] l IH]; [reflexivity|]. cbn [map assoc fst snd]. destruct (str_eqb k x); [reflexivity|exact IH].
Qed.

Definition nrm_cb (c : str * sty) : str * sty := (fst c, nrm (snd c)).
Lemma common_nrm : forall d p, common (nrm_d d) p = option_map nrm_cb (common d p).
Proof.
  intros d p. unfold common, nrm_d. cbn [d_commons]. rewrite <- map_rev.
  exact (assoc_map_snd _ _ nrm_cb p (rev (d_commons d))).
Qed.

Definition has_common (d : decls) (p : str) : bool := match common d p with Some _ => true | None => false end.
Lemma has_common_nrm : forall d p, has_common (nrm_d d) p = has_common d p.
Proof. intros d p. unfold has_common. rewrite common_nrm. destruct (common d p); reflexivity. Qed.

Lemma no_common : forall d p, negb (has_common d p) = true -> common d p = None.
Proof. intros d p H. apply negb_true_iff in H. unfold has_common in H. destruct (common d p); [discriminate|reflexivity]. Qed.

Lemma type_ref_path_nrm : forall d ns r, type_ref_path (nrm_d d) ns r = type_ref_path d ns r.
Proof.
  intros d ns r. unfold type_ref_path. destruct (has_sep r); [reflexivity|]. destruct ns as [|c ns]; [reflexivity|].
  rewrite common_nrm. destruct (common d ((c :: ns) ++ sep ++ r)); reflexivity.
Qed.

(* the hypothesis: in scope, the names that become references still mean what they meant *)
(* r, read as a type reference in namespace ns, is neither a common type nor an entity type: it falls through to the builtins *)
Definition free (d : decls) (ns r : str) : bool :=
  (is_nil_str ns || (negb (has_common d (ns ++ sep ++ r)) && negb (is_entity d (ns ++ sep ++ r))))
  && negb (has_common d r) && negb (is_entity d r).
Definition is_ext (n : str) : bool := existsb (fun e => str_eqb (s_of e) n) ["ipaddr"; "decimal"; "datetime"; "duration"]%string.
(* an EntityTypeRef r means the same as the TypeRef r: no common type captures it, it is not a __cedar:: path nor a builtin name *)
Definition ent_ok (d : decls) (ns r : str) : bool :=
  if has_sep r then match strip_prefix cedar_prefix r with None => true | Some _ => false end && negb (has_common d r)
  else (is_nil_str ns || negb (has_common d (ns ++ sep ++ r))) && negb (has_common d r)
       && match builtin r with None => true | Some _ => false end.
(* a built-in name: written with the prefix (then no common type may be called __cedar::name), or free in its scope *)
Definition bi_ok (d : decls) (ns r : str) : bool :=
  if sh r then negb (has_common d (cedar_prefix ++ r)) else free d ns r.
Fixpoint ok_ty (d : decls) (ns : str) (t : sty) : bool :=
  match t with
  | TyString => bi_ok d ns (s_of "String")
  | TyLong => bi_ok d ns (s_of "Long")
  | TyBool => bi_ok d ns (s_of "Bool")
  | TyExt n => is_ext n && bi_ok d ns n
  | TySet e => ok_ty d ns e
  | TyRec fs => (fix go (l : list (str * (sty * bool))) : bool := match l with [] => true | x :: r => ok_ty d ns (fst (snd x)) && go r end) fs
  | TyEnt r => ent_ok d ns r
  | TyRef _ => true
  end.
Lemma ok_ty_rec : forall d ns fs, ok_ty d ns (TyRec fs) = forallb (fun x => ok_ty d ns (fst (snd x))) fs.
Proof. reflexivity. Qed.

Definition commons_ok (d : decls) : Prop := forall p cns ct, common d p = Some (cns, ct) -> ok_ty d cns ct = true.

Lemma ref_builtin : forall f d ns r b, free d ns r = true -> has_sep r = false -> builtin r = Some b ->
  resolve_type (S f) (nrm_d d) ns (TyRef r) = ROk b.
Proof.
  intros f d ns r b Hfree Hsep Hb. unfold free in Hfree. apply andb_true_iff in Hfree. destruct Hfree as [Hfree He].
  apply andb_true_iff in Hfree. destruct Hfree as [Hq Hc]. apply negb_true_iff in He.
  cbn [resolve_type]. rewrite Hsep, !common_nrm.
  rewrite (no_common _ _ Hc). cbn [option_map].
  change (is_entity (nrm_d d)) with (is_entity d). rewrite He, Hb.
  destruct (is_nil_str ns) eqn:En; cbn [negb andb orb] in *; [reflexivity|].
  apply andb_true_iff in Hq. destruct Hq as [Hq1 Hq2]. apply negb_true_iff in Hq2.
  rewrite (no_common _ _ Hq1). cbn [option_map]. rewrite Hq2. reflexivity.
Qed.

Lemma is_ext_inv : forall n, is_ext n = true -> has_sep n = false /\ builtin n = Some (RExt n) /\ is_builtin_name n = true.
Proof.
  intros n H. unfold is_ext in H. cbn [existsb] in H.
  repeat (apply orb_true_iff in H; destruct H as [H|H]); try discriminate; apply str_eqb_eq in H; subst n; repeat split; reflexivity.
Qed.

Lemma strip_prefix_app : forall p r, strip_prefix p (p ++ r) = Some r.
Proof. induction p as [|a p IH]; intros r; [destruct r; reflexivity|]. cbn [app strip_prefix]. rewrite Z.eqb_refl. apply IH. Qed.

Lemma has_sep_cedar : forall r, has_sep (cedar_prefix ++ r) = true.
Proof. intros r. reflexivity. Qed.

Lemma ref_builtin_wb : forall f d ns r b, bi_ok d ns r = true -> has_sep r = false -> builtin r = Some b ->
  resolve_type (S f) (nrm_d d) ns (TyRef (write_builtin sh r)) = ROk b.
Proof.
  intros f d ns r b Hok Hsep Hb. unfold bi_ok in Hok. unfold write_builtin. destruct (sh r).
  - change (s_of "__cedar::") with cedar_prefix. cbn [resolve_type]. rewrite has_sep_cedar, strip_prefix_app, Hb. reflexivity.
  - cbn [app]. apply ref_builtin; assumption.
Qed.

Lemma fields_nrm : forall (rec rec' : sty -> rres rty) fs,
  (forall x, In x fs -> rec' (nrm (fst (snd x))) = rec (fst (snd x))) ->
  resolve_fields rec' (nrm_fields fs) = resolve_fields rec fs.
Proof.
  intros rec rec' fs H. induction fs as [|[k [x opt]] fs IH]; [reflexivity|].
  cbn [nrm_fields map resolve_fields fst snd]. fold (nrm_fields fs).
  pose proof (H (k, (x, opt)) (or_introl eq_refl)) as Hx. cbn [fst snd] in Hx. rewrite Hx.
  rewrite IH; [reflexivity|]. intros y Hy. apply H. right. exact Hy.
Qed.

Lemma rt_nrm : forall fuel d ns t, commons_ok d -> ok_ty d ns t = true ->
  resolve_type fuel (nrm_d d) ns (nrm t) = resolve_type fuel d ns t.
Proof.
  induction fuel as [|f IH]; intros d ns t Hc Hok; [reflexivity|].
  destruct t as [| | |n|e|fs|r|r].
  - apply ref_builtin_wb; [exact Hok|reflexivity|reflexivity].
  - apply ref_builtin_wb; [exact Hok|reflexivity|reflexivity].
  - apply ref_builtin_wb; [exact Hok|reflexivity|reflexivity].
  - cbn [ok_ty] in Hok. apply andb_true_iff in Hok. destruct Hok as [He Hfr]. destruct (is_ext_inv n He) as (Hs & Hb & _).
    cbn [nrm]. rewrite (ref_builtin_wb f d ns n (RExt n) Hfr Hs Hb). reflexivity.
  - cbn [nrm resolve_type ok_ty] in *. rewrite (IH d ns e Hc Hok). reflexivity.
  - rewrite nrm_rec, !resolve_type_rec. rewrite ok_ty_rec in Hok. rewrite forallb_forall in Hok.
    rewrite (fields_nrm (resolve_type f d ns) (resolve_type f (nrm_d d) ns) fs); [reflexivity|].
    intros x Hx. apply IH; [exact Hc|apply Hok; exact Hx].
  - cbn [nrm ok_ty] in *. unfold ent_ok in Hok. cbn [resolve_type]. unfold resolve_entity_ref.
    destruct (has_sep r) eqn:Hs.
    + apply andb_true_iff in Hok. destruct Hok as [Hp Hcm].
      destruct (strip_prefix cedar_prefix r); [discriminate|]. rewrite common_nrm, (no_common _ _ Hcm). cbn [option_map].
      change (is_entity (nrm_d d)) with (is_entity d). destruct (is_entity d r); reflexivity.
    + apply andb_true_iff in Hok. destruct Hok as [Hok Hb]. apply andb_true_iff in Hok. destruct Hok as [Hq Hcm].
      rewrite !common_nrm, (no_common _ _ Hcm). cbn [option_map].
      change (is_entity (nrm_d d)) with (is_entity d). destruct (builtin r); [discriminate|].
      destruct (is_nil_str ns) eqn:En; cbn [negb andb orb] in *.
      * destruct ns; [|discriminate]. cbn [qualify]. destruct (is_entity d r); reflexivity.
      * rewrite (no_common _ _ Hq). cbn [option_map].
        destruct ns as [|c ns]; [discriminate|]. cbn [qualify]. destruct (is_entity d ((c :: ns) ++ sep ++ r)); [reflexivity|].
        destruct (is_entity d r); reflexivity.
  - cbn [nrm resolve_type]. change (is_entity (nrm_d d)) with (is_entity d). rewrite !common_nrm.
    (* a reference that names a common type resolves to the body of that type, which is ok_ty by [Hc] *)
    assert (Hcm : forall p (k k' : rres rty), k = k' ->
              match option_map nrm_cb (common d p) with Some (cns, ct) => resolve_type f (nrm_d d) cns ct | None => k end
              = match common d p with Some (cns, ct) => resolve_type f d cns ct | None => k' end).
    { intros p k k' <-. destruct (common d p) as [[cns ct]|] eqn:E; cbn [option_map nrm_cb fst snd]; [|reflexivity].
      apply IH; [exact Hc|exact (Hc _ _ _ E)]. }
    destruct (has_sep r).
    + destruct (strip_prefix cedar_prefix r); [reflexivity|]. apply Hcm. reflexivity.
    + destruct (is_nil_str ns); cbn [negb andb]; apply Hcm; [reflexivity|].
      destruct (is_entity d (ns ++ sep ++ r)); [reflexivity|]. apply Hcm. reflexivity.
Qed.

Lemma sty_size_nrm : forall t, sty_size (nrm t) = sty_size t.
Proof.
  induction t as [| | |n|e IHe|fs IHfs|r|r] using sty_ind'; try reflexivity.
  - cbn [nrm sty_size]. rewrite IHe. reflexivity.
  - rewrite nrm_rec, !sty_size_rec. f_equal. induction IHfs as [|[k [x opt]] fs Hx _ IH]; [reflexivity|].
    cbn [nrm_fields map fields_size fst snd] in *. fold (nrm_fields fs). rewrite Hx, IH. reflexivity.
Qed.

Lemma resolve_fuel_nrm : forall d t, resolve_fuel (nrm_d d) (nrm t) = resolve_fuel d t.
Proof.
  intros d t. unfold resolve_fuel, nrm_d. cbn [d_commons]. rewrite sty_size_nrm, map_length. f_equal. f_equal. f_equal.
  induction (d_commons d) as [|c l IH]; [reflexivity|]. cbn [map fold_right nrm_dc snd]. rewrite sty_size_nrm, IH. reflexivity.
Qed.

Definition nocommon (d : decls) (ns r : str) : bool :=
  (is_nil_str ns || negb (has_common d (ns ++ sep ++ r))) && negb (has_common d r).

Lemma nocommon_path : forall d ns r, nocommon d ns r = true -> has_common d (type_ref_path d ns r) = false.
Proof.
  intros d ns r H. unfold nocommon in H. apply andb_true_iff in H. destruct H as [Hq Hr]. apply negb_true_iff in Hr.
  unfold type_ref_path. destruct (has_sep r); [exact Hr|]. destruct ns as [|c ns]; [exact Hr|]. cbn [is_nil_str orb] in Hq.
  rewrite (no_common _ _ Hq). exact Hr.
Qed.
Lemma free_nocommon : forall d ns r, free d ns r = true -> nocommon d ns r = true.
Proof.
  intros d ns r H. unfold free in H. unfold nocommon. apply andb_true_iff in H. destruct H as [H _]. apply andb_true_iff in H. destruct H as [Hq Hr].
  rewrite Hr, andb_true_r. destruct (is_nil_str ns); [reflexivity|]. cbn [orb] in *. apply andb_true_iff in Hq. tauto.
Qed.
Lemma ent_ok_nocommon : forall d ns r, ent_ok d ns r = true -> has_common d (type_ref_path d ns r) = false.
Proof.
  intros d ns r H. unfold ent_ok in H. unfold type_ref_path. destruct (has_sep r) eqn:E.
  - apply andb_true_iff in H. destruct H as [_ H]. apply negb_true_iff in H. exact H.
  - apply andb_true_iff in H. destruct H as [H _]. fold (nocommon d ns r) in H. pose proof (nocommon_path d ns r H) as Hp.
    unfold type_ref_path in Hp. rewrite E in Hp. exact Hp.
Qed.

Lemma bi_ok_path : forall d ns r, bi_ok d ns r = true -> has_common d (type_ref_path d ns (write_builtin sh r)) = false.
Proof.
  intros d ns r H. unfold bi_ok in H. unfold write_builtin. destruct (sh r).
  - change (s_of "__cedar::") with cedar_prefix. unfold type_ref_path. rewrite has_sep_cedar. apply negb_true_iff in H. exact H.
  - cbn [app]. apply nocommon_path. apply free_nocommon. exact H.
Qed.

Lemma refs_nrm : forall d ns t, ok_ty d ns t = true ->
  filter (has_common d) (map (type_ref_path d ns) (collect_refs (nrm t))) = filter (has_common d) (map (type_ref_path d ns) (collect_refs t)).
Proof.
  intros d ns. induction t as [| | |n|e IHe|fs IHfs|r|r] using sty_ind'; intros Hok; cbn [nrm collect_refs map filter ok_ty] in *; try reflexivity.
  - rewrite (bi_ok_path _ _ _ Hok). reflexivity.
  - rewrite (bi_ok_path _ _ _ Hok). reflexivity.
  - rewrite (bi_ok_path _ _ _ Hok). reflexivity.
  - apply andb_true_iff in Hok. destruct Hok as [_ Hok]. rewrite (bi_ok_path _ _ _ Hok). reflexivity.
  - exact (IHe Hok).
  - change (filter (has_common d) (map (type_ref_path d ns) (collect_refs (nrm (TyRec fs))))
            = filter (has_common d) (map (type_ref_path d ns) (collect_refs (TyRec fs)))).
    rewrite nrm_rec, !collect_refs_rec. change (forallb (fun x => ok_ty d ns (fst (snd x))) fs = true) in Hok.
    induction IHfs as [|[k [x opt]] fs Hx _ IH]; [reflexivity|].
    cbn [forallb] in Hok. apply andb_true_iff in Hok. destruct Hok as [Hok1 Hok2].
    cbn [nrm_fields map fields_refs fst snd] in *. fold (nrm_fields fs). rewrite !map_app, !filter_app, (Hx Hok1), (IH Hok2). reflexivity.
  - rewrite (ent_ok_nocommon _ _ _ Hok). reflexivity.
Qed.

Lemma deps_nrm : forall d name, commons_ok d -> deps_of (nrm_d d) name = deps_of d name.
Proof.
  intros d name Hc. unfold deps_of. rewrite common_nrm. destruct (common d name) as [[ns body]|] eqn:E; cbn [option_map nrm_cb fst snd]; [|reflexivity].
  rewrite (filter_ext _ (has_common d)).
  2:{ intros p. rewrite common_nrm. unfold has_common. destruct (common d p); reflexivity. }
  rewrite (map_ext _ (type_ref_path d ns)) by (intros r; apply type_ref_path_nrm).
  rewrite (refs_nrm d ns body (Hc _ _ _ E)). apply filter_ext. intros p. reflexivity.
Qed.

Lemma common_names_nrm : forall d, common_names (nrm_d d) = common_names d.
Proof. intros d. unfold common_names, nrm_d. cbn [d_commons]. rewrite map_map. reflexivity. Qed.

Lemma kahn_nrm : forall fuel d deg queue visited, commons_ok d -> kahn fuel (nrm_d d) deg queue visited = kahn fuel d deg queue visited.
Proof.
  induction fuel as [|f IH]; intros d deg queue visited Hc; [reflexivity|]. cbn [kahn]. destruct queue as [|node q]; [reflexivity|].
  rewrite (deps_nrm d node Hc). destruct (dec_all (deps_of d node) deg q). apply IH. exact Hc.
Qed.

Lemma cycle_free_nrm : forall d, commons_ok d -> cycle_free (nrm_d d) = cycle_free d.
Proof.
  intros d Hc. unfold cycle_free, indeg0. cbv zeta. rewrite common_names_nrm.
  rewrite (flat_map_ext _ (deps_of d)) by (intros a; apply deps_nrm; exact Hc). rewrite kahn_nrm by exact Hc. reflexivity.
Qed.

Definition ok_entity (d : decls) (ns : str) (e : s_entity) : bool :=
  match se_shape e with Some fs => ok_ty d ns (TyRec fs) | None => true end && match se_tags e with Some t => ok_ty d ns t | None => true end.
Definition ok_action (d : decls) (ns : str) (a : s_action) : bool :=
  match sac_applies a with Some ap => match sa_context ap with Some t => ok_ty d ns t | None => true end | None => true end.
Definition ok_ns (d : decls) (ns : s_ns) : bool :=
  forallb (ok_entity d (sn_name ns)) (sn_entities ns) && forallb (fun c : str * sty => ok_ty d (sn_name ns) (snd c)) (sn_commons ns)
  && forallb (ok_action d (sn_name ns)) (sn_actions ns).
(* the side condition of resolve_nrm_s, on the resolver's view of the schema: in the scope where it occurs, no builtin name
   (String, Long, Bool, an extension type) is also the name of a declared common or entity type, the extension types are the four
   known ones, and an EntityTypeRef is not captured by a common type *)
Definition resolve_same_ok (S : s_schema) : bool := match register S with Some d => forallb (ok_ns d) S | None => true end.

Lemma commons_ok_of : forall S d, register S = Some d -> forallb (ok_ns d) S = true -> commons_ok d.
Proof.
  intros S d Hreg Hall p cns ct Hc. apply common_In in Hc.
  unfold register in Hreg. destruct (existsb _ S); [discriminate|]. injection Hreg as <-. cbn [d_commons] in Hc.
  apply in_flat_map in Hc. destruct Hc as (ns & Hns & Hc). apply in_map_iff in Hc. destruct Hc as (c & Hc & Hcin). injection Hc as _ <- <-.
  rewrite forallb_forall in Hall. specialize (Hall ns Hns). unfold ok_ns in Hall. apply andb_true_iff in Hall. destruct Hall as [Hall _].
  apply andb_true_iff in Hall. destruct Hall as [_ Hall]. rewrite forallb_forall in Hall. exact (Hall c Hcin).
Qed.

Lemma r_rt_nrm : forall d ns t, commons_ok d -> ok_ty d ns t = true -> r_rt (nrm_d d) ns (nrm t) = r_rt d ns t.
Proof. intros d ns t Hc Hok. unfold r_rt. rewrite resolve_fuel_nrm. apply rt_nrm; assumption. Qed.

Lemma r_ent_nrm : forall d ns e, commons_ok d -> ok_entity d ns e = true -> r_ent (nrm_d d) ns (nrm_entity e) = r_ent d ns e.
Proof.
  intros d ns e Hc Hok. unfold ok_entity in Hok. apply andb_true_iff in Hok. destruct Hok as [Hs Ht].
  unfold r_ent. cbn [nrm_entity se_parents]. change (r_eref (nrm_d d) ns) with (r_eref d ns).
  destruct (all_ok (r_eref d ns) (se_parents e)) as [ps| |]; cbn [rbind]; try reflexivity.
  unfold r_ent_rest. cbn [nrm_entity se_shape se_tags se_name].
  destruct (se_shape e) as [fs|]; cbn [option_map].
  - change (TyRec (nrm_fields fs)) with (nrm (TyRec fs)). rewrite (r_rt_nrm d ns _ Hc Hs).
    destruct (se_tags e) as [t|]; cbn [option_map]; [rewrite (r_rt_nrm d ns _ Hc Ht)|]; reflexivity.
  - destruct (se_tags e) as [t|]; cbn [option_map]; [rewrite (r_rt_nrm d ns _ Hc Ht)|]; reflexivity.
Qed.

Lemma r_act_nrm : forall d ns a, commons_ok d -> ok_action d ns a = true -> r_act (nrm_d d) ns (nrm_action a) = r_act d ns a.
Proof.
  intros d ns a Hc Hok. unfold ok_action in Hok. unfold r_act. cbn [nrm_action sac_applies sac_parents].
  change (r_eref (nrm_d d) ns) with (r_eref d ns).
  destruct (sac_applies a) as [ap|]; cbn [option_map]; [|reflexivity].
  cbn [nrm_applies sa_principals sa_resources sa_context].
  destruct (sa_context ap) as [t|]; cbn [option_map]; [rewrite (r_rt_nrm d ns _ Hc Hok)|]; reflexivity.
Qed.

Lemma all_ok_map_ext : forall (A B : Type) (f f' : A -> rres B) (g : A -> A) l,
  (forall x, In x l -> f' (g x) = f x) -> all_ok f' (map g l) = all_ok f l.
Proof.
  intros A B f f' g l H. induction l as [|x l IH]; [reflexivity|]. cbn [map]. rewrite !all_ok_cons, (H x (or_introl eq_refl)), IH; [reflexivity|].
  intros y Hy. apply H. right. exact Hy.
Qed.

Theorem resolve_nrm_s : forall S, resolve_same_ok S = true -> resolve_schema (nrm_s S) = resolve_schema S.
Proof.
  intros S Hok. unfold resolve_same_ok in Hok. rewrite !resolve_schema_eq, register_nrm, shadowing_nrm.
  destruct (register S) as [d|] eqn:Hreg; cbn [option_map]; [|reflexivity].
  pose proof (commons_ok_of S d Hreg Hok) as Hc. rewrite (cycle_free_nrm d Hc).
  destruct (negb (shadowing_ok S)); [reflexivity|]. destruct (negb (cycle_free d)); [reflexivity|].
  rewrite forallb_forall in Hok.
  assert (He : rrel (fun a b => concat a = concat b) (all_ok (fun ns => all_ok (r_ent d (sn_name ns)) (sn_entities ns)) S)
                    (all_ok (fun ns => all_ok (r_ent (nrm_d d) (sn_name ns)) (sn_entities ns)) (nrm_s S))).
  { apply (all_ok_nf nrm_ns); [reflexivity|intros a b a' b' -> ->; reflexivity| |intros ns E; rewrite (s_keep_empty ns E); reflexivity].
    intros ns Hns. cbn [nrm_ns sn_name sn_entities]. erewrite all_ok_map_ext; [apply rrel_refl; reflexivity|].
    intros e Hein. apply r_ent_nrm; [exact Hc|].
    specialize (Hok ns Hns). unfold ok_ns in Hok. apply andb_true_iff in Hok. destruct Hok as [Hok _]. apply andb_true_iff in Hok. destruct Hok as [Hok _].
    rewrite forallb_forall in Hok. exact (Hok e Hein). }
  assert (Ha : rrel (fun a b => concat a = concat b) (all_ok (fun ns => all_ok (r_act d (sn_name ns)) (sn_actions ns)) S)
                    (all_ok (fun ns => all_ok (r_act (nrm_d d) (sn_name ns)) (sn_actions ns)) (nrm_s S))).
  { apply (all_ok_nf nrm_ns); [reflexivity|intros a b a' b' -> ->; reflexivity| |intros ns E; rewrite (s_keep_empty ns E); reflexivity].
    intros ns Hns. cbn [nrm_ns sn_name sn_actions]. erewrite all_ok_map_ext; [apply rrel_refl; reflexivity|].
    intros a Hain. apply r_act_nrm; [exact Hc|].
    specialize (Hok ns Hns). unfold ok_ns in Hok. apply andb_true_iff in Hok. destruct Hok as [_ Hok].
    rewrite forallb_forall in Hok. exact (Hok a Hain). }
  destruct (all_ok (fun ns => all_ok (r_ent (nrm_d d) (sn_name ns)) (sn_entities ns)) (nrm_s S)) as [es'| |],
           (all_ok (fun ns => all_ok (r_ent d (sn_name ns)) (sn_entities ns)) S) as [es| |]; cbn [rrel] in He; try tauto;
  destruct (all_ok (fun ns => all_ok (r_act (nrm_d d) (sn_name ns)) (sn_actions ns)) (nrm_s S)) as [acts'| |],
           (all_ok (fun ns => all_ok (r_act d (sn_name ns)) (sn_actions ns)) S) as [acts| |]; cbn [rrel] in Ha; try tauto; try reflexivity.
  rewrite He, Ha. reflexivity.
Qed.

End ResolveSh.

Theorem resolve_norm_text : forall s, resolve_same_ok (shadowed_builtins s) (erase s) = true ->
  resolve_schema (erase (norm_text s)) = resolve_schema (erase s).
Proof. intros s H. unfold norm_text. rewrite erase_norm_text_sh. apply resolve_nrm_s. exact H. Qed.

(* the former finding F26: a declared type named like a builtin used to capture the bare builtin name of the printed text;
   the printer now writes __cedar::String, and resolution does not see the difference *)
Definition f26_schema : x_schema :=
  [([], {| xs_annots := [];
           xs_entities := [(s_of "A", {| xe_annots := []; xe_parents := []; xe_shape := Some [(s_of "x", (XString, false, []))]; xe_tags := None |});
                           (s_of "String", {| xe_annots := []; xe_parents := []; xe_shape := None; xe_tags := None |})];
           xs_enums := []; xs_commons := []; xs_actions := [] |})].
Example f26_repaired :
  wf_text f26_schema = true
  /\ parse_schema (print_schema f26_schema)
     = SOk [([], {| xs_annots := [];
                    xs_entities := [(s_of "A", {| xe_annots := []; xe_parents := [];
                                                  xe_shape := Some [(s_of "x", (XRef (s_of "__cedar::String"), false, []))]; xe_tags := None |});
                                    (s_of "String", {| xe_annots := []; xe_parents := []; xe_shape := None; xe_tags := None |})];
                    xs_enums := []; xs_commons := []; xs_actions := [] |})]
  /\ resolve_schema (erase f26_schema)
     = VOk {| rs_entities := [(s_of "A", ([], Some [(s_of "x", (RString, false))], None)); (s_of "String", ([], None, None))]; rs_actions := [] |}
  /\ resolve_schema (erase (norm_text f26_schema)) = resolve_schema (erase f26_schema).
Proof. split; [|split; [|split]]; vm_compute; reflexivity. Qed.

(* from the syntax: wf_text and "no EntityTypeRef, known extension types" are enough *)
Definition declared_names (n : x_ns) : list str := map fst (xs_entities n) ++ map fst (xs_enums n) ++ map fst (xs_commons n).
(* no EntityTypeRef (the text parser never builds one), and only the four known extension types *)
Fixpoint plain_ty (t : xty) : bool :=
  match t with
  | XString | XLong | XBool | XRef _ => true
  | XExt n => is_ext n
  | XEnt _ => false
  | XSet e => plain_ty e
  | XRec fs => (fix go (l : xrec) : bool := match l with [] => true | x :: r => plain_ty (fst (fst (snd x))) && go r end) fs
  end.
Lemma plain_ty_rec : forall fs, plain_ty (XRec fs) = forallb (fun x : str * xattr => plain_ty (fst (fst (snd x)))) fs.
Proof. reflexivity. Qed.
Definition opt_plain (o : option xty) : bool := match o with Some t => plain_ty t | None => true end.
Definition plain_ns (n : x_ns) : bool :=
  forallb (fun kv : str * x_entity => opt_plain (option_map XRec (xe_shape (snd kv))) && opt_plain (xe_tags (snd kv))) (xs_entities n)
  && forallb (fun kv : str * x_common => plain_ty (xc_type (snd kv))) (xs_commons n)
  && forallb (fun kv : str * x_action => match xac_applies (snd kv) with Some ap => opt_plain (xa_context ap) | None => true end) (xs_actions n).
Definition plain_schema (s : x_schema) : bool := forallb (fun kv : str * x_ns => plain_ns (snd kv)) s.

Definition colon_free (x : str) : Prop := ~ In 58 x.

Lemma prefix_colon : forall u v p q, colon_free u -> colon_free v -> u ++ 58 :: p = v ++ 58 :: q -> u = v.
Proof.
  induction u as [|a u IH]; intros [|b v] p q Hu Hv H; cbn [app] in H.
  - reflexivity.
  - injection H as H _. exfalso. apply Hv. left. symmetry. exact H.
  - injection H as H _. exfalso. apply Hu. left. exact H.
  - injection H as H1 H2. subst b. f_equal. apply (IH v p q); [intros Hin; apply Hu; right; exact Hin|intros Hin; apply Hv; right; exact Hin|exact H2].
Qed.

Lemma suffix_colon : forall a b x y, colon_free x -> colon_free y -> a ++ sep ++ x = b ++ sep ++ y -> x = y.
Proof.
  intros a b x y Hx Hy H. apply (f_equal (@rev Z)) in H. unfold sep in H. rewrite !rev_app_distr in H. cbn [rev app] in H.
  rewrite <- !app_assoc in H. cbn [app] in H.
  assert (E : rev x = rev y).
  { apply (prefix_colon (rev x) (rev y) (58 :: rev a) (58 :: rev b)); [intros Hin; apply Hx; apply in_rev; exact Hin|intros Hin; apply Hy; apply in_rev; exact Hin|exact H]. }
  rewrite <- (rev_involutive x), <- (rev_involutive y), E. reflexivity.
Qed.

Lemma word_colon_free : forall w, word w = true -> colon_free w.
Proof.
  intros [|c w] H; [discriminate|]. cbn [word] in H. apply andb_true_iff in H. destruct H as [Hc Hw].
  assert (Hall : forallb is_ident_continue (c :: w) = true) by (cbn [forallb]; rewrite (ident_start_continue c Hc), Hw; reflexivity).
  rewrite forallb_forall in Hall. intros Hin. specialize (Hall 58 Hin). discriminate.
Qed.

Lemma builtin_colon_free : forall r, is_builtin_name r = true -> colon_free r.
Proof.
  intros r H. apply (builtin_name_cases r colon_free H); intros Hin; cbn in Hin;
    repeat (destruct Hin as [Hin|Hin]; [discriminate|]); exact Hin.
Qed.

Lemma qualify_ne : forall nsn name ns r, colon_free name -> colon_free r -> name <> r ->
  qualify nsn name <> r /\ qualify nsn name <> ns ++ sep ++ r.
Proof.
  intros nsn name ns r Hname Hrc Hne. destruct nsn as [|c nsn]; cbn [qualify]; split.
  - exact Hne.
  - intros E. apply Hname. rewrite E. apply in_or_app. right. left. reflexivity.
  - intros E. apply Hrc. rewrite <- E. apply in_or_app. right. left. reflexivity.
  - intros E. apply Hne. exact (suffix_colon _ _ _ _ Hname Hrc E).
Qed.

Lemma decl_origin : forall s d x, register (erase s) = Some d -> is_entity d x = true \/ has_common d x = true ->
  exists kv name, In kv s /\ In name (declared_names (snd kv)) /\ x = qualify (fst kv) name.
Proof.
  intros s d x Hreg H. unfold register in Hreg. destruct (existsb _ (erase s)); [discriminate|]. injection Hreg as <-.
  unfold is_entity, has_common in H. cbn [d_ents d_enums] in H.
  assert (Hin : In x (flat_map (fun ns => map (fun e => qualify (sn_name ns) (se_name e)) (sn_entities ns)) (erase s))
             \/ In x (flat_map (fun ns => map (qualify (sn_name ns)) (sn_enums ns)) (erase s))
             \/ In x (map fst (flat_map (fun ns => map (fun c : str * sty => (qualify (sn_name ns) (fst c), (sn_name ns, snd c))) (sn_commons ns)) (erase s)))).
  { destruct H as [H|H].
    - apply orb_true_iff in H. destruct H as [H|H]; apply mem_In in H; tauto.
    - right. right. destruct (common _ x) as [c|] eqn:E; [|discriminate]. apply common_In in E. cbn [d_commons] in E.
      apply in_map_iff. exists (x, c). split; [reflexivity|exact E]. }
  clear H. unfold erase in Hin. unfold declared_names.
  destruct Hin as [Hin|[Hin|Hin]].
  - apply in_flat_map in Hin. destruct Hin as (ns & Hns & Hin). apply in_map_iff in Hns. destruct Hns as (kv & <- & Hkv).
    apply in_map_iff in Hin. destruct Hin as (e & <- & He). cbn [erase_ns sn_entities sn_name] in *. apply in_map_iff in He. destruct He as (e0 & <- & He0).
    cbn [se_name]. exists kv, (fst e0). split; [exact Hkv|]. split; [|reflexivity]. apply in_or_app. left. apply in_map. exact He0.
  - apply in_flat_map in Hin. destruct Hin as (ns & Hns & Hin). apply in_map_iff in Hns. destruct Hns as (kv & <- & Hkv).
    apply in_map_iff in Hin. destruct Hin as (e & <- & He). cbn [erase_ns sn_enums sn_name] in *.
    exists kv, e. split; [exact Hkv|]. split; [|reflexivity]. apply in_or_app. right. apply in_or_app. left. exact He.
  - apply in_map_iff in Hin. destruct Hin as (c & <- & Hin).
    apply in_flat_map in Hin. destruct Hin as (ns & Hns & Hin). apply in_map_iff in Hns. destruct Hns as (kv & <- & Hkv).
    apply in_map_iff in Hin. destruct Hin as (c0 & <- & Hc0). cbn [erase_ns sn_commons sn_name fst] in *. apply in_map_iff in Hc0. destruct Hc0 as (c1 & <- & Hc1).
    cbn [fst]. exists kv, (fst c1). split; [exact Hkv|]. split; [|reflexivity]. apply in_or_app. right. apply in_or_app. right. apply in_map. exact Hc1.
Qed.

Lemma declared_ident : forall s kv name, wf_text s = true -> In kv s -> In name (declared_names (snd kv)) -> colon_free name.
Proof.
  intros s kv name Hwf Hkv Hname. destruct (wf_text_in s kv Hwf Hkv) as (Hn & _). apply wf_ns_t_iff in Hn.
  destruct Hn as [Han Hes Hesw Hens Hensw Hdj Hcs Hcsw Has Hasw]. unfold declared_names in Hname. rewrite forallb_forall in Hesw, Hensw, Hcsw.
  assert (Hv : is_valid_ident name = true).
  { apply in_app_or in Hname. destruct Hname as [Hname|Hname]; [|apply in_app_or in Hname; destruct Hname as [Hname|Hname]];
      apply in_map_iff in Hname; destruct Hname as (x & <- & Hx).
    - specialize (Hesw x Hx). apply andb_true_iff in Hesw. tauto.
    - specialize (Hensw x Hx). apply andb_true_iff in Hensw. tauto.
    - specialize (Hcsw x Hx). apply andb_true_iff in Hcsw. destruct Hcsw as [Hcsw _]. apply andb_true_iff in Hcsw. tauto. }
  apply word_colon_free. apply (valid_ident_word name Hv).
Qed.

Lemma existsb_key_in : forall (A : Type) r (l : list (str * A)), In r (map fst l) -> existsb (fun kv => str_eqb (fst kv) r) l = true.
Proof.
  intros A r l H. apply in_map_iff in H. destruct H as (kv & <- & Hkv). apply existsb_exists. exists kv. split; [exact Hkv|apply str_eqb_refl].
Qed.

Lemma ns_declares_in : forall r n, In r (declared_names n) -> ns_declares r n = true.
Proof.
  intros r n H. unfold declared_names in H. unfold ns_declares. apply in_app_or in H. destruct H as [H|H]; [|apply in_app_or in H; destruct H as [H|H]].
  - rewrite (existsb_key_in _ r _ H). reflexivity.
  - rewrite (existsb_key_in _ r _ H). rewrite orb_true_r. reflexivity.
  - rewrite (existsb_key_in _ r _ H). rewrite orb_true_r. reflexivity.
Qed.

(* a built-in name that the printer does not prefix is not declared anywhere *)
Lemma unshadowed_ne : forall s r kv name, shadowed_builtins s r = false -> is_builtin_name r = true ->
  In kv s -> In name (declared_names (snd kv)) -> name <> r.
Proof.
  intros s r kv name Hsh Hb Hkv Hname ->. unfold shadowed_builtins in Hsh. fold (is_builtin_name r) in Hsh. rewrite Hb in Hsh. cbn [andb] in Hsh.
  assert (H : existsb (fun kv0 : str * x_ns => ns_declares r (snd kv0)) s = true).
  { apply existsb_exists. exists kv. split; [exact Hkv|apply ns_declares_in; exact Hname]. }
  rewrite H in Hsh. discriminate.
Qed.

Lemma free_unshadowed : forall s d ns r, wf_text s = true -> register (erase s) = Some d ->
  is_builtin_name r = true -> shadowed_builtins s r = false -> free d ns r = true.
Proof.
  intros s d ns r Hwf Hreg Hr Hsh. pose proof (builtin_colon_free r Hr) as Hrc.
  assert (Hno : forall x, (x = r \/ x = ns ++ sep ++ r) -> is_entity d x = false /\ has_common d x = false).
  { intros x Hx.
    assert (H : ~ (is_entity d x = true \/ has_common d x = true)).
    { intros H. destruct (decl_origin s d x Hreg H) as (kv & name & Hkv & Hname & E).
      pose proof (declared_ident s kv name Hwf Hkv Hname) as Hcf.
      pose proof (unshadowed_ne s r kv name Hsh Hr Hkv Hname) as Hne.
      destruct (qualify_ne (fst kv) name ns r Hcf Hrc Hne) as [N1 N2]. destruct Hx as [-> | ->]; [apply N1|apply N2]; symmetry; exact E. }
    destruct (is_entity d x), (has_common d x); try tauto; exfalso; apply H; tauto. }
  destruct (Hno r (or_introl eq_refl)) as [E1 C1]. destruct (Hno (ns ++ sep ++ r) (or_intror eq_refl)) as [E2 C2].
  unfold free. rewrite E1, C1, E2, C2. destruct (is_nil_str ns); reflexivity.
Qed.

(* no common type is called __cedar::name: that would need a namespace named __cedar *)
Lemma no_cedar_common : forall s d r, wf_text s = true -> register (erase s) = Some d -> is_builtin_name r = true ->
  has_common d (cedar_prefix ++ r) = false.
Proof.
  intros s d r Hwf Hreg Hr. pose proof (builtin_colon_free r Hr) as Hrc.
  destruct (has_common d (cedar_prefix ++ r)) eqn:E; [|reflexivity]. exfalso.
  destruct (decl_origin s d _ Hreg (or_intror E)) as (kv & name & Hkv & Hname & Eq).
  pose proof (declared_ident s kv name Hwf Hkv Hname) as Hcf.
  change cedar_prefix with (s_of "__cedar" ++ sep) in Eq. rewrite <- app_assoc in Eq.
  destruct (fst kv) as [|c nsn] eqn:Ens; cbn [qualify] in Eq.
  - apply Hcf. rewrite <- Eq. apply in_or_app. right. left. reflexivity.
  - pose proof (suffix_colon _ _ _ _ Hrc Hcf Eq) as En. subst name. apply app_inv_tail in Eq.
    destruct (wf_text_in s kv Hwf Hkv) as (_ & _ & Hp). rewrite Ens in Hp. specialize (Hp ltac:(discriminate)). rewrite <- Eq in Hp. discriminate.
Qed.

Lemma bi_ok_builtin : forall s d ns r, wf_text s = true -> register (erase s) = Some d -> is_builtin_name r = true ->
  bi_ok (shadowed_builtins s) d ns r = true.
Proof.
  intros s d ns r Hwf Hreg Hr. unfold bi_ok. destruct (shadowed_builtins s r) eqn:E.
  - rewrite (no_cedar_common s d r Hwf Hreg Hr). reflexivity.
  - apply (free_unshadowed s); assumption.
Qed.

Lemma plain_ok_ty : forall s d ns, wf_text s = true -> register (erase s) = Some d ->
  forall t, plain_ty t = true -> ok_ty (shadowed_builtins s) d ns (erase_ty t) = true.
Proof.
  intros s d ns Hwf Hreg. induction t as [| | |n|e IHe|fs IHfs|r|r] using xty_ind'; intros Hp; try discriminate; try reflexivity.
  - apply (bi_ok_builtin s); try assumption; reflexivity.
  - apply (bi_ok_builtin s); try assumption; reflexivity.
  - apply (bi_ok_builtin s); try assumption; reflexivity.
  - cbn [plain_ty erase_ty ok_ty] in *. rewrite Hp. apply (bi_ok_builtin s); try assumption. apply (is_ext_inv n Hp).
  - exact (IHe Hp).
  - rewrite erase_ty_rec, ok_ty_rec. rewrite plain_ty_rec in Hp. unfold erase_fields. rewrite forallb_forall in *.
    intros x Hx. apply in_map_iff in Hx. destruct Hx as (y & <- & Hy). cbn [fst snd]. rewrite Forall_forall in IHfs. apply (IHfs y Hy). apply Hp. exact Hy.
Qed.

(* as the printer writes __cedar::Name for shadowed built-in names, no hypothesis on the declared names is needed *)
Theorem resolve_norm_text_names' : forall s, wf_text s = true -> plain_schema s = true ->
  resolve_schema (erase (norm_text s)) = resolve_schema (erase s).
Proof.
  intros s Hwf Hpl. apply resolve_norm_text. unfold resolve_same_ok. destruct (register (erase s)) as [d|] eqn:Hreg; [|reflexivity].
  unfold erase. apply forallb_forall. intros ns Hns. apply in_map_iff in Hns. destruct Hns as ([name n] & <- & Hkv).
  unfold plain_schema in Hpl. rewrite forallb_forall in Hpl. specialize (Hpl _ Hkv). cbn [snd] in Hpl. unfold plain_ns in Hpl.
  apply andb_true_iff in Hpl. destruct Hpl as [Hpl Hpa]. apply andb_true_iff in Hpl. destruct Hpl as [Hpe Hpc].
  rewrite forallb_forall in Hpe, Hpc, Hpa.
  pose proof (plain_ok_ty s d name Hwf Hreg) as Hok.
  unfold ok_ns, erase_ns. cbn [fst snd sn_name sn_entities sn_commons sn_actions]. repeat (apply andb_true_iff; split); apply forallb_forall; intros x Hx;
    apply in_map_iff in Hx; destruct Hx as (y & <- & Hy).
  - specialize (Hpe y Hy). apply andb_true_iff in Hpe. destruct Hpe as [Hs Ht]. unfold ok_entity. cbn [se_shape se_tags].
    apply andb_true_iff. split.
    + destruct (xe_shape (snd y)) as [fs|]; [|reflexivity]. cbn [option_map opt_plain] in *. rewrite erase_rec_fields, <- erase_ty_rec. apply Hok. exact Hs.
    + destruct (xe_tags (snd y)) as [t|]; [|reflexivity]. cbn [option_map opt_plain] in *. apply Hok. exact Ht.
  - cbn [snd]. apply Hok. apply Hpc. exact Hy.
  - specialize (Hpa y Hy). unfold ok_action. cbn [sac_applies]. destruct (xac_applies (snd y)) as [ap|]; [|reflexivity]. cbn [option_map sa_context].
    destruct (xa_context ap) as [t|]; [|reflexivity]. cbn [option_map opt_plain] in *. apply Hok. exact Hpa.
Qed.

(* the same under the hypothesis that no declared name is a built-in name, which the proof does not use *)
Definition no_builtin_names (s : x_schema) : bool :=
  forallb (fun kv : str * x_ns => forallb (fun name => negb (is_builtin_name name)) (declared_names (snd kv))) s.
Corollary resolve_norm_text_names : forall s, wf_text s = true -> no_builtin_names s = true -> plain_schema s = true ->
  resolve_schema (erase (norm_text s)) = resolve_schema (erase s).
Proof. intros s Hwf _ Hpl. apply resolve_norm_text_names'; assumption. Qed.

(* a shadowed built-in in a NAMESPACED schema: NS1 declares `String`, NS2 uses the built-in *)
Definition f26_ns_schema : x_schema :=
  [(s_of "NS1", {| xs_annots := []; xs_entities := [(s_of "String", {| xe_annots := []; xe_parents := []; xe_shape := None; xe_tags := None |})];
                   xs_enums := []; xs_commons := []; xs_actions := [] |});
   (s_of "NS2", {| xs_annots := []; xs_entities := []; xs_enums := [];
                   xs_commons := [(s_of "T", {| xc_annots := []; xc_type := XSet XString |})]; xs_actions := [] |})].
Example f26_ns_prefixed :
  wf_text f26_ns_schema = true /\ plain_schema f26_ns_schema = true
  /\ parse_schema (print_schema f26_ns_schema) = SOk (norm_text f26_ns_schema)
  /\ xs_commons (snd (nth 1 (norm_text f26_ns_schema) ([], empty_ns)))
     = [(s_of "T", {| xc_annots := []; xc_type := XSet (XRef (s_of "__cedar::String")) |})].
Proof.
  assert (Hwf : wf_text f26_ns_schema = true) by (vm_compute; reflexivity).
  split; [exact Hwf|]. split; [vm_compute; reflexivity|]. split; [exact (parse_print_schema _ Hwf)|vm_compute; reflexivity].
Qed.

Print Assumptions parse_print_schema.
Print Assumptions norm_text_idempotent.
Print Assumptions second_text_rendering.
Print Assumptions wf_text_wf_schema.
Print Assumptions resolve_norm_text.
Print Assumptions resolve_norm_text_names'.
