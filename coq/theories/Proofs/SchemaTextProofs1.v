(* Proofs about Impl/SchemaText.v, part 1 of 2: the lexer, and totality of the parser.
   [rd s] is what parser.readToken does on the unread input [s]; this file gives the rewrite rules for [rd] on everything the
   printer emits: blanks, punctuation, identifier-shaped words, quoted strings (quote_cedar); the byte-level reading of
   isValidIdent and strings.Split(_, "::"); and, at the end,
     parse_schema_total : forall src, parse_schema src <> SFuel
   (the lexer never runs out of fuel and every token but EOF consumes input; every re-entry of a recursive parser function is
   preceded by the consumption of a token, up to a constant). *)
From Coq Require Import String.
From Coq Require Import ZArith List Bool Lia Arith.
Import ListNotations.
From Cedar Require Import Base.Utf8 Base.Utf8Enc Lang.Value Impl.Tokenizer Impl.Quote Impl.PolicyJson Impl.SchemaJson Impl.SchemaText.
From Cedar Require Import Proofs.TextProofs Proofs.QuoteProofs.
Local Open Scope Z_scope.

(* utf8.DecodeRune consumes at least one byte, and returns an ASCII rune only for that very byte *)
Lemma decode_rune_first : forall b t ch w, decode_rune (b :: t) = (ch, w) ->
  (1 <= w)%nat /\ (0 <= ch < 128 -> ch = b /\ w = 1%nat).
Proof.
  intros b t ch w H. unfold decode_rune in H. cbv zeta in H.
  destruct (Z.ltb_spec b 128) as [Hb|Hb]; [inversion H; subst; split; [lia|split; reflexivity]|].
  repeat match type of H with
         | context [if ?c then _ else _] => destruct c eqn:?
         | context [match ?l with [] => _ | _ :: _ => _ end] => destruct l
         end; inversion H; subst; unfold rune_error, is_cont in *; zb; (split; [lia|intros Hch; exfalso; lia]).
Qed.

Lemma lx_advance_lt : forall b s, (length (lx_advance (b :: s)) < length (b :: s))%nat.
Proof.
  intros b s. unfold lx_advance, lx_width. rewrite skipn_length.
  destruct (decode_rune (b :: s)) as [ch w] eqn:E. destruct (decode_rune_first b s ch w E) as [Hw _]. cbn [length snd] in *. lia.
Qed.

Lemma lx_advance_le : forall s, (length (lx_advance s) <= length s)%nat.
Proof. intros s. unfold lx_advance. rewrite skipn_length. lia. Qed.

Lemma lx_peek_ascii : forall c s, c < 128 -> lx_peek (c :: s) = c.
Proof. intros c s H. unfold lx_peek. rewrite decode1 by exact H. reflexivity. Qed.
Lemma lx_width_ascii : forall c s, c < 128 -> lx_width (c :: s) = 1%nat.
Proof. intros c s H. unfold lx_width. rewrite decode1 by exact H. reflexivity. Qed.
Lemma lx_advance_ascii : forall c s, c < 128 -> lx_advance (c :: s) = s.
Proof. intros c s H. unfold lx_advance. rewrite lx_width_ascii by exact H. reflexivity. Qed.

(* The lexer's loops, given more fuel than input: the result does not depend on the fuel, is not LFuel, and leaves at most [n]
   bytes unread.  One induction per loop gives all three. *)
Definition lstable {A : Type} (sz : A -> nat) (n : nat) (r1 r2 : lres A) : Prop :=
  r1 = r2 /\ match r1 with LOk a => (sz a <= n)%nat | LErr => True | LFuel => False end.

Lemma lstable_ok : forall (A : Type) sz n (a : A), (sz a <= n)%nat -> lstable sz n (LOk a) (LOk a).
Proof. intros A sz n a H. split; [reflexivity|exact H]. Qed.
Lemma lstable_err : forall (A : Type) sz n, @lstable A sz n LErr LErr.
Proof. intros A sz n. split; [reflexivity|exact I]. Qed.
Lemma lstable_le : forall (A : Type) sz n m (r1 r2 : lres A), lstable sz n r1 r2 -> (n <= m)%nat -> lstable sz m r1 r2.
Proof. intros A sz n m r1 r2 [E H] Hle. split; [exact E|]. destruct r1; [lia|exact I|exact H]. Qed.
Lemma lstable_eq : forall (A : Type) sz n (r1 r2 : lres A), lstable sz n r1 r2 -> r1 = r2.
Proof. intros A sz n r1 r2 [E _]. exact E. Qed.

Lemma skip_line_stable : forall f1 f2 s, (length s < f1)%nat -> (length s < f2)%nat ->
  lstable (@length Z) (length s) (skip_line f1 s) (skip_line f2 s).
Proof.
  induction f1 as [|f1 IH]; intros f2 s H1 H2; [lia|]. destruct f2 as [|f2]; [lia|].
  cbn [skip_line]. destruct s as [|b s]; [apply lstable_ok; lia|].
  destruct (lx_peek (b :: s) =? 10); [apply lstable_ok; lia|].
  pose proof (lx_advance_lt b s). eapply lstable_le; [apply IH|]; lia.
Qed.

Lemma skip_block_stable : forall f1 f2 s, (length s < f1)%nat -> (length s < f2)%nat ->
  lstable (@length Z) (length s) (skip_block f1 s) (skip_block f2 s).
Proof.
  induction f1 as [|f1 IH]; intros f2 s H1 H2; [lia|]. destruct f2 as [|f2]; [lia|].
  cbn [skip_block]. destruct s as [|b s]; [apply lstable_err|].
  pose proof (lx_advance_lt b s) as Hlt. pose proof (lx_advance_le (lx_advance (b :: s))) as Hle.
  destruct ((lx_peek (b :: s) =? 42) && byte1_is (b :: s) 47); [apply lstable_ok; lia|].
  eapply lstable_le; [apply IH|]; lia.
Qed.

Lemma skip_ws_stable : forall f1 f2 s, (length s < f1)%nat -> (length s < f2)%nat ->
  lstable (@length Z) (length s) (skip_ws f1 s) (skip_ws f2 s).
Proof.
  induction f1 as [|f1 IH]; intros f2 s H1 H2; [lia|]. destruct f2 as [|f2]; [lia|].
  cbn [skip_ws]. destruct s as [|b s]; [apply lstable_ok; lia|]. cbv zeta.
  pose proof (lx_advance_lt b s) as Hlt. pose proof (lx_advance_le (lx_advance (b :: s))) as Hle.
  destruct (is_space (lx_peek (b :: s))); [eapply lstable_le; [apply IH|]; lia|].
  destruct ((lx_peek (b :: s) =? 47) && byte1_is (b :: s) 47).
  { destruct (skip_line_stable (S f1) (S f2) (lx_advance (lx_advance (b :: s)))) as [<- Hl]; [lia|lia|].
    destruct (skip_line (S f1) _) as [s'| |]; [|apply lstable_err|contradiction]. eapply lstable_le; [apply IH|]; lia. }
  destruct ((lx_peek (b :: s) =? 47) && byte1_is (b :: s) 42); [|apply lstable_ok; lia].
  destruct (skip_block_stable (S f1) (S f2) (lx_advance (lx_advance (b :: s)))) as [<- Hl]; [lia|lia|].
  destruct (skip_block (S f1) _) as [s'| |]; [|apply lstable_err|contradiction]. eapply lstable_le; [apply IH|]; lia.
Qed.

Definition unread (p : str * str) : nat := length (snd p).

Lemma scan_ident_loop_stable : forall f1 f2 start n s, (length s < f1)%nat -> (length s < f2)%nat ->
  lstable unread (length s) (scan_ident_loop f1 start n s) (scan_ident_loop f2 start n s).
Proof.
  induction f1 as [|f1 IH]; intros f2 start n s H1 H2; [lia|]. destruct f2 as [|f2]; [lia|].
  cbn [scan_ident_loop]. destruct s as [|b s]; [apply lstable_ok; unfold unread; cbn [snd]; lia|].
  destruct (is_ident_continue (lx_peek (b :: s))); [|apply lstable_ok; unfold unread; cbn [snd]; lia].
  pose proof (lx_advance_lt b s). eapply lstable_le; [apply IH|]; lia.
Qed.

Lemma scan_string_loop_stable : forall f1 f2 start n s, (length s < f1)%nat -> (length s < f2)%nat ->
  lstable unread (length s) (scan_string_loop f1 start n s) (scan_string_loop f2 start n s).
Proof.
  induction f1 as [|f1 IH]; intros f2 start n s H1 H2; [lia|]. destruct f2 as [|f2]; [lia|].
  cbn [scan_string_loop]. destruct s as [|b s]; [apply lstable_err|]. cbv zeta.
  pose proof (lx_advance_lt b s) as Hlt.
  destruct (lx_peek (b :: s) =? 34).
  { destruct (unquote (firstn n start) false) as [[u r]|]; [apply lstable_ok; unfold unread; cbn [snd]; lia|apply lstable_err]. }
  destruct (lx_peek (b :: s) =? 10); [apply lstable_err|].
  destruct (lx_peek (b :: s) =? 92).
  - destruct (lx_advance (b :: s)) as [|b' s'] eqn:E; [apply lstable_err|].
    pose proof (lx_advance_lt b' s'). eapply lstable_le; [apply IH|]; lia.
  - eapply lstable_le; [apply IH|]; lia.
Qed.

(* lexer.next: moreover every token but EOF consumes input *)
Lemma lex_next_stable : forall f1 f2 s, (length s < f1)%nat -> (length s < f2)%nat ->
  lex_next_fuel f1 s = lex_next_fuel f2 s
  /\ match lex_next_fuel f1 s with
     | LOk (t, s') => (length s' <= length s)%nat /\ (k_type t <> KEOF -> (length s' < length s)%nat)
     | LErr => True
     | LFuel => False
     end.
Proof.
  intros f1 f2 s H1 H2. unfold lex_next_fuel.
  destruct (skip_ws_stable f1 f2 s H1 H2) as [<- Hl].
  destruct (skip_ws f1 s) as [s1| |]; [|split; [reflexivity|exact I]|contradiction].
  destruct s1 as [|b s1]; [split; [reflexivity|cbn; split; [lia|congruence]]|]. cbv zeta.
  pose proof (lx_advance_lt b s1) as Hlt. pose proof (lx_advance_le (lx_advance (b :: s1))) as Hle.
  destruct (is_ident_start (lx_peek (b :: s1))).
  { unfold scan_ident.
    destruct (scan_ident_loop_stable f1 f2 (b :: s1) (lx_width (b :: s1)) (lx_advance (b :: s1))) as [<- Hs]; [lia|lia|].
    destruct (scan_ident_loop f1 _ _ _) as [[t s']| |]; [|split; [reflexivity|exact I]|contradiction].
    unfold unread in Hs. cbn [snd] in Hs. split; [reflexivity|]. split; [lia|intros _; lia]. }
  destruct (lx_peek (b :: s1) =? 34).
  { unfold scan_string. cbv zeta.
    destruct (scan_string_loop_stable f1 f2 (lx_advance (b :: s1)) 0 (lx_advance (b :: s1))) as [<- Hs]; [lia|lia|].
    destruct (scan_string_loop f1 _ _ _) as [[t s']| |]; [|split; [reflexivity|exact I]|contradiction].
    unfold unread in Hs. cbn [snd] in Hs. split; [reflexivity|]. split; [lia|intros _; lia]. }
  split; [reflexivity|].
  repeat match goal with |- match (if ?c then _ else _) with _ => _ end => destruct c end;
    try exact I; cbn [k_type mk_tok]; split; try lia; intros _; lia.
Qed.

(* rd: parser.readToken as a function of the unread input *)
Definition MkSt (t : stok) (s : str) : pst := {| p_tok := t; p_src := s |}.

Definition rd (s : str) : spres pst :=
  match lex_next s with
  | LOk (t, s') => SOk (MkSt t s')
  | LErr => SErr
  | LFuel => SFuel
  end.

Lemma read_token_rd : forall st, read_token st = rd (p_src st).
Proof. reflexivity. Qed.

Lemma rd_nil : rd [] = SOk (MkSt (mk_tok KEOF []) []).
Proof. reflexivity. Qed.

Lemma lex_next_blank : forall c s, c < 128 -> is_space c = true -> lex_next (c :: s) = lex_next s.
Proof.
  intros c s Hc Hsp. unfold lex_next. cbn [length].
  transitivity (lex_next_fuel (S (S (length s))) s); [|apply lex_next_stable; lia].
  unfold lex_next_fuel.
  assert (E : skip_ws (S (S (length s))) (c :: s) = skip_ws (S (S (length s))) s).
  { transitivity (skip_ws (S (length s)) s); [|eapply lstable_eq, skip_ws_stable; lia].
    cbn [skip_ws]. cbv zeta. rewrite lx_peek_ascii, Hsp, lx_advance_ascii by exact Hc. reflexivity. }
  rewrite E. reflexivity.
Qed.

Lemma rd_blank : forall c s, c < 128 -> is_space c = true -> rd (c :: s) = rd s.
Proof. intros c s Hc Hsp. unfold rd. rewrite lex_next_blank by assumption. reflexivity. Qed.

Lemma rd_sp : forall s, rd (32 :: s) = rd s. Proof. intros s. apply rd_blank; [lia|reflexivity]. Qed.
Lemma rd_nl : forall s, rd (10 :: s) = rd s. Proof. intros s. apply rd_blank; [lia|reflexivity]. Qed.
Lemma rd_tab : forall s, rd (9 :: s) = rd s. Proof. intros s. apply rd_blank; [lia|reflexivity]. Qed.
Lemma rd_tabs : forall n s, rd (tabs n ++ s) = rd s.
Proof. induction n as [|n IH]; intros s; [reflexivity|]. unfold tabs in *. cbn [repeat app]. rewrite rd_tab. apply IH. Qed.

Lemma rd_at : forall s, rd (64 :: s) = SOk (MkSt (mk_tok KAt [64]) s). Proof. reflexivity. Qed.
Lemma rd_lbrace : forall s, rd (123 :: s) = SOk (MkSt (mk_tok KLBrace [123]) s). Proof. reflexivity. Qed.
Lemma rd_rbrace : forall s, rd (125 :: s) = SOk (MkSt (mk_tok KRBrace [125]) s). Proof. reflexivity. Qed.
Lemma rd_lbracket : forall s, rd (91 :: s) = SOk (MkSt (mk_tok KLBracket [91]) s). Proof. reflexivity. Qed.
Lemma rd_rbracket : forall s, rd (93 :: s) = SOk (MkSt (mk_tok KRBracket [93]) s). Proof. reflexivity. Qed.
Lemma rd_langle : forall s, rd (60 :: s) = SOk (MkSt (mk_tok KLAngle [60]) s). Proof. reflexivity. Qed.
Lemma rd_rangle : forall s, rd (62 :: s) = SOk (MkSt (mk_tok KRAngle [62]) s). Proof. reflexivity. Qed.
Lemma rd_lparen : forall s, rd (40 :: s) = SOk (MkSt (mk_tok KLParen [40]) s). Proof. reflexivity. Qed.
Lemma rd_rparen : forall s, rd (41 :: s) = SOk (MkSt (mk_tok KRParen [41]) s). Proof. reflexivity. Qed.
Lemma rd_comma : forall s, rd (44 :: s) = SOk (MkSt (mk_tok KComma [44]) s). Proof. reflexivity. Qed.
Lemma rd_semi : forall s, rd (59 :: s) = SOk (MkSt (mk_tok KSemicolon [59]) s). Proof. reflexivity. Qed.
Lemma rd_question : forall s, rd (63 :: s) = SOk (MkSt (mk_tok KQuestion [63]) s). Proof. reflexivity. Qed.
Lemma rd_equals : forall s, rd (61 :: s) = SOk (MkSt (mk_tok KEquals [61]) s). Proof. reflexivity. Qed.
Lemma rd_colon_sp : forall s, rd (58 :: 32 :: s) = SOk (MkSt (mk_tok KColon [58]) (32 :: s)). Proof. reflexivity. Qed.
Lemma rd_dcolon : forall s, rd (58 :: 58 :: s) = SOk (MkSt (mk_tok KDoubleColon [58; 58]) s). Proof. reflexivity. Qed.

Definition word (w : str) : bool :=
  match w with [] => false | c :: r => is_ident_start c && forallb is_ident_continue r end.
(* the unread input after a word: the end, or an ASCII byte that cannot continue an identifier *)
Definition stopb (s : str) : bool :=
  match s with [] => true | b :: _ => (b <? 128) && negb (is_ident_continue b) end.

Lemma ident_continue_range : forall c, is_ident_continue c = true -> 48 <= c <= 122.
Proof.
  intros c H. unfold is_ident_continue, is_ident_start in H.
  repeat (apply orb_true_iff in H; destruct H as [H|H]); zb; lia.
Qed.

Lemma ident_start_continue : forall c, is_ident_start c = true -> is_ident_continue c = true.
Proof. intros c H. unfold is_ident_continue. rewrite H. reflexivity. Qed.

Lemma ident_start_range : forall c, is_ident_start c = true -> 65 <= c <= 122.
Proof.
  intros c H. unfold is_ident_start in H.
  repeat (apply orb_true_iff in H; destruct H as [H|H]); zb; lia.
Qed.

Lemma scan_ident_run : forall w pre s fuel, forallb is_ident_continue w = true -> stopb s = true ->
  (length (w ++ s) < fuel)%nat ->
  scan_ident_loop fuel (pre ++ w ++ s) (length pre) (w ++ s) = LOk (pre ++ w, s).
Proof.
  induction w as [|b w IH]; intros pre s fuel Hw Hs Hf.
  - destruct fuel as [|f]; [lia|]. cbn [app scan_ident_loop]. rewrite app_nil_r. destruct s as [|c s].
    + rewrite app_nil_r, firstn_all. reflexivity.
    + cbn [stopb] in Hs. apply andb_true_iff in Hs. destruct Hs as [Hc Hn]. apply Z.ltb_lt in Hc.
      apply negb_true_iff in Hn. rewrite lx_peek_ascii, Hn by exact Hc. rewrite firstn_app_exact. reflexivity.
  - destruct fuel as [|f]; [lia|]. cbn [forallb] in Hw. apply andb_true_iff in Hw. destruct Hw as [Hb Hw].
    pose proof (ident_continue_range b Hb) as Hr.
    cbn [app scan_ident_loop]. rewrite lx_peek_ascii, Hb, lx_width_ascii, lx_advance_ascii by lia.
    specialize (IH (pre ++ [b]) s f Hw Hs).
    replace (length (pre ++ [b])) with (length pre + 1)%nat in IH by (rewrite app_length; reflexivity).
    rewrite <- !app_assoc in IH. cbn [app] in IH. apply IH. cbn [app length] in Hf. lia.
Qed.

Lemma rd_word : forall w s, word w = true -> stopb s = true ->
  rd (w ++ s) = SOk (MkSt (mk_tok (if is_reserved w then KReserved else KIdent) w) s).
Proof.
  intros [|c w] s Hw Hs; [discriminate|]. cbn [word] in Hw. apply andb_true_iff in Hw. destruct Hw as [Hc Hw].
  pose proof (ident_start_range c Hc) as Hr.
  unfold rd, lex_next. cbn [app length]. unfold lex_next_fuel. cbn [skip_ws]. cbv zeta.
  rewrite lx_peek_ascii by lia.
  assert (E1 : is_space c = false).
  { unfold is_space. repeat (apply orb_false_iff; split); apply Z.eqb_neq; lia. }
  assert (E2 : (c =? 47) = false) by (apply Z.eqb_neq; lia).
  rewrite E1, E2. cbn [andb]. cbv zeta. rewrite lx_peek_ascii by lia. rewrite Hc.
  unfold scan_ident. rewrite lx_width_ascii, lx_advance_ascii by lia.
  pose proof (scan_ident_run w [c] s (S (S (length (w ++ s)))) Hw Hs ltac:(lia)) as H.
  cbn [app length] in H. rewrite H. reflexivity.
Qed.

(* Go strings are byte strings: the model's integers must not be negative (decode_rune reads a negative "byte" as an ASCII rune) *)
Definition utf8_ok (s : str) : bool := forallb (fun b => 0 <=? b) s && valid_utf8 s.

Lemma utf8_ok_nonneg : forall s, utf8_ok s = true -> nonneg s.
Proof.
  intros s H. unfold utf8_ok in H. apply andb_true_iff in H. destruct H as [H _]. rewrite forallb_forall in H.
  apply Forall_forall. intros x Hx. apply Z.leb_le. apply H. exact Hx.
Qed.
Lemma utf8_ok_valid : forall s, utf8_ok s = true -> valid_utf8 s = true.
Proof. intros s H. unfold utf8_ok in H. apply andb_true_iff in H. tauto. Qed.

Definition plainc (c : Z) : Prop := c < 128 /\ c <> 34 /\ c <> 10 /\ c <> 92.
Inductive qunit : str -> Prop :=
| qu_plain : forall c, plainc c -> qunit [c]
| qu_esc : forall e tl, e < 128 -> Forall plainc tl -> qunit (92 :: e :: tl).

Lemma scan_plain_run : forall l pre s fuel, Forall plainc l -> (length (l ++ s) < fuel)%nat ->
  scan_string_loop fuel (pre ++ l ++ s) (length pre) (l ++ s) = scan_string_loop fuel ((pre ++ l) ++ s) (length (pre ++ l)) s.
Proof.
  induction l as [|b l IH]; intros pre s fuel Hl Hf.
  - cbn [app]. rewrite app_nil_r. reflexivity.
  - destruct fuel as [|f]; [lia|]. inversion Hl as [|b' l' Hb Hl']; subst. destruct Hb as (Hb1 & Hb2 & Hb3 & Hb4).
    cbn [app length] in Hf.
    transitivity (scan_string_loop f ((pre ++ [b]) ++ l ++ s) (length (pre ++ [b])) (l ++ s)).
    + cbn [app scan_string_loop]. cbv zeta. rewrite lx_peek_ascii by exact Hb1.
      apply Z.eqb_neq in Hb2, Hb3, Hb4. rewrite Hb2, Hb3, Hb4.
      rewrite lx_width_ascii, lx_advance_ascii by exact Hb1.
      rewrite app_length. cbn [length]. rewrite <- app_assoc. reflexivity.
    + rewrite IH by (try assumption; lia). rewrite <- !app_assoc. cbn [app].
      eapply lstable_eq, scan_string_loop_stable; rewrite app_length in Hf; lia.
Qed.

Lemma scan_unit : forall u, qunit u -> forall pre s fuel, (length (u ++ s) < fuel)%nat ->
  scan_string_loop fuel (pre ++ u ++ s) (length pre) (u ++ s) = scan_string_loop fuel ((pre ++ u) ++ s) (length (pre ++ u)) s.
Proof.
  intros u Hu. destruct Hu as [c Hc|e tl He Htl]; intros pre s fuel Hf.
  - apply (scan_plain_run [c]); [constructor; [exact Hc|constructor]|exact Hf].
  - destruct fuel as [|f]; [lia|]. cbn [app length] in Hf.
    transitivity (scan_string_loop f ((pre ++ [92; e]) ++ tl ++ s) (length (pre ++ [92; e])) (tl ++ s)).
    + cbn [app scan_string_loop]. cbv zeta. rewrite lx_peek_ascii by lia.
      change (92 =? 34) with false. change (92 =? 10) with false. change (92 =? 92) with true. cbv iota.
      rewrite lx_width_ascii, lx_advance_ascii by lia.
      rewrite lx_width_ascii, lx_advance_ascii by lia.
      rewrite app_length. cbn [length]. rewrite <- app_assoc. cbn [app].
      replace (length pre + 1 + 1)%nat with (length pre + 2)%nat by lia. reflexivity.
    + rewrite scan_plain_run by (try assumption; lia). rewrite <- !app_assoc. cbn [app].
      eapply lstable_eq, scan_string_loop_stable; rewrite app_length in Hf; lia.
Qed.

Lemma scan_units : forall (esc : Z -> str) rs, Forall (fun r => qunit (esc r)) rs ->
  forall pre rest fuel, (length (flat_map esc rs ++ 34%Z :: rest) < fuel)%nat ->
  scan_string_loop fuel (pre ++ flat_map esc rs ++ 34 :: rest) (length pre) (flat_map esc rs ++ 34 :: rest)
  = match unquote (pre ++ flat_map esc rs) false with Some (u, _) => LOk (u, rest) | None => LErr end.
Proof.
  intros esc rs Hall. induction Hall as [|r rs Hr Hrs IH]; intros pre rest fuel Hf.
  - cbn [flat_map app] in *. destruct fuel as [|f]; [lia|]. cbn [scan_string_loop]. cbv zeta.
    rewrite lx_peek_ascii by lia. change (34 =? 34) with true. cbv iota.
    rewrite firstn_app_exact, app_nil_r, lx_advance_ascii by lia. reflexivity.
  - cbn [flat_map] in *. rewrite <- app_assoc in Hf |- *.
    rewrite scan_unit by assumption.
    rewrite IH.
    + rewrite <- !app_assoc. reflexivity.
    + rewrite app_length in Hf. lia.
Qed.

Lemma lowhex_plain : forall c, lowhex c -> plainc c.
Proof. intros c H. unfold lowhex in H. unfold plainc. lia. Qed.

Lemma quote_cedar_rune_unit : forall r, valid_rune r = true ->
  qunit (quote_cedar_rune r) /\ step_ok false (quote_cedar_rune r) r.
Proof.
  intros r Hv. pose proof (valid_rune_range r Hv) as Hr. unfold quote_cedar_rune.
  assert (Hp : forall e, e < 128 -> qunit [92; e]) by (intros e He; apply qu_esc; [exact He|constructor]).
  destruct (Z.eqb_spec r 34) as [->|N34]; [split; [apply Hp; lia|apply step_named; cbn; tauto]|].
  destruct (Z.eqb_spec r 92) as [->|N92]; [split; [apply Hp; lia|apply step_named; cbn; tauto]|].
  destruct (Z.eqb_spec r 10) as [->|N10]; [split; [apply Hp; lia|apply step_named; cbn; tauto]|].
  destruct (Z.eqb_spec r 13) as [->|N13]; [split; [apply Hp; lia|apply step_named; cbn; tauto]|].
  destruct (Z.eqb_spec r 9) as [->|N9]; [split; [apply Hp; lia|apply step_named; cbn; tauto]|].
  destruct (Z.eqb_spec r 0) as [->|N0]; [split; [apply Hp; lia|apply step_named; cbn; tauto]|].
  destruct ((32 <=? r) && (r <? 127)) eqn:E.
  - zb. split; [apply qu_plain; unfold plainc; lia|].
    rewrite <- (encode_rune_1 r) by lia. apply step_raw; [exact Hv|exact N92|left; reflexivity].
  - split; [|apply (step_u false r Hv)].
    destruct (hex_lower_spec r ltac:(lia)) as (_ & Hf & _).
    apply qu_esc; [lia|]. cbn [app]. constructor; [unfold plainc; lia|].
    apply Forall_app. split.
    + eapply Forall_impl; [|exact Hf]. exact lowhex_plain.
    + constructor; [unfold plainc; lia|constructor].
Qed.

Lemma unquote_quote_cedar_body : forall v, utf8_ok v = true ->
  unquote (flat_map quote_cedar_rune (runes v)) false = Some (v, []).
Proof.
  intros v Hv. pose proof (utf8_ok_nonneg v Hv) as Hnn. pose proof (utf8_ok_valid v Hv) as Hu.
  pose proof (runes_valid v Hnn Hu) as Hrv.
  pose proof (unquote_units false quote_cedar_rune (runes v) []) as H.
  rewrite app_nil_r in H. rewrite H.
  - rewrite runes_encode by assumption. reflexivity.
  - eapply Forall_impl; [|exact Hrv]. intros r Hr. apply (quote_cedar_rune_unit r Hr).
  - apply term_nil.
Qed.

Lemma rd_string : forall v s, utf8_ok v = true -> rd (quote_cedar v ++ s) = SOk (MkSt (mk_tok KString v) s).
Proof.
  intros v s Hv. pose proof (utf8_ok_nonneg v Hv) as Hnn. pose proof (utf8_ok_valid v Hv) as Hu.
  pose proof (runes_valid v Hnn Hu) as Hrv.
  unfold quote_cedar. rewrite <- !app_assoc. cbn [app].
  unfold rd, lex_next. cbn [length]. unfold lex_next_fuel. cbn [skip_ws]. cbv zeta.
  rewrite lx_peek_ascii by lia.
  change (is_space 34) with false. change (34 =? 47) with false. cbn [andb]. cbv iota.
  change (is_ident_start 34) with false. change (34 =? 34) with true. cbv iota.
  unfold scan_string. cbv zeta. rewrite lx_advance_ascii by lia.
  pose proof (scan_units quote_cedar_rune (runes v)) as H.
  specialize (H ltac:(eapply Forall_impl; [|exact Hrv]; intros r Hr; apply (quote_cedar_rune_unit r Hr))).
  specialize (H [] s (S (S (length (flat_map quote_cedar_rune (runes v) ++ 34 :: s)))) ltac:(lia)).
  cbn [app length] in H. rewrite H. rewrite unquote_quote_cedar_body by exact Hv. reflexivity.
Qed.

(* isValidIdent at the byte level *)
Lemma runes_of_ident : forall f s, (length s <= f)%nat -> forallb is_ident_continue (runes_of f s) = true -> runes_of f s = s.
Proof.
  induction f as [|f IH]; intros s Hl H.
  - destruct s; [reflexivity|cbn in Hl; lia].
  - destruct s as [|b t]; [reflexivity|]. cbn [runes_of] in *.
    destruct (decode_rune (b :: t)) as [ch w] eqn:E. cbn [forallb] in H. apply andb_true_iff in H. destruct H as [Hc H].
    pose proof (ident_continue_range ch Hc) as Hr.
    destruct (proj2 (decode_rune_first b t ch w E) ltac:(lia)) as [-> ->]. cbn [Nat.max skipn] in *.
    rewrite IH; [reflexivity| cbn [length] in Hl; lia | exact H].
Qed.

Lemma valid_ident_word : forall s, is_valid_ident s = true -> word s = true /\ is_reserved s = false.
Proof.
  intros s H. unfold is_valid_ident in H. destruct (runes s) as [|r rs] eqn:E; [discriminate|].
  apply andb_true_iff in H. destruct H as [H Hres]. apply andb_true_iff in H. destruct H as [Hr Hrs].
  apply negb_true_iff in Hres. split; [|exact Hres].
  assert (Hs : runes s = s).
  { unfold runes in *. apply runes_of_ident; [lia|]. rewrite E. cbn [forallb]. rewrite (ident_start_continue r Hr), Hrs. reflexivity. }
  rewrite Hs in E. subst s. cbn [word]. rewrite Hr, Hrs. reflexivity.
Qed.

(* strings.Split(path, "::") and its inverse *)
Definition dcs (cs : list str) : str := flat_map (fun c => dcolon ++ c) cs.

Lemma split_dcolon_spec : forall n s cur, (length s <= n)%nat ->
  exists c cs, split_dcolon s cur = c :: cs /\ c ++ dcs cs = cur ++ s.
Proof.
  induction n as [|n IH]; intros s cur Hl.
  - destruct s; [|cbn in Hl; lia]. exists cur, []. split; reflexivity.
  - destruct s as [|c r]; [exists cur, []; split; reflexivity|].
    destruct r as [|c2 r2].
    + cbn [split_dcolon]. exists (cur ++ [c]), []. split; [reflexivity|]. cbn [dcs flat_map]. rewrite !app_nil_r. reflexivity.
    + cbn [length] in Hl. cbn [split_dcolon]. destruct ((c =? 58) && (c2 =? 58)) eqn:E.
      * apply andb_true_iff in E. destruct E as [E1 E2]. apply Z.eqb_eq in E1, E2. subst c c2.
        destruct (IH r2 [] ltac:(lia)) as (c' & cs' & Hs & Hj). exists cur, (c' :: cs'). split; [rewrite Hs; reflexivity|].
        cbn [dcs flat_map]. fold (dcs cs'). rewrite <- app_assoc, Hj. reflexivity.
      * destruct (IH (c2 :: r2) (cur ++ [c]) ltac:(cbn [length]; lia)) as (c' & cs' & Hs & Hj).
        exists c', cs'. split; [exact Hs|]. rewrite Hj, <- app_assoc. reflexivity.
Qed.

Definition comps (r : str) : list str := split_dcolon r [].

Lemma comps_spec : forall r, exists c cs, comps r = c :: cs /\ c ++ dcs cs = r.
Proof. intros r. apply (split_dcolon_spec (length r) r [] (le_n _)). Qed.

Definition tk (st : pst) : ttype := k_type (p_tok st).

Lemma is_no : forall st K ks, In (tk st) ks -> forallb (fun k => negb (ttype_beq k K)) ks = true -> is st K = false.
Proof.
  intros st K ks Hin Hall. rewrite forallb_forall in Hall. specialize (Hall _ Hin). apply negb_true_iff in Hall. exact Hall.
Qed.

Lemma is_yes : forall st K, tk st = K -> is st K = true.
Proof. intros st K <-. unfold is, tk. destruct (k_type (p_tok st)); reflexivity. Qed.

Lemma rd_kw : forall (w : string) ty s, word (s_of w) = true -> (if is_reserved (s_of w) then KReserved else KIdent) = ty ->
  stopb s = true -> rd (s_of w ++ s) = SOk (MkSt (mk_tok ty (s_of w)) s).
Proof. intros w ty s Hw <- Hs. apply rd_word; assumption. Qed.

(* The parser never runs out of fuel.  [msr] is what is left to read: the unread bytes, plus one for a current token that is not
   EOF; [G st k r] says that the call [r] made in state [st] did not run out of fuel and, if it succeeded, read at least [k] of it.
   Every lemma asks for fuel 2 * msr st + c: a function needs the c of the functions it calls with the same fuel, and one more for
   each call it makes after decrementing the fuel without having read a token (a loop entered on the current token). *)
Definition msr (st : pst) : nat := (length (p_src st) + (if is st KEOF then 0 else 1))%nat.

Definition Gp (st : pst) (k : nat) (r : spres pst) : Prop :=
  match r with SFuel => False | SOk st' => (msr st' + k <= msr st)%nat | _ => True end.
Definition G {A : Type} (st : pst) (k : nat) (r : spres (A * pst)) : Prop :=
  match r with SFuel => False | SOk (_, st') => (msr st' + k <= msr st)%nat | _ => True end.

Definition Gs (r : spres x_schema) : Prop := match r with SFuel => False | _ => True end.

Lemma T_read : forall st, Gp st (if is st KEOF then 0 else 1) (read_token st).
Proof.
  intros st. unfold Gp, read_token.
  destruct (lex_next_stable _ _ (p_src st) (Nat.lt_succ_diag_r _) (Nat.lt_succ_diag_r _)) as [_ H]. fold (lex_next (p_src st)) in H.
  destruct (lex_next (p_src st)) as [[t s']| |]; [|exact I|exact H]. destruct H as [H1 H2].
  unfold msr. cbn [p_src p_tok]. unfold is at 1. cbn [p_tok].
  destruct (ttype_beq (k_type t) KEOF) eqn:E.
  - destruct (is st KEOF); lia.
  - assert (Hne : k_type t <> KEOF) by (intros Hk; rewrite Hk in E; discriminate). specialize (H2 Hne). destruct (is st KEOF); lia.
Qed.

Lemma is_tk_eq : forall st K, is st K = true -> k_type (p_tok st) = K.
Proof. intros st K H. unfold is in H. destruct (k_type (p_tok st)), K; try discriminate; reflexivity. Qed.

Lemma not_eof : forall st K, is st K = true -> K <> KEOF -> is st KEOF = false.
Proof. intros st K H Hne. apply is_tk_eq in H. unfold is. rewrite H. destruct K; try reflexivity. contradiction. Qed.

Local Notation "x <- e ;; f" := (sbind e (fun x => f)) (at level 61, e at next level, right associativity).
Local Notation "' p <- e ;; f" := (sbind e (fun p => f)) (at level 61, p pattern, e at next level, right associativity).

(* [use L n]: the goal starts with a call [e]; [L] is the totality lemma (or induction hypothesis) for it, whose side condition is
   a fuel bound or K <> KEOF.  Case on the result of [e]; [n] names the state it returns, and what [L] says of it is kept. *)
Local Ltac head_call X := match X with sbind ?e _ => head_call e | _ => X end.
Local Ltac use L n :=
  let F := fresh "F" in
  let e := match goal with |- G _ _ ?X => head_call X | |- Gp _ _ ?X => head_call X | |- Gs ?X => head_call X end in
  first [ eassert (F : G _ _ e) by (apply L; first [lia|discriminate]); revert F; destruct e as [[? n]| | |]
        | eassert (F : Gp _ _ e) by (apply L; first [lia|discriminate]); revert F; destruct e as [n| | |] ];
  cbn [G Gp Gs sbind]; intros F; try exact I; try contradiction.
(* [is st KEOF = false] from a positive test on the current token *)
Local Ltac eofc st :=
  match goal with
  | H : is st KEOF = false |- _ => idtac
  | H : is st ?K = true |- _ => assert (is st KEOF = false) by (apply (not_eof st K H); discriminate)
  end.
(* read a token from a state known not to be at EOF *)
Local Ltac rdne st n :=
  eofc st;
  let F := fresh "F" in
  pose proof (T_read st) as F;
  match goal with H : is st KEOF = false |- _ => rewrite H in F end;
  revert F; destruct (read_token st) as [n| | |]; cbn [Gp sbind]; intros F; try exact I; try contradiction.
Local Ltac fin := cbn [G Gp]; first [exact I | lia].

Lemma T_expect : forall K st, K <> KEOF -> Gp st 1 (expect K st).
Proof.
  intros K st HK. unfold expect. destruct (is st K) eqn:E; [|exact I].
  assert (is st KEOF = false) by (apply (not_eof st K E); exact HK). rdne st st1. fin.
Qed.

Lemma T_opt_comma : forall st, Gp st 0 (opt_comma st).
Proof. intros st. unfold opt_comma. destruct (is st KComma) eqn:E; [rdne st st1; fin|fin]. Qed.

Lemma or_not_eof : forall st K1 K2, is st K1 || is st K2 = true -> K1 <> KEOF -> K2 <> KEOF -> is st KEOF = false.
Proof. intros st K1 K2 H H1 H2. apply orb_true_iff in H. destruct H as [H|H]; [exact (not_eof st K1 H H1)|exact (not_eof st K2 H H2)]. Qed.

Lemma T_annots : forall fuel acc st, (2 * msr st + 1 <= fuel)%nat -> G st 0 (parse_annotations fuel acc st).
Proof.
  induction fuel as [|f IH]; intros acc st Hf; [lia|]. cbn [parse_annotations].
  destruct (is st KAt) eqn:EAt; cbn [negb]; [|fin]. rdne st st1.
  destruct (is st1 KIdent || is st1 KReserved) eqn:E1; cbn [negb]; [|fin].
  assert (is st1 KEOF = false) by (apply (or_not_eof st1 _ _ E1); discriminate). rdne st1 st2.
  destruct (is st2 KLParen) eqn:E2.
  - rdne st2 st3. destruct (is st3 KString) eqn:E3; cbn [negb]; [|fin]. rdne st3 st4.
    use T_expect st5. destruct (has_key (txt st1) acc); [fin|]. use IH st6. fin.
  - cbn [sbind]. destruct (has_key (txt st1) acc); [fin|]. use IH st3. fin.
Qed.

Lemma T_path_rest : forall fuel path st, (2 * msr st + 1 <= fuel)%nat -> G st 0 (path_rest fuel path st).
Proof.
  induction fuel as [|f IH]; intros path st Hf; [lia|]. cbn [path_rest].
  destruct (is st KDoubleColon) eqn:E; cbn [negb]; [|fin]. rdne st st1.
  destruct (is st1 KIdent) eqn:E1; cbn [negb]; [|fin]. rdne st1 st2. use IH st3. fin.
Qed.

Lemma pso_not_eof : forall st, path_start_ok st = true -> is st KEOF = false.
Proof.
  intros st H. unfold path_start_ok in H. apply orb_true_iff in H. destruct H as [H|H]; [exact (not_eof st _ H ltac:(discriminate))|].
  apply andb_true_iff in H. destruct H as [H _]. exact (not_eof st _ H ltac:(discriminate)).
Qed.

Lemma T_parse_path : forall fuel st, (2 * msr st + 1 <= fuel)%nat -> G st 1 (parse_path fuel st).
Proof.
  intros fuel st Hf. unfold parse_path. destruct (path_start_ok st) eqn:E; cbn [negb]; [|fin].
  pose proof (pso_not_eof st E). rdne st st1. use T_path_rest st2. fin.
Qed.

Lemma T_path_ref_rest : forall fuel path st, (2 * msr st + 1 <= fuel)%nat -> G st 0 (path_ref_rest fuel path st).
Proof.
  induction fuel as [|f IH]; intros path st Hf; [lia|]. cbn [path_ref_rest].
  destruct (is st KDoubleColon) eqn:E; cbn [negb]; [|fin]. rdne st st1.
  destruct (is st1 KString) eqn:E1; [rdne st1 st2; fin|].
  destruct (is st1 KIdent) eqn:E2; cbn [negb]; [|fin]. rdne st1 st2. use IH st3. fin.
Qed.

Lemma T_parse_path_for_ref : forall fuel st, (2 * msr st + 1 <= fuel)%nat -> G st 1 (parse_path_for_ref fuel st).
Proof.
  intros fuel st Hf. unfold parse_path_for_ref. destruct (path_start_ok st) eqn:E; cbn [negb]; [|fin].
  pose proof (pso_not_eof st E). rdne st st1. use T_path_ref_rest st2. fin.
Qed.

Lemma T_idents_rest : forall fuel acc st, (2 * msr st + 1 <= fuel)%nat -> G st 0 (idents_rest fuel acc st).
Proof.
  induction fuel as [|f IH]; intros acc st Hf; [lia|]. cbn [idents_rest].
  destruct (is st KComma) eqn:E; cbn [negb]; [|fin]. rdne st st1.
  destruct (is st1 KIdent) eqn:E1; cbn [negb]; [|fin]. rdne st1 st2. use IH st3. fin.
Qed.

Lemma T_parse_idents : forall fuel st, (2 * msr st + 1 <= fuel)%nat -> G st 1 (parse_idents fuel st).
Proof.
  intros fuel st Hf. unfold parse_idents. destruct (is st KIdent) eqn:E; cbn [negb]; [|fin].
  rdne st st1. use T_idents_rest st2. fin.
Qed.

Lemma T_parse_name : forall st, G st 1 (parse_name st).
Proof.
  intros st. unfold parse_name. destruct (is st KIdent || is st KReserved && kw st "__cedar" || is st KString) eqn:E; [|fin].
  assert (is st KEOF = false).
  { apply orb_true_iff in E. destruct E as [E|E]; [|exact (not_eof st _ E ltac:(discriminate))]. apply pso_not_eof. exact E. }
  rdne st st1. fin.
Qed.

Lemma T_names_rest : forall fuel acc st, (2 * msr st + 1 <= fuel)%nat -> G st 0 (names_rest fuel acc st).
Proof.
  induction fuel as [|f IH]; intros acc st Hf; [lia|]. cbn [names_rest].
  destruct (is st KComma) eqn:E; cbn [negb]; [|fin]. rdne st st1. use T_parse_name st2. use IH st3. fin.
Qed.

Lemma T_parse_names : forall fuel st, (2 * msr st + 1 <= fuel)%nat -> G st 1 (parse_names fuel st).
Proof.
  intros fuel st Hf. unfold parse_names. use T_parse_name st1. use T_names_rest st2. fin.
Qed.

Lemma T_etl : forall fuel acc st, (2 * msr st + 2 <= fuel)%nat -> G st 0 (entity_types_loop fuel acc st).
Proof.
  induction fuel as [|f IH]; intros acc st Hf; [lia|]. cbn [entity_types_loop].
  destruct (is st KRBracket) eqn:E; [rdne st st1; fin|]. use T_parse_path st1.
  destruct (is st1 KComma) eqn:E1.
  - rdne st1 st2. use IH st3. fin.
  - destruct (is st1 KRBracket); cbn [negb]; [|fin]. use IH st3. fin.
Qed.

Lemma T_parse_entity_types : forall fuel st, (2 * msr st + 2 <= fuel)%nat -> G st 1 (parse_entity_types fuel st).
Proof.
  intros fuel st Hf. unfold parse_entity_types. destruct (is st KLBracket) eqn:E.
  - rdne st st1. use T_etl st2. fin.
  - use T_parse_path st1. fin.
Qed.

Lemma T_parse_qual_name : forall fuel st, (2 * msr st + 1 <= fuel)%nat -> G st 1 (parse_qual_name fuel st).
Proof.
  intros fuel st Hf. unfold parse_qual_name. destruct (is st KString) eqn:E; [rdne st st1; fin|].
  pose proof (T_parse_path_for_ref fuel st Hf) as F. revert F.
  destruct (parse_path_for_ref fuel st) as [[[[path s] q] st1]| | |]; cbn [G sbind]; intros F; try exact I; try contradiction.
  destruct q; fin.
Qed.

Lemma T_apl : forall fuel acc st, (2 * msr st + 2 <= fuel)%nat -> G st 0 (action_parents_loop fuel acc st).
Proof.
  induction fuel as [|f IH]; intros acc st Hf; [lia|]. cbn [action_parents_loop].
  destruct (is st KRBracket) eqn:E; [rdne st st1; fin|]. use T_parse_qual_name st1.
  destruct (is st1 KComma) eqn:E1.
  - rdne st1 st2. use IH st3. fin.
  - destruct (is st1 KRBracket); cbn [negb]; [|fin]. use IH st3. fin.
Qed.

Lemma T_parse_action_parents : forall fuel st, (2 * msr st + 2 <= fuel)%nat -> G st 1 (parse_action_parents fuel st).
Proof.
  intros fuel st Hf. unfold parse_action_parents. destruct (is st KLBracket) eqn:E.
  - rdne st st1. use T_apl st2. fin.
  - use T_parse_qual_name st1. fin.
Qed.

Lemma T_types : forall fuel,
  (forall st, (2 * msr st + 2 <= fuel)%nat -> G st 1 (parse_type fuel st))
  /\ (forall st, (2 * msr st + 1 <= fuel)%nat -> G st 1 (parse_record_type fuel st))
  /\ (forall rec st, (2 * msr st + 2 <= fuel)%nat -> G st 0 (record_loop fuel rec st)).
Proof.
  induction fuel as [|f [IHt [IHr IHl]]]; [repeat split; intros; lia|]. repeat split.
  - intros st Hf. cbn [parse_type]. destruct (is st KLBrace) eqn:E.
    { use IHr st1. fin. }
    destruct (is st KIdent && kw st "Set") eqn:E1.
    + apply andb_true_iff in E1. destruct E1 as [E1 _]. rdne st st1. use T_expect st2. use IHt st3. use T_expect st4. fin.
    + use T_parse_path st1. fin.
  - intros st Hf. cbn [parse_record_type]. use T_expect st1. use IHl st2. fin.
  - intros rec st Hf. cbn [record_loop]. destruct (is st KRBrace) eqn:E; [rdne st st1; fin|].
    destruct (is st KEOF) eqn:E0; [fin|]. use T_annots st1. use T_parse_name st2.
    destruct (is st2 KQuestion) eqn:E2.
    + rdne st2 st3. use T_expect st4. use IHt st5. use T_opt_comma st6. use IHl st7. fin.
    + cbn [sbind]. use T_expect st4. use IHt st5. use T_opt_comma st6. use IHl st7. fin.
Qed.

Lemma T_parse_type : forall fuel st, (2 * msr st + 2 <= fuel)%nat -> G st 1 (parse_type fuel st).
Proof. intros fuel. apply (T_types fuel). Qed.
Lemma T_parse_record_type : forall fuel st, (2 * msr st + 1 <= fuel)%nat -> G st 1 (parse_record_type fuel st).
Proof. intros fuel. apply (T_types fuel). Qed.

Lemma T_applies_loop : forall fuel pr rs cx st, (2 * msr st + 1 <= fuel)%nat -> G st 0 (applies_loop fuel pr rs cx st).
Proof.
  induction fuel as [|f IH]; intros pr rs cx st Hf; [lia|]. cbn [applies_loop].
  destruct (is st KRBrace) eqn:E.
  { destruct pr; [|fin]. destruct rs; [|fin]. rdne st st1. fin. }
  destruct (is st KEOF) eqn:E0; [fin|]. destruct (is st KIdent) eqn:E1; cbn [negb]; [|fin].
  destruct (kw st "principal").
  { destruct pr; [fin|]. rdne st st1. use T_expect st2. use T_parse_entity_types st3.
    match goal with |- G _ _ (match ?l with [] => _ | _ :: _ => _ end) => destruct l end; [fin|]. use T_opt_comma st4. use IH st5. fin. }
  destruct (kw st "resource").
  { destruct rs; [fin|]. rdne st st1. use T_expect st2. use T_parse_entity_types st3.
    match goal with |- G _ _ (match ?l with [] => _ | _ :: _ => _ end) => destruct l end; [fin|]. use T_opt_comma st4. use IH st5. fin. }
  destruct (kw st "context"); [|fin].
  destruct cx; [fin|]. rdne st st1. use T_expect st2. use T_parse_type st3. use T_opt_comma st4. use IH st5. fin.
Qed.

Lemma T_parse_applies_to : forall fuel st, (2 * msr st + 1 <= fuel)%nat -> G st 1 (parse_applies_to fuel st).
Proof.
  intros fuel st Hf. unfold parse_applies_to. use T_expect st1. use T_applies_loop st2. fin.
Qed.

Lemma T_enum_values_loop : forall fuel acc st, (2 * msr st + 1 <= fuel)%nat -> G st 0 (enum_values_loop fuel acc st).
Proof.
  induction fuel as [|f IH]; intros acc st Hf; [lia|]. cbn [enum_values_loop].
  destruct (is st KRBracket) eqn:E; [rdne st st1; fin|].
  destruct (is st KString) eqn:E1; cbn [negb]; [|fin]. rdne st st1.
  destruct (is st1 KComma) eqn:E2.
  - rdne st1 st2. use IH st3. fin.
  - destruct (is st1 KRBracket); cbn [negb]; [|fin]. use IH st3. fin.
Qed.

Lemma T_parse_enum_entity : forall fuel an names n st, (2 * msr st + 1 <= fuel)%nat -> G st 1 (parse_enum_entity fuel an names n st).
Proof.
  intros fuel an names n st Hf. unfold parse_enum_entity. use T_expect st1. use T_enum_values_loop st2. use T_expect st3.
  match goal with |- G _ _ (match ?x with Some _ => _ | None => _ end) => destruct x end; fin.
Qed.

(* the optional parts of an entity and of an action declaration, as functions of their own *)
Definition frag_in (fuel : nat) (st1 : pst) : spres (list str * pst) :=
  if is st1 KReserved && kw st1 "in" then (st2 <- read_token st1 ;; parse_entity_types fuel st2) else SOk ([], st1).
Definition frag_shape (fuel : nat) (st2 : pst) : spres (option xrec * pst) :=
  if is st2 KEquals then st3 <- read_token st2 ;; ' (fs, st4) <- parse_record_type fuel st3 ;; SOk (Some fs, st4)
  else if is st2 KLBrace then ' (fs, st4) <- parse_record_type fuel st2 ;; SOk (Some fs, st4)
  else SOk (None, st2).
Definition frag_tags (fuel : nat) (st3 : pst) : spres (option xty * pst) :=
  if is st3 KIdent && kw st3 "tags" then st4 <- read_token st3 ;; ' (t, st5) <- parse_type fuel st4 ;; SOk (Some t, st5)
  else SOk (None, st3).

Lemma parse_entity_eq : forall fuel an n st,
  parse_entity fuel an n st =
  (' (names, st1) <- parse_idents fuel st ;;
   if is st1 KIdent && kw st1 "enum" then (st2 <- read_token st1 ;; parse_enum_entity fuel an names n st2) else
   ' (member_of, st2) <- frag_in fuel st1 ;;
   ' (shape, st3) <- frag_shape fuel st2 ;;
   ' (tags, st4) <- frag_tags fuel st3 ;;
   st5 <- expect KSemicolon st4 ;;
   match add_entities names {| xe_annots := an; xe_parents := member_of; xe_shape := shape; xe_tags := tags |} n with
   | Some n' => SOk (n', st5)
   | None => SErr
   end).
Proof. reflexivity. Qed.

Definition frag_ain (fuel : nat) (st1 : pst) : spres (list (str * str) * pst) :=
  if is st1 KReserved && kw st1 "in" then (st2 <- read_token st1 ;; parse_action_parents fuel st2) else SOk ([], st1).
Definition frag_applies (fuel : nat) (st2 : pst) : spres (option x_applies * pst) :=
  if is st2 KIdent && kw st2 "appliesTo" then
    st3 <- read_token st2 ;; ' (at_, st4) <- parse_applies_to fuel st3 ;; SOk (Some at_, st4)
  else SOk (None, st2).
Definition frag_attrs (st3 : pst) : spres pst :=
  if is st3 KIdent && kw st3 "attributes" then
    st4 <- read_token st3 ;; st5 <- expect KLBrace st4 ;; expect KRBrace st5
  else SOk st3.

Lemma parse_action_eq : forall fuel an n st,
  parse_action fuel an n st =
  (' (names, st1) <- parse_names fuel st ;;
   ' (member_of, st2) <- frag_ain fuel st1 ;;
   ' (applies, st3) <- frag_applies fuel st2 ;;
   st4 <- frag_attrs st3 ;;
   st5 <- expect KSemicolon st4 ;;
   match add_actions names {| xac_annots := an; xac_parents := member_of; xac_applies := applies |} n with
   | Some n' => SOk (n', st5)
   | None => SErr
   end).
Proof. reflexivity. Qed.

Lemma T_frag_in : forall fuel st, (2 * msr st + 2 <= fuel)%nat -> G st 0 (frag_in fuel st).
Proof.
  intros fuel st Hf. unfold frag_in. destruct (is st KReserved && kw st "in") eqn:E; [|fin].
  apply andb_true_iff in E. destruct E as [E _]. rdne st st1. use T_parse_entity_types st2. fin.
Qed.

Lemma T_frag_shape : forall fuel st, (2 * msr st + 1 <= fuel)%nat -> G st 0 (frag_shape fuel st).
Proof.
  intros fuel st Hf. unfold frag_shape. destruct (is st KEquals) eqn:E.
  - rdne st st1. use T_parse_record_type st2. fin.
  - destruct (is st KLBrace); [|fin]. use T_parse_record_type st2. fin.
Qed.

Lemma T_frag_tags : forall fuel st, (2 * msr st + 2 <= fuel)%nat -> G st 0 (frag_tags fuel st).
Proof.
  intros fuel st Hf. unfold frag_tags. destruct (is st KIdent && kw st "tags") eqn:E; [|fin].
  apply andb_true_iff in E. destruct E as [E _]. rdne st st1. use T_parse_type st2. fin.
Qed.

Lemma T_parse_entity : forall fuel an n st, (2 * msr st + 2 <= fuel)%nat -> G st 1 (parse_entity fuel an n st).
Proof.
  intros fuel an n st Hf. rewrite parse_entity_eq. use T_parse_idents st1.
  destruct (is st1 KIdent && kw st1 "enum") eqn:E.
  { apply andb_true_iff in E. destruct E as [E _]. rdne st1 st2. use T_parse_enum_entity st3. fin. }
  use T_frag_in st2. use T_frag_shape st3. use T_frag_tags st4. use T_expect st5.
  match goal with |- G _ _ (match ?x with Some _ => _ | None => _ end) => destruct x end; fin.
Qed.

Lemma T_frag_ain : forall fuel st, (2 * msr st + 2 <= fuel)%nat -> G st 0 (frag_ain fuel st).
Proof.
  intros fuel st Hf. unfold frag_ain. destruct (is st KReserved && kw st "in") eqn:E; [|fin].
  apply andb_true_iff in E. destruct E as [E _]. rdne st st1. use T_parse_action_parents st2. fin.
Qed.

Lemma T_frag_applies : forall fuel st, (2 * msr st + 1 <= fuel)%nat -> G st 0 (frag_applies fuel st).
Proof.
  intros fuel st Hf. unfold frag_applies. destruct (is st KIdent && kw st "appliesTo") eqn:E; [|fin].
  apply andb_true_iff in E. destruct E as [E _]. rdne st st1. use T_parse_applies_to st2. fin.
Qed.

Lemma T_frag_attrs : forall st, Gp st 0 (frag_attrs st).
Proof.
  intros st. unfold frag_attrs. destruct (is st KIdent && kw st "attributes") eqn:E; [|fin].
  apply andb_true_iff in E. destruct E as [E _]. rdne st st1. use T_expect st2. use T_expect st3. fin.
Qed.

Lemma T_parse_action : forall fuel an n st, (2 * msr st + 2 <= fuel)%nat -> G st 1 (parse_action fuel an n st).
Proof.
  intros fuel an n st Hf. rewrite parse_action_eq. use T_parse_names st1. use T_frag_ain st2. use T_frag_applies st3. use T_frag_attrs st4.
  use T_expect st5.
  match goal with |- G _ _ (match ?x with Some _ => _ | None => _ end) => destruct x end; fin.
Qed.

Lemma T_parse_type_decl : forall fuel an n st, (2 * msr st + 2 <= fuel)%nat -> G st 1 (parse_type_decl fuel an n st).
Proof.
  intros fuel an n st Hf. unfold parse_type_decl. destruct (is st KIdent) eqn:E; cbn [negb]; [|fin].
  destruct (is_reserved_type_name (txt st)); [fin|]. rdne st st1. use T_expect st2. use T_parse_type st3. use T_expect st4.
  destruct (has_key (txt st) (xs_commons n)); fin.
Qed.

Lemma T_parse_decl : forall fuel an n st, (2 * msr st + 2 <= fuel)%nat -> G st 1 (parse_decl fuel an n st).
Proof.
  intros fuel an n st Hf. unfold parse_decl. destruct (is st KIdent) eqn:E; cbn [negb]; [|fin].
  destruct (kw st "entity"); [rdne st st1; use T_parse_entity st2; fin|].
  destruct (kw st "action"); [rdne st st1; use T_parse_action st2; fin|].
  destruct (kw st "type"); [rdne st st1; use T_parse_type_decl st2; fin|fin].
Qed.

Lemma T_namespace_loop : forall fuel inner st, (2 * msr st + 3 <= fuel)%nat -> G st 0 (namespace_loop fuel inner st).
Proof.
  induction fuel as [|f IH]; intros inner st Hf; [lia|]. cbn [namespace_loop].
  destruct (is st KRBrace) eqn:E; [rdne st st1; fin|]. destruct (is st KEOF) eqn:E0; [fin|]. use T_annots st1. use T_parse_decl st2.
  use IH st3. fin.
Qed.

Lemma T_parse_namespace : forall fuel an st, (2 * msr st + 3 <= fuel)%nat -> G st 1 (parse_namespace fuel an st).
Proof.
  intros fuel an st Hf. unfold parse_namespace. use T_parse_path st1.
  match goal with |- G _ _ (if ?c then _ else _) => destruct c end; [fin|]. use T_expect st2. use T_namespace_loop st3. fin.
Qed.

Lemma T_schema_loop : forall fuel bare nss st, (2 * msr st + 3 <= fuel)%nat -> Gs (schema_loop fuel bare nss st).
Proof.
  induction fuel as [|f IH]; intros bare nss st Hf; [lia|]. cbn [schema_loop].
  destruct (is st KEOF) eqn:E0; [exact I|]. use T_annots st1.
  destruct (is st1 KIdent && kw st1 "namespace") eqn:E1.
  - apply andb_true_iff in E1. destruct E1 as [E1 _]. rdne st1 st2. use T_parse_namespace st3.
    match goal with |- Gs (match ?p with pair _ _ => _ end) => destruct p as [name ns] end.
    destruct (has_key name nss); [exact I|]. apply IH. lia.
  - use T_parse_decl st2. apply IH. lia.
Qed.

(* C10 for the schema text parser: the fuel handed out by ParseSchema is always enough *)
Theorem parse_schema_total : forall src, parse_schema src <> SFuel.
Proof.
  intros src. unfold parse_schema.
  pose proof (T_read {| p_tok := mk_tok KEOF []; p_src := src |}) as F. revert F.
  destruct (read_token {| p_tok := mk_tok KEOF []; p_src := src |}) as [st| | |]; cbn [Gp sbind]; intros F; try discriminate; try contradiction.
  unfold msr at 2 in F. cbn [p_src p_tok is k_type mk_tok ttype_beq] in F.
  pose proof (T_schema_loop (parse_schema_fuel (length src)) empty_ns [] st ltac:(unfold parse_schema_fuel; lia)) as H.
  intros E. rewrite E in H. exact H.
Qed.


Print Assumptions parse_schema_total.
