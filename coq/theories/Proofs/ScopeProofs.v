(* C03, last clause: the scope forms agree with the operator.
   The authorizer evaluates a scope through the expression `scope_expr x s` (compile.go scopeToNode: `x == E`, `x in E`, `x in [..]`,
   `x is T`, `x is T in E`) with the ordinary evaluator; the partial evaluator / batch authorizer decides the same scopes directly
   (partial.go partialScopeEval = Impl/Partial.v scope_holds).  Both are the reachability relation of C03. *)
From Coq Require Import ZArith List Bool.
Import ListNotations.
From Cedar Require Import Lang.Value Lang.Expr Impl.InSearch Impl.Eval Impl.Partial Proofs.ValueProofs Proofs.InSearchProofs.

Definition ent (u : uid) : value := VEntity (fst u) (snd u).

Lemma veq_ent t i u : veq (VEntity t i) (ent u) = uid_eqb (t, i) u.
Proof. destruct u as [t' i']. reflexivity. Qed.

Lemma ent_inj u v : ent u = ent v -> u = v.
Proof. destruct u, v. unfold ent. cbn [fst snd]. intros H. injection H as -> ->. reflexivity. Qed.

Lemma all_entities_ents : forall l : list value, (forall x, In x l -> exists u, x = ent u) ->
  exists us, all_entities l = Some us /\ (forall u, In u us <-> In (ent u) l).
Proof.
  induction l as [|x l IH]; intros H.
  - exists []. split; [reflexivity|]. intros u; split; intros [].
  - destruct (H x (or_introl eq_refl)) as ([t i] & ->).
    destruct (IH (fun y Hy => H y (or_intror Hy))) as (us & E & Hm).
    exists ((t, i) :: us). split.
    + unfold ent. cbn [fst snd all_entities]. rewrite E. reflexivity.
    + intros u. cbn [In]. rewrite Hm. split; (intros [Heq|Hin]; [left|right; exact Hin]).
      * rewrite Heq. reflexivity.
      * apply (ent_inj (t, i) u Heq).
Qed.

(* de-duplication goes by veq, which on entity values is equality *)
Lemma dedup_ent_members us : forall u, In (ent u) (dedup (map ent us) []) <-> In u us.
Proof.
  intros u. split.
  - intros H. apply dedup_incl in H. destruct H as [H|[]].
    apply in_map_iff in H. destruct H as (v & E & Hv). apply ent_inj in E. subst. exact Hv.
  - intros H. assert (Hm : vmem (ent u) (dedup (map ent us) []) = true).
    { rewrite mk_set_vmem. apply vmem_true_iff. exists (ent u). split; [apply in_map; exact H | apply veq_refl]. }
    apply vmem_true_iff in Hm. destruct Hm as (y & Hy & E).
    pose proof (dedup_incl _ _ _ Hy) as [Hy'|[]]. apply in_map_iff in Hy'. destruct Hy' as (v & <- & _).
    destruct u as [t i]. unfold ent at 1 in E. cbn [fst snd] in E. rewrite veq_ent in E.
    apply uid_eqb_eq in E. subst. exact Hy.
Qed.

(* the scope expression, evaluated by the ordinary evaluator, is the direct scope test of the partial evaluator *)
Theorem scope_expr_eval : forall en x t i s,
  var_value en x = VEntity t i ->
  eval en (scope_expr x s) = Ok (VBool (scope_holds (e_store en) (t, i) s)).
Proof.
  intros en x t i s Hx. destruct s as [|u|u|us|ty|ty u]; cbn [scope_expr scope_holds eval].
  - reflexivity.
  - rewrite Hx. cbn [bindr]. unfold vbool. change (VEntity (fst u) (snd u)) with (ent u). rewrite veq_ent. reflexivity.
  - rewrite Hx. cbn [bindr as_entity do_in]. destruct (eval_in_one_correct (e_store en) (t, i) u) as (r & E & _).
    destruct u as [t' i']. cbn [fst snd]. rewrite E. reflexivity.
  - rewrite Hx. unfold mk_set. cbn [eval bindr as_entity do_in].
    change (map (fun u : str * str => VEntity (fst u) (snd u)) us) with (map ent us).
    destruct (all_entities_ents (dedup (map ent us) [])) as (us' & -> & Hm).
    { intros y Hy. apply dedup_incl in Hy. destruct Hy as [Hy|[]].
      apply in_map_iff in Hy. destruct Hy as (v & <- & _). exists v. reflexivity. }
    rewrite (same_decision _ _ _ _ (eval_in_set_correct (e_store en) (t, i) us')
                                   (eval_in_set_correct (e_store en) (t, i) us)).
    + destruct (eval_in_set_correct (e_store en) (t, i) us) as (r & -> & _). reflexivity.
    + setoid_rewrite Hm. setoid_rewrite dedup_ent_members. reflexivity.
  - rewrite Hx. reflexivity.
  - rewrite Hx. cbn [bindr as_entity fst]. destruct (str_eqb t ty) eqn:Et; cbn [negb andb]; [|reflexivity].
    cbn [bindr do_in]. destruct (eval_in_one_correct (e_store en) (t, i) u) as (r & E & _).
    destruct u as [t' i']. cbn [fst snd]. rewrite E. reflexivity.
Qed.

(* ... and both are reachability *)
Theorem scope_holds_spec : forall (st : store) a s,
  scope_holds st a s = true <->
  match s with
  | SAll => True
  | SEq u => a = u
  | SIn u => reach_st st a u
  | SInSet us => exists b, In b us /\ reach_st st a b
  | SIs ty => fst a = ty
  | SIsIn ty u => fst a = ty /\ reach_st st a u
  end.
Proof.
  intros st a s. destruct s as [|u|u|us|ty|ty u]; cbn [scope_holds].
  - tauto.
  - apply uid_eqb_eq.
  - destruct (eval_in_one_correct st a u) as (r & E & H). rewrite E. exact H.
  - destruct (eval_in_set_correct st a us) as (r & E & H). rewrite E. exact H.
  - apply str_eqb_eq.
  - rewrite andb_true_iff, str_eqb_eq. destruct (eval_in_one_correct st a u) as (r & E & H). rewrite E. rewrite H. tauto.
Qed.

Print Assumptions scope_expr_eval.
Print Assumptions scope_holds_spec.
