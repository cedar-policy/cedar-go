(* Facts about the byte-string helpers of Impl/Text.v: decimal numerals ([digits_val_acc], [digits_of],
   [print_nat], [print_padded], [parse_digits], [parse_signed]), searching and counting in a string,
   and the tests against a truncated quotient that Go's overflow guards are written with. *)
From Coq Require Import ZArith List Bool Lia.
Import ListNotations.
From Cedar Require Import Lang.Value Impl.Text.
Local Open Scope Z_scope.

(** * [is_digit], [digits_val_acc], [parse_digits] *)

Notation all_digits := (Forall (fun c => is_digit c = true)).

Lemma is_digit_range c : is_digit c = true <-> 48 <= c <= 57.
Proof. unfold is_digit. rewrite andb_true_iff, !Z.leb_le. tauto. Qed.

Lemma digits_val_acc_app : forall a b acc,
  digits_val_acc (a ++ b) acc =
  match digits_val_acc a acc with Some v => digits_val_acc b v | None => None end.
Proof.
  induction a as [|c a IH]; intros b acc; cbn [app digits_val_acc]; [reflexivity|].
  destruct (is_digit c); [apply IH|reflexivity].
Qed.

(* a successful [digits_val_acc] means all characters are digits and bounds the value *)
Lemma digits_val_acc_bound : forall s acc v, digits_val_acc s acc = Some v ->
  all_digits s /\
  acc * 10 ^ Z.of_nat (length s) <= v < (acc + 1) * 10 ^ Z.of_nat (length s).
Proof.
  induction s as [|c s IH]; intros acc v H; cbn [digits_val_acc] in H.
  - injection H as <-. split; [constructor|]. change (10 ^ Z.of_nat (length (@nil Z))) with 1. lia.
  - destruct (is_digit c) eqn:Hc; [|discriminate].
    destruct (IH _ _ H) as [Hall Hb]. split; [constructor; assumption|].
    apply is_digit_range in Hc. unfold digit_val in Hb.
    cbn [length]. rewrite Nat2Z.inj_succ, Z.pow_succ_r by lia.
    set (P := 10 ^ Z.of_nat (length s)) in *.
    assert (HP : 0 < P) by (apply Z.pow_pos_nonneg; lia).
    nia.
Qed.

Lemma digits_val_acc_zeros : forall n acc,
  digits_val_acc (repeat 48 n) acc = Some (acc * 10 ^ Z.of_nat n).
Proof.
  induction n as [|n IH]; intros acc.
  - cbn [repeat digits_val_acc]. change (10 ^ Z.of_nat 0) with 1. f_equal; lia.
  - cbn [repeat digits_val_acc]. change (is_digit 48) with true. cbv iota.
    rewrite IH. unfold digit_val. rewrite Nat2Z.inj_succ, Z.pow_succ_r by lia. f_equal; ring.
Qed.

Lemma all_digits_repeat n : all_digits (repeat 48 n).
Proof. induction n as [|n IH]; cbn [repeat]; constructor; [reflexivity|assumption]. Qed.

Lemma parse_digits_nonempty s : s <> [] -> parse_digits s = digits_val_acc s 0.
Proof. destruct s; [congruence|reflexivity]. Qed.

Lemma parse_digits_some s v : parse_digits s = Some v -> s <> [] /\ digits_val_acc s 0 = Some v.
Proof. destruct s; [discriminate|]. intros H; split; [discriminate|exact H]. Qed.

Lemma parse_digits_all_digits s v : parse_digits s = Some v -> s <> [] /\ all_digits s.
Proof.
  intros H. apply parse_digits_some in H. destruct H as [Hne H].
  apply digits_val_acc_bound in H. tauto.
Qed.

(** * [digits_of] with explicit fuel *)

Lemma digits_of_S : forall f z acc,
  digits_of (S f) z acc = if z <? 10 then (48 + z mod 10) :: acc else digits_of f (z / 10) ((48 + z mod 10) :: acc).
Proof. reflexivity. Qed.

Lemma digits_of_acc : forall f z acc, digits_of f z acc = digits_of f z [] ++ acc.
Proof.
  induction f as [|f IH]; intros z acc; cbn [digits_of]; [reflexivity|].
  destruct (z <? 10); [reflexivity|].
  rewrite (IH (z / 10) (_ :: acc)), (IH (z / 10) [_]), <- app_assoc. reflexivity.
Qed.

Lemma digits_of_nonempty f z acc : digits_of (S f) z acc <> [].
Proof.
  cbn [digits_of]. destruct (z <? 10); [discriminate|].
  rewrite digits_of_acc. intros H. apply app_eq_nil in H. destruct H as [_ H]; discriminate.
Qed.

Lemma digits_of_digits : forall f z acc, all_digits acc -> all_digits (digits_of f z acc).
Proof.
  induction f as [|f IH]; intros z acc H; cbn [digits_of]; [exact H|].
  assert (Hc : is_digit (48 + z mod 10) = true).
  { apply is_digit_range. pose proof (Z.mod_pos_bound z 10 ltac:(lia)). lia. }
  destruct (z <? 10); [|apply IH]; constructor; assumption.
Qed.

Lemma digits_of_val : forall f z, 0 <= z < 10 ^ Z.of_nat f ->
  digits_val_acc (digits_of f z []) 0 = Some z.
Proof.
  induction f as [|f IH]; intros z Hz.
  - change (10 ^ Z.of_nat 0) with 1 in Hz. cbn [digits_of digits_val_acc]. f_equal; lia.
  - rewrite Nat2Z.inj_succ, Z.pow_succ_r in Hz by lia.
    cbn [digits_of].
    pose proof (Z.mod_pos_bound z 10 ltac:(lia)) as Hm.
    pose proof (Z.div_mod z 10 ltac:(lia)) as Hdm.
    assert (Hc : is_digit (48 + z mod 10) = true) by (apply is_digit_range; lia).
    destruct (Z.ltb_spec z 10) as [Hlt|Hge].
    + cbn [digits_val_acc]. rewrite Hc. unfold digit_val. f_equal.
      rewrite Z.mod_small by lia. lia.
    + rewrite digits_of_acc, digits_val_acc_app, IH.
      * cbn [digits_val_acc]. rewrite Hc. unfold digit_val. f_equal. lia.
      * split; [apply Z.div_pos; lia | apply Z.div_lt_upper_bound; lia].
Qed.

Lemma digits_of_length : forall f k z acc, 0 <= z < 10 ^ Z.of_nat k -> (1 <= k)%nat ->
  (length (digits_of f z acc) <= k + length acc)%nat.
Proof.
  induction f as [|f IH]; intros k z acc Hz Hk; cbn [digits_of]; [lia|].
  destruct (Z.ltb_spec z 10) as [Hlt|Hge]; [cbn [length]; lia|].
  destruct k as [|k]; [lia|].
  rewrite Nat2Z.inj_succ, Z.pow_succ_r in Hz by lia.
  destruct k as [|k]; [change (10 ^ Z.of_nat 0) with 1 in Hz; lia|].
  specialize (IH (S k) (z / 10) ((48 + z mod 10) :: acc)). cbn [length] in IH.
  assert (0 <= z / 10 < 10 ^ Z.of_nat (S k)).
  { split; [apply Z.div_pos; lia | apply Z.div_lt_upper_bound; lia]. }
  lia.
Qed.

Lemma digits_of_hd : forall f z acc, 0 < z < 10 ^ Z.of_nat f -> hd 0 (digits_of f z acc) <> 48.
Proof.
  induction f as [|f IH]; intros z acc Hz.
  - change (10 ^ Z.of_nat 0) with 1 in Hz. lia.
  - rewrite Nat2Z.inj_succ, Z.pow_succ_r in Hz by lia.
    cbn [digits_of].
    destruct (Z.ltb_spec z 10) as [Hlt|Hge].
    + cbn [hd]. rewrite Z.mod_small by lia. lia.
    + apply IH. split; [apply Z.div_str_pos; lia | apply Z.div_lt_upper_bound; lia].
Qed.

(** * [print_nat], [print_padded] *)

(* print_nat runs digits_of with fuel 40, one unit per digit: hence the bound 10^40 (far above 2^64) in what follows *)
Lemma pow40 : 10 ^ 40 = 10 ^ Z.of_nat 40.
Proof. reflexivity. Qed.

Lemma print_nat_all_digits : forall z, all_digits (print_nat z).
Proof. intros z. unfold print_nat. apply digits_of_digits. constructor. Qed.

(* whatever holds of the ten digits holds of every character of a numeral *)
Lemma print_nat_Forall : forall (P : Z -> Prop) z, (forall c, 48 <= c <= 57 -> P c) -> Forall P (print_nat z).
Proof.
  intros P z HP. eapply Forall_impl; [|apply print_nat_all_digits].
  intros c Hc. apply HP, is_digit_range, Hc.
Qed.

Lemma print_nat_nonempty : forall z, print_nat z <> [].
Proof. intros z. unfold print_nat. apply digits_of_nonempty. Qed.

Lemma parse_print_nat : forall z, 0 <= z < 10 ^ 40 -> parse_digits (print_nat z) = Some z.
Proof.
  intros z Hz. rewrite parse_digits_nonempty by apply print_nat_nonempty.
  unfold print_nat. apply digits_of_val. rewrite <- pow40. exact Hz.
Qed.

Lemma print_nat_length : forall z k, 0 <= z < 10 ^ (Z.of_nat k) -> (1 <= k <= 40)%nat ->
  (length (print_nat z) <= k)%nat.
Proof.
  intros z k Hz Hk. unfold print_nat.
  pose proof (digits_of_length 40 k z [] Hz ltac:(lia)) as H. cbn [length] in H. lia.
Qed.

Lemma pow_le_40 k : (k <= 40)%nat -> 10 ^ Z.of_nat k <= 10 ^ 40.
Proof. intros Hk. rewrite pow40. apply Z.pow_le_mono_r; lia. Qed.

Lemma parse_print_padded : forall w z, 0 <= z < 10 ^ (Z.of_nat w) -> (1 <= w <= 40)%nat ->
  length (print_padded w z) = w /\ parse_digits (print_padded w z) = Some z /\
  Forall (fun c => is_digit c = true) (print_padded w z).
Proof.
  intros w z Hz Hw.
  assert (Hz40 : 0 <= z < 10 ^ 40) by (pose proof (pow_le_40 w ltac:(lia)); lia).
  pose proof (print_nat_length z w Hz Hw) as Hlen.
  pose proof (print_nat_all_digits z) as Hdig. pose proof (print_nat_nonempty z) as Hne.
  pose proof (parse_print_nat z Hz40) as Hp.
  unfold print_padded. cbv zeta. split; [|split].
  - rewrite app_length, repeat_length. lia.
  - rewrite parse_digits_nonempty.
    + rewrite digits_val_acc_app, digits_val_acc_zeros. rewrite Z.mul_0_l.
      rewrite <- parse_digits_nonempty by exact Hne. exact Hp.
    + intros H. apply app_eq_nil in H. destruct H as [_ H]. exact (Hne H).
  - apply Forall_app. split; [apply all_digits_repeat | exact Hdig].
Qed.

Lemma print_nat_no_leading_zero : forall z, 0 < z < 10 ^ 40 -> hd 0 (print_nat z) <> 48.
Proof. intros z Hz. unfold print_nat. apply digits_of_hd. rewrite <- pow40. exact Hz. Qed.

(** * small list / search helpers *)

Lemma all_digits_hd l : all_digits l -> l <> [] ->
  exists c r, l = c :: r /\ is_digit c = true /\ all_digits r.
Proof.
  intros H Hne. destruct l as [|c r]; [congruence|]. inversion H; subst. eauto.
Qed.

Lemma all_digits_not_in c l : all_digits l -> is_digit c = false -> ~ In c l.
Proof.
  intros H Hc Hin. rewrite Forall_forall in H. apply H in Hin. congruence.
Qed.

Lemma index_of_app c pre r : ~ In c pre -> index_of c (pre ++ c :: r) = Some (length pre).
Proof.
  induction pre as [|x pre IH]; intros Hni; cbn [app index_of length].
  - rewrite Z.eqb_refl. reflexivity.
  - destruct (Z.eqb_spec x c) as [->|Hne]; [exfalso; apply Hni; left; reflexivity|].
    rewrite IH by (intros Hin; apply Hni; right; exact Hin). reflexivity.
Qed.

Lemma index_of_split : forall c s i, index_of c s = Some i ->
  s = firstn i s ++ c :: skipn (S i) s.
Proof.
  induction s as [|x s IH]; intros i H; cbn [index_of] in H; [discriminate|].
  destruct (Z.eqb_spec x c) as [->|Hne].
  - injection H as <-. reflexivity.
  - destruct (index_of c s) as [j|] eqn:Hj; [|discriminate].
    cbn [option_map] in H. injection H as <-.
    cbn [firstn skipn app]. f_equal. apply IH. reflexivity.
Qed.

Lemma firstn_app_exact {A} (a b : list A) : firstn (length a) (a ++ b) = a.
Proof. induction a as [|x a IH]; cbn [length firstn app]; [destruct b; reflexivity | f_equal; exact IH]. Qed.

Lemma skipn_app_exact {A} (a : list A) x b : skipn (S (length a)) (a ++ x :: b) = b.
Proof. induction a as [|y a IH]; cbn [length app]; [reflexivity | exact IH]. Qed.

Lemma rev_repeat {A} (x : A) n : rev (repeat x n) = repeat x n.
Proof. induction n as [|n IH]; cbn [repeat rev]; [reflexivity | rewrite IH; symmetry; apply repeat_cons]. Qed.

(** * [count_of], [last_index_of] *)

Lemma count_of_app : forall c l1 l2, count_of c (l1 ++ l2) = count_of c l1 + count_of c l2.
Proof. intros c l1 l2. induction l1 as [|x r IH]; cbn [app count_of]; [reflexivity|]. rewrite IH. lia. Qed.

Lemma count_of_zero : forall c l, Forall (fun x => x <> c) l -> count_of c l = 0.
Proof.
  intros c l H. induction H as [|x r Hx Hr IH]; cbn [count_of]; [reflexivity|].
  destruct (Z.eqb_spec x c) as [E|E]; [contradiction|]. rewrite IH. reflexivity.
Qed.

Lemma count_of_nonneg : forall c l, 0 <= count_of c l.
Proof. intros c l. induction l as [|x l IH]; cbn [count_of]; [lia|]. destruct (x =? c); lia. Qed.

Lemma count_of_app_le : forall c l r, count_of c l <= count_of c (l ++ r) /\ count_of c r <= count_of c (l ++ r).
Proof.
  intros c l r. rewrite count_of_app. pose proof (count_of_nonneg c l). pose proof (count_of_nonneg c r). lia.
Qed.

Lemma count_of_twice : forall c l1 l2 l3, 2 <= count_of c (l1 ++ c :: l2 ++ c :: l3).
Proof.
  intros c l1 l2 l3. rewrite count_of_app. cbn [count_of]. rewrite count_of_app. cbn [count_of].
  rewrite Z.eqb_refl.
  pose proof (count_of_nonneg c l1). pose proof (count_of_nonneg c l2). pose proof (count_of_nonneg c l3). lia.
Qed.

Lemma last_index_of_none : forall c l, Forall (fun x => x <> c) l -> last_index_of c l = None.
Proof.
  intros c l H. induction H as [|x r Hx Hr IH]; cbn [last_index_of]; [reflexivity|].
  rewrite IH. destruct (Z.eqb_spec x c) as [E|E]; [contradiction|reflexivity].
Qed.

Lemma last_index_of_app : forall c l r, Forall (fun x => x <> c) r -> last_index_of c (l ++ c :: r) = Some (length l).
Proof.
  intros c l r Hr. induction l as [|x l IH]; cbn [app last_index_of length].
  - rewrite (last_index_of_none c r Hr), Z.eqb_refl. reflexivity.
  - rewrite IH. reflexivity.
Qed.

(* pattern matches on byte constants, turned into boolean tests *)
Ltac destruct_pos :=
  repeat match goal with p : positive |- _ => destruct p as [p|p|]; try reflexivity end.

Lemma match_byte_45 {A} (c : Z) (x y : A) : match c with 45 => x | _ => y end = if c =? 45 then x else y.
Proof. destruct c as [|p|p]; try reflexivity; destruct_pos. Qed.

Lemma match_hd_43 {A} (s : str) (x y : A) : match s with 43 :: _ => x | _ => y end = if hd 0 s =? 43 then x else y.
Proof. destruct s as [|c s]; [reflexivity|]. destruct c as [|p|p]; try reflexivity; destruct_pos. Qed.

Lemma match_hd_45 {A} (s : str) (x y : A) : match s with 45 :: _ => x | _ => y end = if hd 0 s =? 45 then x else y.
Proof. destruct s as [|c s]; [reflexivity|]. apply match_byte_45. Qed.

Lemma parse_signed_cons c r :
  parse_signed (c :: r) =
  if c =? 45 then option_map Z.opp (parse_digits r)
  else if c =? 43 then parse_digits r else parse_digits (c :: r).
Proof. destruct c as [|p|p]; try reflexivity; destruct_pos. Qed.

Lemma parse_signed_nil : parse_signed [] = None.
Proof. reflexivity. Qed.

(** * comparisons against a truncated quotient, as Go's overflow guards write them *)

Lemma gtb_quot a b w : 0 <= a -> 0 < b -> (w >? Z.quot a b) = negb (w * b <=? a).
Proof.
  intros Ha Hb. rewrite Z.quot_div_nonneg, Z.gtb_ltb by lia.
  pose proof (Z.div_mod a b ltac:(lia)). pose proof (Z.mod_pos_bound a b Hb).
  destruct (Z.ltb_spec (a / b) w), (Z.leb_spec (w * b) a); cbn [negb]; try reflexivity; nia.
Qed.

Lemma ltb_quot a b w : a <= 0 -> 0 < b -> (w <? Z.quot a b) = negb (a <=? w * b).
Proof.
  intros Ha Hb. replace (Z.quot a b) with (- Z.quot (- a) b) by (rewrite Z.quot_opp_l; lia).
  rewrite Z.quot_div_nonneg by lia.
  pose proof (Z.div_mod (- a) b ltac:(lia)). pose proof (Z.mod_pos_bound (- a) b Hb).
  destruct (Z.ltb_spec w (- (- a / b))), (Z.leb_spec a (w * b)); cbn [negb]; try reflexivity; nia.
Qed.
