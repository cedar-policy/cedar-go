(* The tokenizer (Impl.Tokenizer, Section Tok) is parametric in its scanner.  Each section below goes once through the scan
   helpers, next_token and tokenize_loop:
   - Param: a simulation relation between two scanner implementations lifts through all of them, the simulating run having
     at least as much fuel (so every fuelled function is monotone in its fuel: the identity simulation);
   - Inv: an invariant of state and lookahead is kept, and [token_from] says where a token's position, text and type come from;
   - Total: every fuelled function returns, given a measure of the input ahead that next() decreases.
   Param relates two runs, Inv says what a run that returns has returned, Total that it returns; Inv asks nothing of
   nxt's totality (the scanner's next() has fuel of its own), so Total does not follow from it. *)
From Coq Require Import ZArith List Bool Lia.
Import ListNotations.
From Cedar Require Import Base.Utf8 Lang.Value Impl.Scanner Impl.Tokenizer.
Local Open Scope Z_scope.

(* scanOperator decides from the two characters alone: a type other than EOF, and whether the second character belongs
   to the operator (then the stream moves one character) *)
Lemma scan_operator_cases : forall ch0 ch, exists ty, ty <> TEOF /\
  ((forall A nxt (s : A), scan_operator A nxt s ch0 ch = Some (ty, s, ch)) \/
   (forall A nxt (s : A), scan_operator A nxt s ch0 ch = option_map (fun x => (ty, fst x, snd x)) (nxt s))).
Proof.
  intros ch0 ch. unfold scan_operator. cbv zeta.
  destruct (existsb (Z.eqb ch0) [64; 46; 44; 59; 40; 41; 123; 125; 91; 93; 43; 45; 42]).
  { exists TOperator. split; [discriminate | left; reflexivity]. }
  destruct (ch0 =? 58). { exists TOperator. split; [discriminate|]. destruct (ch =? 58); [right | left]; reflexivity. }
  destruct ((ch0 =? 33) || (ch0 =? 60) || (ch0 =? 62)).
  { exists TOperator. split; [discriminate|]. destruct (ch =? 61); [right | left]; reflexivity. }
  destruct (ch0 =? 61).
  { destruct (ch =? 61); [exists TOperator | exists TUnknown]; (split; [discriminate|]); [right | left]; reflexivity. }
  destruct (ch0 =? 124).
  { destruct (ch =? 124); [exists TOperator | exists TUnknown]; (split; [discriminate|]); [right | left]; reflexivity. }
  destruct (ch0 =? 38).
  { destruct (ch =? 38); [exists TOperator | exists TUnknown]; (split; [discriminate|]); [right | left]; reflexivity. }
  exists TUnknown. split; [discriminate | left; reflexivity].
Qed.

Section Param.
  Variables (A B : Type).
  Variables (nxtA : A -> option (A * Z)) (startA stopA seterrA : A -> A) (posA : A -> Z * Z * Z)
            (textA : A -> list Z) (errA : A -> bool).
  Variables (nxtB : B -> option (B * Z)) (startB stopB seterrB : B -> B) (posB : B -> Z * Z * Z)
            (textB : B -> list Z) (errB : B -> bool).
  Variable R : A -> B -> Prop.
  Hypothesis H_nxt : forall a b a' ch, R a b -> nxtA a = Some (a', ch) -> exists b', nxtB b = Some (b', ch) /\ R a' b'.
  Hypothesis H_start : forall a b, R a b -> R (startA a) (startB b).
  Hypothesis H_stop : forall a b, R a b -> R (stopA a) (stopB b).
  Hypothesis H_seterr : forall a b, R a b -> R (seterrA a) (seterrB b).
  Hypothesis H_pos : forall a b, R a b -> posA a = posB b.
  Hypothesis H_text : forall a b, R a b -> textA a = textB b.
  Hypothesis H_err : forall a b, R a b -> errA a = errB b.

  Lemma scan_while_param : forall fuel fuel' p a b ch a' ch', (fuel <= fuel')%nat -> R a b ->
    scan_while A nxtA fuel p a ch = Some (a', ch') ->
    exists b', scan_while B nxtB fuel' p b ch = Some (b', ch') /\ R a' b'.
  Proof.
    induction fuel as [|f IH]; intros [|f'] p a b ch a' ch' Hle HR H; [discriminate H | discriminate H | lia |].
    cbn [scan_while] in H |- *. destruct (p ch).
    - destruct (nxtA a) as [[a1 c1]|] eqn:Ea; [|discriminate].
      destruct (H_nxt _ _ _ _ HR Ea) as (b1 & Eb & HR1). rewrite Eb. eapply IH; [lia | eassumption..].
    - injection H as <- <-. eauto.
  Qed.

  Lemma scan_hex_param : forall n maxd a b ch count a' ch' k, R a b ->
    scan_hex A nxtA n maxd a ch count = Some (a', ch', k) ->
    exists b', scan_hex B nxtB n maxd b ch count = Some (b', ch', k) /\ R a' b'.
  Proof.
    induction n as [|n IH]; intros maxd a b ch count a' ch' k HR H; cbn [scan_hex] in H |- *.
    - injection H as <- <- <-. eauto.
    - destruct (Nat.ltb count maxd && is_hex ch).
      + destruct (nxtA a) as [[a1 c1]|] eqn:Ea; [|discriminate].
        destruct (H_nxt _ _ _ _ HR Ea) as (b1 & Eb & HR1). rewrite Eb. eapply IH; eassumption.
      + injection H as <- <- <-. eauto.
  Qed.

  Lemma seterr_if_param : forall (c : bool) a b, R a b -> R (if c then seterrA a else a) (if c then seterrB b else b).
  Proof. intros [|] a b HR; [apply H_seterr|]; exact HR. Qed.

  Lemma scan_escape_param : forall a b a' ch', R a b ->
    scan_escape A nxtA seterrA a = Some (a', ch') ->
    exists b', scan_escape B nxtB seterrB b = Some (b', ch') /\ R a' b'.
  Proof.
    intros a b a' ch' HR H. unfold scan_escape in H |- *.
    destruct (nxtA a) as [[a1 c1]|] eqn:E1; [|discriminate].
    destruct (H_nxt _ _ _ _ HR E1) as (b1 & F1 & HR1). rewrite F1.
    destruct (existsb (Z.eqb c1) [110; 114; 116; 92; 48; 39; 34; 42]); [exact (H_nxt _ _ _ _ HR1 H)|].
    destruct (c1 =? 120).
    { destruct (nxtA a1) as [[a2 c2]|] eqn:E2; [|discriminate].
      destruct (H_nxt _ _ _ _ HR1 E2) as (b2 & F2 & HR2). rewrite F2.
      destruct (scan_hex A nxtA 3 2 a2 c2 0) as [[[a3 c3] k]|] eqn:E3; [|discriminate].
      destruct (scan_hex_param _ _ _ _ _ _ _ _ _ HR2 E3) as (b3 & F3 & HR3). rewrite F3.
      injection H as <- <-. eauto using seterr_if_param. }
    destruct (c1 =? 117); [|injection H as <- <-; eauto].
    destruct (nxtA a1) as [[a2 c2]|] eqn:E2; [|discriminate].
    destruct (H_nxt _ _ _ _ HR1 E2) as (b2 & F2 & HR2). rewrite F2.
    destruct (negb (c2 =? 123)); [injection H as <- <-; eauto|].
    destruct (nxtA a2) as [[a3 c3]|] eqn:E3; [|discriminate].
    destruct (H_nxt _ _ _ _ HR2 E3) as (b3 & F3 & HR3). rewrite F3.
    destruct (scan_hex A nxtA 7 6 a3 c3 0) as [[[a4 c4] k]|] eqn:E4; [|discriminate].
    destruct (scan_hex_param _ _ _ _ _ _ _ _ _ HR3 E4) as (b4 & F4 & HR4). rewrite F4. cbv zeta in H |- *.
    pose proof (seterr_if_param (Nat.ltb k 1) _ _ HR4) as HR4'.
    destruct (negb (c4 =? 125)); [injection H as <- <-; eauto | exact (H_nxt _ _ _ _ HR4' H)].
  Qed.

  Lemma scan_string_param : forall fuel fuel' a b ch a' ch', (fuel <= fuel')%nat -> R a b ->
    scan_string A nxtA seterrA fuel a ch = Some (a', ch') ->
    exists b', scan_string B nxtB seterrB fuel' b ch = Some (b', ch') /\ R a' b'.
  Proof.
    induction fuel as [|f IH]; intros [|f'] a b ch a' ch' Hle HR H; [discriminate H | discriminate H | lia |].
    cbn [scan_string] in H |- *.
    destruct (ch =? 34); [injection H as <- <-; eauto|].
    destruct ((ch =? 10) || (ch <? 0)); [injection H as <- <-; eauto|].
    destruct (ch =? 92).
    - destruct (scan_escape A nxtA seterrA a) as [[a1 c1]|] eqn:Ea; [|discriminate].
      destruct (scan_escape_param _ _ _ _ HR Ea) as (b1 & Eb & HR1). rewrite Eb. eapply IH; [lia | eassumption..].
    - destruct (nxtA a) as [[a1 c1]|] eqn:Ea; [|discriminate].
      destruct (H_nxt _ _ _ _ HR Ea) as (b1 & Eb & HR1). rewrite Eb. eapply IH; [lia | eassumption..].
  Qed.

  Lemma scan_block_comment_param : forall fuel fuel' a b ch a' ch', (fuel <= fuel')%nat -> R a b ->
    scan_block_comment A nxtA seterrA fuel a ch = Some (a', ch') ->
    exists b', scan_block_comment B nxtB seterrB fuel' b ch = Some (b', ch') /\ R a' b'.
  Proof.
    induction fuel as [|f IH]; intros [|f'] a b ch a' ch' Hle HR H; [discriminate H | discriminate H | lia |].
    cbn [scan_block_comment] in H |- *.
    destruct (ch <? 0); [injection H as <- <-; eauto|].
    destruct (nxtA a) as [[a1 c1]|] eqn:Ea; [|discriminate].
    destruct (H_nxt _ _ _ _ HR Ea) as (b1 & Eb & HR1). rewrite Eb.
    destruct ((ch =? 42) && (c1 =? 47)); [exact (H_nxt _ _ _ _ HR1 H) | eapply IH; [lia | eassumption..]].
  Qed.

  Lemma scan_operator_param : forall a b ch0 ch ty a' ch', R a b ->
    scan_operator A nxtA a ch0 ch = Some (ty, a', ch') ->
    exists b', scan_operator B nxtB b ch0 ch = Some (ty, b', ch') /\ R a' b'.
  Proof.
    intros a b ch0 ch ty a' ch' HR H.
    destruct (scan_operator_cases ch0 ch) as (ty0 & _ & [E | E]); rewrite E in H |- *.
    - injection H as <- <- <-. eauto.
    - destruct (nxtA a) as [[a1 c1]|] eqn:Ea; [|discriminate].
      destruct (H_nxt _ _ _ _ HR Ea) as (b1 & Eb & HR1). rewrite Eb. injection H as <- <- <-.
      exists b1. split; [reflexivity | exact HR1].
  Qed.

  Theorem next_token_param : forall fuel fuel' a b ch t a' ch', (fuel <= fuel')%nat -> R a b ->
    next_token A nxtA startA stopA seterrA posA textA fuel a ch = Some (t, a', ch') ->
    exists b', next_token B nxtB startB stopB seterrB posB textB fuel' b ch = Some (t, b', ch') /\ R a' b'.
  Proof.
    induction fuel as [|f IH]; intros [|f'] a b ch t a' ch' Hle HR H; [discriminate H | discriminate H | lia |].
    cbn [next_token] in H |- *.
    destruct (scan_while A nxtA (S f) is_ws a ch) as [[a0 c0]|] eqn:E0; [|discriminate].
    destruct (scan_while_param _ _ _ _ _ _ _ _ Hle HR E0) as (b0 & F0 & HR0). rewrite F0.
    pose proof (H_start _ _ HR0) as HR1. rewrite <- (H_pos _ _ HR1).
    destruct (posA (startA a0)) as [[off line] col]. cbv beta iota zeta in H |- *.
    (* a token that ends in related states: same text, hence same type *)
    assert (FIN : forall ty x y c, R x y ->
              Some ({| t_type := match ty with TIdent => if is_reserved (textA x) then TReserved else TIdent | _ => ty end;
                       t_off := off; t_line := line; t_col := col; t_text := textA x |}, x, c) = Some (t, a', ch') ->
              exists b', Some ({| t_type := match ty with TIdent => if is_reserved (textB y) then TReserved else TIdent | _ => ty end;
                                  t_off := off; t_line := line; t_col := col; t_text := textB y |}, y, c) = Some (t, b', ch') /\ R a' b').
    { intros ty x y c Hxy E. rewrite <- (H_text _ _ Hxy). injection E as <- <- <-. eauto. }
    destruct (c0 =? rune_eof); [exact (FIN TEOF _ _ _ HR1 H)|].
    destruct (is_ident_rune c0 true).
    { destruct (nxtA (startA a0)) as [[a2 c2]|] eqn:E2; [|discriminate].
      destruct (H_nxt _ _ _ _ HR1 E2) as (b2 & F2 & HR2). rewrite F2.
      destruct (scan_while A nxtA (S f) (fun x => is_ident_rune x false) a2 c2) as [[a3 c3]|] eqn:E3; [|discriminate].
      destruct (scan_while_param _ _ _ _ _ _ _ _ Hle HR2 E3) as (b3 & F3 & HR3). rewrite F3. exact (FIN TIdent _ _ _ HR3 H). }
    destruct (is_num c0).
    { destruct (scan_while A nxtA (S f) is_num (startA a0) c0) as [[a3 c3]|] eqn:E3; [|discriminate].
      destruct (scan_while_param _ _ _ _ _ _ _ _ Hle HR1 E3) as (b3 & F3 & HR3). rewrite F3. exact (FIN TInt _ _ _ HR3 H). }
    destruct (c0 =? 34).
    { destruct (nxtA (startA a0)) as [[a2 c2]|] eqn:E2; [|discriminate].
      destruct (H_nxt _ _ _ _ HR1 E2) as (b2 & F2 & HR2). rewrite F2.
      destruct (scan_string A nxtA seterrA (S f) a2 c2) as [[a3 c3]|] eqn:E3; [|discriminate].
      destruct (scan_string_param _ _ _ _ _ _ _ Hle HR2 E3) as (b3 & F3 & HR3). rewrite F3.
      destruct (nxtA a3) as [[a4 c4]|] eqn:E4; [|discriminate].
      destruct (H_nxt _ _ _ _ HR3 E4) as (b4 & F4 & HR4). rewrite F4. exact (FIN TString _ _ _ HR4 H). }
    destruct (c0 =? 47).
    { destruct (nxtA (startA a0)) as [[a2 c2]|] eqn:E2; [|discriminate].
      destruct (H_nxt _ _ _ _ HR1 E2) as (b2 & F2 & HR2). rewrite F2.
      destruct (c2 =? 47).
      { destruct (nxtA (stopA a2)) as [[a3 c3]|] eqn:E3; [|discriminate].
        destruct (H_nxt _ _ _ _ (H_stop _ _ HR2) E3) as (b3 & F3 & HR3). rewrite F3.
        destruct (scan_while A nxtA (S f) (fun x => negb (x =? 10) && (0 <=? x)) a3 c3) as [[a4 c4]|] eqn:E4; [|discriminate].
        destruct (scan_while_param _ _ _ _ _ _ _ _ Hle HR3 E4) as (b4 & F4 & HR4). rewrite F4. eapply IH; [lia | eassumption..]. }
      destruct (c2 =? 42).
      { destruct (nxtA (stopA a2)) as [[a3 c3]|] eqn:E3; [|discriminate].
        destruct (H_nxt _ _ _ _ (H_stop _ _ HR2) E3) as (b3 & F3 & HR3). rewrite F3.
        destruct (scan_block_comment A nxtA seterrA (S f) a3 c3) as [[a4 c4]|] eqn:E4; [|discriminate].
        destruct (scan_block_comment_param _ _ _ _ _ _ _ Hle HR3 E4) as (b4 & F4 & HR4). rewrite F4. eapply IH; [lia | eassumption..]. }
      destruct (scan_operator A nxtA a2 c0 c2) as [[[ty a3] c3]|] eqn:E3; [|discriminate].
      destruct (scan_operator_param _ _ _ _ _ _ _ HR2 E3) as (b3 & F3 & HR3). rewrite F3. exact (FIN ty _ _ _ HR3 H). }
    destruct (nxtA (startA a0)) as [[a2 c2]|] eqn:E2; [|discriminate].
    destruct (H_nxt _ _ _ _ HR1 E2) as (b2 & F2 & HR2). rewrite F2.
    destruct (scan_operator A nxtA a2 c0 c2) as [[[ty a3] c3]|] eqn:E3; [|discriminate].
    destruct (scan_operator_param _ _ _ _ _ _ _ HR2 E3) as (b3 & F3 & HR3). rewrite F3. exact (FIN ty _ _ _ HR3 H).
  Qed.

  Theorem tokenize_loop_param : forall fuel fuel' a b ch acc res, (fuel <= fuel')%nat -> R a b ->
    tokenize_loop A nxtA startA stopA seterrA posA textA errA fuel a ch acc = Some res ->
    tokenize_loop B nxtB startB stopB seterrB posB textB errB fuel' b ch acc = Some res.
  Proof.
    induction fuel as [|f IH]; intros [|f'] a b ch acc res Hle HR H; [discriminate H | discriminate H | lia |].
    cbn [tokenize_loop] in H |- *.
    destruct (next_token A nxtA startA stopA seterrA posA textA (S f) a ch) as [[[t a1] c1]|] eqn:Hn; [|discriminate H].
    destruct (next_token_param _ _ _ _ _ _ _ _ Hle HR Hn) as [b1 [Hb HR1]].
    rewrite Hb. rewrite <- (H_err _ _ HR1).
    destruct (errA a1); [exact H|].
    destruct (t_type t); try exact H; (eapply IH; [lia | eassumption..]).
  Qed.
End Param.

Section Stream.
  Variable A : Type.
  Variables (nxt : A -> option (A * Z)) (start stop seterr : A -> A) (pos : A -> Z * Z * Z)
            (text : A -> list Z) (err : A -> bool).

(* a run with more fuel simulates a run of the same stream with less *)
Theorem tokenize_loop_fuel_mono : forall fuel fuel' a ch acc r,
  tokenize_loop A nxt start stop seterr pos text err fuel a ch acc = Some r -> (fuel <= fuel')%nat ->
  tokenize_loop A nxt start stop seterr pos text err fuel' a ch acc = Some r.
Proof.
  intros fuel fuel' a ch acc r H Hle.
  apply (tokenize_loop_param A A nxt start stop seterr pos text err nxt start stop seterr pos text err eq)
    with (fuel := fuel) (a := a); try (intros; subst; reflexivity); [|exact Hle | exact H].
  intros x y x' c -> Hx. exists x'. split; [exact Hx | reflexivity].
Qed.

(* [I s ch] is an invariant of a state together with its lookahead character, [R s s'] a preorder that every step inside one
   token respects ("s' reads on from s").  Both go through every helper; for next_token the result is described by
   [token_from]: where the token was started, where its position and text come from, and that only end of input gives an
   EOF token while every other token moved past at least its first character. *)
Section Inv.
  Variable I : A -> Z -> Prop.
  Variable R : A -> A -> Prop.
  Hypothesis R_refl : forall s, R s s.
  Hypothesis R_trans : forall a b c, R a b -> R b c -> R a c.
  Hypothesis H_nxt : forall s ch s' ch', I s ch -> nxt s = Some (s', ch') -> I s' ch' /\ R s s'.
  Hypothesis H_seterr : forall s ch, I s ch -> I (seterr s) ch /\ R s (seterr s).
  Hypothesis H_start : forall s ch, I s ch -> I (start s) ch.
  Hypothesis H_stop : forall s ch, I s ch -> I (stop s) ch.

  Lemma scan_while_inv : forall p fuel s ch s' ch', I s ch -> scan_while A nxt fuel p s ch = Some (s', ch') ->
    I s' ch' /\ R s s' /\ p ch' = false.
  Proof.
    intros p. induction fuel as [|f IH]; intros s ch s' ch' Hi H; [discriminate|].
    cbn [scan_while] in H. destruct (p ch) eqn:Hp.
    - destruct (nxt s) as [[s1 c1]|] eqn:E1; [|discriminate].
      destruct (H_nxt _ _ _ _ Hi E1) as (Hi1 & Hr1). destruct (IH _ _ _ _ Hi1 H) as (Hi' & Hr' & Hp'). eauto.
    - injection H as <- <-. auto.
  Qed.

  Lemma scan_hex_inv : forall n maxd s ch k s' ch' k', I s ch ->
    scan_hex A nxt n maxd s ch k = Some (s', ch', k') -> I s' ch' /\ R s s'.
  Proof.
    induction n as [|n IH]; intros maxd s ch k s' ch' k' Hi H; cbn [scan_hex] in H.
    - injection H as <- <- <-. auto.
    - destruct (Nat.ltb k maxd && is_hex ch).
      + destruct (nxt s) as [[s1 c1]|] eqn:E1; [|discriminate].
        destruct (H_nxt _ _ _ _ Hi E1) as (Hi1 & Hr1). destruct (IH _ _ _ _ _ _ _ Hi1 H) as (Hi' & Hr'). eauto.
      + injection H as <- <- <-. auto.
  Qed.

  Lemma seterr_if_inv : forall (b : bool) s ch, I s ch -> I (if b then seterr s else s) ch /\ R s (if b then seterr s else s).
  Proof. intros [|] s ch Hi; [apply H_seterr; exact Hi | auto]. Qed.

  Lemma scan_escape_inv : forall s ch s' ch', I s ch -> scan_escape A nxt seterr s = Some (s', ch') -> I s' ch' /\ R s s'.
  Proof.
    intros s ch s' ch' Hi H. unfold scan_escape in H.
    destruct (nxt s) as [[s1 c1]|] eqn:E1; [|discriminate]. destruct (H_nxt _ _ _ _ Hi E1) as (Hi1 & Hr1).
    destruct (existsb (Z.eqb c1) [110; 114; 116; 92; 48; 39; 34; 42]).
    { destruct (H_nxt _ _ _ _ Hi1 H) as (Hi2 & Hr2). eauto. }
    destruct (c1 =? 120).
    { destruct (nxt s1) as [[s2 c2]|] eqn:E2; [|discriminate]. destruct (H_nxt _ _ _ _ Hi1 E2) as (Hi2 & Hr2).
      destruct (scan_hex A nxt 3 2 s2 c2 0) as [[[s3 c3] k]|] eqn:E3; [|discriminate].
      destruct (scan_hex_inv _ _ _ _ _ _ _ _ Hi2 E3) as (Hi3 & Hr3).
      destruct (seterr_if_inv (Nat.ltb k 2) _ _ Hi3) as (Hi3' & Hr3'). injection H as <- <-. eauto 6. }
    destruct (c1 =? 117).
    2:{ destruct (H_seterr _ _ Hi1) as (Hi1' & Hr1'). injection H as <- <-. eauto. }
    destruct (nxt s1) as [[s2 c2]|] eqn:E2; [|discriminate]. destruct (H_nxt _ _ _ _ Hi1 E2) as (Hi2 & Hr2).
    destruct (negb (c2 =? 123)).
    { destruct (H_seterr _ _ Hi2) as (Hi2' & Hr2'). injection H as <- <-. eauto 6. }
    destruct (nxt s2) as [[s3 c3]|] eqn:E3; [|discriminate]. destruct (H_nxt _ _ _ _ Hi2 E3) as (Hi3 & Hr3).
    destruct (scan_hex A nxt 7 6 s3 c3 0) as [[[s4 c4] k]|] eqn:E4; [|discriminate].
    destruct (scan_hex_inv _ _ _ _ _ _ _ _ Hi3 E4) as (Hi4 & Hr4).
    destruct (seterr_if_inv (Nat.ltb k 1) _ _ Hi4) as (Hi4' & Hr4'). cbv zeta in H.
    assert (Hr : R s (if Nat.ltb k 1 then seterr s4 else s4)) by eauto 8.
    destruct (negb (c4 =? 125)).
    - destruct (H_seterr _ _ Hi4') as (Hi5 & Hr5). injection H as <- <-. eauto.
    - destruct (H_nxt _ _ _ _ Hi4' H) as (Hi5 & Hr5). eauto.
  Qed.

  Lemma scan_string_inv : forall fuel s ch s' ch', I s ch -> scan_string A nxt seterr fuel s ch = Some (s', ch') ->
    I s' ch' /\ R s s'.
  Proof.
    induction fuel as [|f IH]; intros s ch s' ch' Hi H; [discriminate|].
    cbn [scan_string] in H.
    destruct (ch =? 34). { injection H as <- <-. auto. }
    destruct ((ch =? 10) || (ch <? 0)). { injection H as <- <-. apply H_seterr. exact Hi. }
    destruct (ch =? 92).
    - destruct (scan_escape A nxt seterr s) as [[s1 c1]|] eqn:E1; [|discriminate].
      destruct (scan_escape_inv _ _ _ _ Hi E1) as (Hi1 & Hr1). destruct (IH _ _ _ _ Hi1 H) as (Hi' & Hr'). eauto.
    - destruct (nxt s) as [[s1 c1]|] eqn:E1; [|discriminate].
      destruct (H_nxt _ _ _ _ Hi E1) as (Hi1 & Hr1). destruct (IH _ _ _ _ Hi1 H) as (Hi' & Hr'). eauto.
  Qed.

  Lemma scan_block_comment_inv : forall fuel s ch s' ch', I s ch ->
    scan_block_comment A nxt seterr fuel s ch = Some (s', ch') -> I s' ch' /\ R s s'.
  Proof.
    induction fuel as [|f IH]; intros s ch s' ch' Hi H; [discriminate|].
    cbn [scan_block_comment] in H.
    destruct (ch <? 0). { injection H as <- <-. apply H_seterr. exact Hi. }
    destruct (nxt s) as [[s1 c1]|] eqn:E1; [|discriminate]. destruct (H_nxt _ _ _ _ Hi E1) as (Hi1 & Hr1).
    destruct ((ch =? 42) && (c1 =? 47)).
    - destruct (H_nxt _ _ _ _ Hi1 H) as (Hi2 & Hr2). eauto.
    - destruct (IH _ _ _ _ Hi1 H) as (Hi' & Hr'). eauto.
  Qed.

  Lemma scan_operator_inv : forall s ch0 ch ty s' ch', I s ch -> scan_operator A nxt s ch0 ch = Some (ty, s', ch') ->
    I s' ch' /\ R s s' /\ ty <> TEOF.
  Proof.
    intros s ch0 ch ty s' ch' Hi H.
    destruct (scan_operator_cases ch0 ch) as (ty0 & Hty & [E | E]); rewrite E in H.
    - injection H as <- <- <-. auto.
    - destruct (nxt s) as [[s1 c1]|] eqn:E1; [|discriminate]. injection H as <- <- <-.
      destruct (H_nxt _ _ _ _ Hi E1). auto.
  Qed.

  (* [t] was read starting in state [s0] with lookahead [c0] (white space and comments skipped) and its reading ended in [s'] *)
  Definition token_from (s0 : A) (c0 : Z) (t : token) (s' : A) : Prop :=
    I s0 c0 /\ is_ws c0 = false /\ pos (start s0) = (t_off t, t_line t, t_col t) /\ t_text t = text s' /\
    ((c0 = rune_eof /\ t_type t = TEOF /\ s' = start s0) \/
     (c0 <> rune_eof /\ t_type t <> TEOF /\ exists s2 c2, nxt (start s0) = Some (s2, c2) /\ R s2 s')).

  Theorem next_token_inv : forall fuel s ch t s' ch', I s ch ->
    next_token A nxt start stop seterr pos text fuel s ch = Some (t, s', ch') ->
    I s' ch' /\ exists s0 c0, token_from s0 c0 t s'.
  Proof.
    induction fuel as [|f IH]; intros s ch t s' ch' Hi H; [discriminate|].
    cbn [next_token] in H.
    destruct (scan_while A nxt (S f) is_ws s ch) as [[s0 c0]|] eqn:E0; [|discriminate].
    destruct (scan_while_inv _ _ _ _ _ _ Hi E0) as (Hi0 & _ & Hws).
    pose proof (H_start _ _ Hi0) as Hi1.
    destruct (pos (start s0)) as [[off line] col] eqn:Hp.
    destruct (c0 =? rune_eof) eqn:Heof.
    { apply Z.eqb_eq in Heof. injection H as <- <- <-. split; [exact Hi1|]. exists s0, c0.
      split; [exact Hi0|]. split; [exact Hws|]. split; [exact Hp|]. split; [reflexivity|]. left. auto. }
    apply Z.eqb_neq in Heof.
    (* every branch that returns a token: it moved past c0 to (s2, c2) and read on to (x, c) *)
    assert (FIN : forall ty s2 c2 x c, nxt (start s0) = Some (s2, c2) -> R s2 x -> I x c -> ty <> TEOF ->
              I x c /\ exists s0 c0, token_from s0 c0
                {| t_type := ty; t_off := off; t_line := line; t_col := col; t_text := text x |} x).
    { intros ty s2 c2 x c E2 Hr Hx Hty. split; [exact Hx|]. exists s0, c0.
      split; [exact Hi0|]. split; [exact Hws|]. split; [exact Hp|]. split; [reflexivity|]. right. eauto 6. }
    destruct (is_ident_rune c0 true).
    { destruct (nxt (start s0)) as [[s2 c2]|] eqn:E2; [|discriminate]. destruct (H_nxt _ _ _ _ Hi1 E2) as (Hi2 & _).
      destruct (scan_while A nxt (S f) (fun x => is_ident_rune x false) s2 c2) as [[s3 c3]|] eqn:E3; [|discriminate].
      destruct (scan_while_inv _ _ _ _ _ _ Hi2 E3) as (Hi3 & Hr3 & _).
      injection H as <- <- <-. apply (FIN _ s2 c2); auto. destruct (is_reserved (text s3)); discriminate. }
    destruct (is_num c0) eqn:Hnum.
    { cbn [scan_while] in H. rewrite Hnum in H.
      destruct (nxt (start s0)) as [[s2 c2]|] eqn:E2; [|discriminate]. destruct (H_nxt _ _ _ _ Hi1 E2) as (Hi2 & _).
      destruct (scan_while A nxt f is_num s2 c2) as [[s3 c3]|] eqn:E3; [|discriminate].
      destruct (scan_while_inv _ _ _ _ _ _ Hi2 E3) as (Hi3 & Hr3 & _).
      injection H as <- <- <-. apply (FIN _ s2 c2); auto. discriminate. }
    destruct (c0 =? 34).
    { destruct (nxt (start s0)) as [[s2 c2]|] eqn:E2; [|discriminate]. destruct (H_nxt _ _ _ _ Hi1 E2) as (Hi2 & _).
      destruct (scan_string A nxt seterr (S f) s2 c2) as [[s3 c3]|] eqn:E3; [|discriminate].
      destruct (scan_string_inv _ _ _ _ _ Hi2 E3) as (Hi3 & Hr3).
      destruct (nxt s3) as [[s4 c4]|] eqn:E4; [|discriminate]. destruct (H_nxt _ _ _ _ Hi3 E4) as (Hi4 & Hr4).
      injection H as <- <- <-. apply (FIN _ s2 c2); eauto. discriminate. }
    destruct (c0 =? 47).
    { destruct (nxt (start s0)) as [[s2 c2]|] eqn:E2; [|discriminate]. destruct (H_nxt _ _ _ _ Hi1 E2) as (Hi2 & _).
      destruct (c2 =? 47).
      { (* line comment: the token is found by the recursive call *)
        destruct (nxt (stop s2)) as [[s3 c3]|] eqn:E3; [|discriminate].
        destruct (H_nxt _ _ _ _ (H_stop _ _ Hi2) E3) as (Hi3 & _).
        destruct (scan_while A nxt (S f) (fun x => negb (x =? 10) && (0 <=? x)) s3 c3) as [[s4 c4]|] eqn:E4; [|discriminate].
        destruct (scan_while_inv _ _ _ _ _ _ Hi3 E4) as (Hi4 & _). exact (IH _ _ _ _ _ Hi4 H). }
      destruct (c2 =? 42).
      { destruct (nxt (stop s2)) as [[s3 c3]|] eqn:E3; [|discriminate].
        destruct (H_nxt _ _ _ _ (H_stop _ _ Hi2) E3) as (Hi3 & _).
        destruct (scan_block_comment A nxt seterr (S f) s3 c3) as [[s4 c4]|] eqn:E4; [|discriminate].
        destruct (scan_block_comment_inv _ _ _ _ _ Hi3 E4) as (Hi4 & _). exact (IH _ _ _ _ _ Hi4 H). }
      destruct (scan_operator A nxt s2 c0 c2) as [[[ty s3] c3]|] eqn:E3; [|discriminate].
      destruct (scan_operator_inv _ _ _ _ _ _ Hi2 E3) as (Hi3 & Hr3 & Hty).
      injection H as <- <- <-. apply (FIN _ s2 c2); auto. destruct ty; try destruct (is_reserved _); congruence. }
    destruct (nxt (start s0)) as [[s2 c2]|] eqn:E2; [|discriminate]. destruct (H_nxt _ _ _ _ Hi1 E2) as (Hi2 & _).
    destruct (scan_operator A nxt s2 c0 c2) as [[[ty s3] c3]|] eqn:E3; [|discriminate].
    destruct (scan_operator_inv _ _ _ _ _ _ Hi2 E3) as (Hi3 & Hr3 & Hty).
    injection H as <- <- <-. apply (FIN _ s2 c2); auto. destruct ty; try destruct (is_reserved _); congruence.
  Qed.
End Inv.

(* [I s ch] is an invariant of a state together with its lookahead character and [W s ch] the input still ahead, the
   lookahead included.  If next() keeps I, never increases W and decreases it whenever the lookahead it moves past is a
   real character, every loop of the tokenizer returns once its fuel exceeds W. *)
Section Total.
  Variable I : A -> Z -> Prop.
  Variable W : A -> Z -> nat.
  Hypothesis T_nxt : forall s ch, I s ch ->
    exists s' c, nxt s = Some (s', c) /\ I s' c /\ (W s' c <= W s ch)%nat /\ (ch <> rune_eof -> (W s' c < W s ch)%nat).
  Hypothesis T_start : forall s ch, I s ch -> I (start s) ch /\ W (start s) ch = W s ch.
  Hypothesis T_stop : forall s ch, I s ch -> I (stop s) ch /\ W (stop s) ch = W s ch.
  Hypothesis T_seterr : forall s ch, I s ch -> I (seterr s) ch /\ W (seterr s) ch = W s ch.

  Lemma seterr_if_total : forall (b : bool) s ch, I s ch ->
    I (if b then seterr s else s) ch /\ W (if b then seterr s else s) ch = W s ch.
  Proof. intros [|] s ch Hi; [apply T_seterr; exact Hi | split; [exact Hi | reflexivity]]. Qed.

  Lemma scan_while_total : forall p, p rune_eof = false -> forall fuel s ch, I s ch -> (W s ch < fuel)%nat ->
    exists s' ch', scan_while A nxt fuel p s ch = Some (s', ch') /\ I s' ch' /\ (W s' ch' <= W s ch)%nat /\
                   (p ch = true -> (W s' ch' < W s ch)%nat).
  Proof.
    intros p Hp. induction fuel as [|f IH]; intros s ch Hi Hf; [lia|].
    cbn [scan_while]. destruct (p ch) eqn:Hpc.
    - assert (Hne : ch <> rune_eof) by (intros ->; congruence).
      destruct (T_nxt s ch Hi) as (s1 & c1 & E1 & Hi1 & _ & Hlt1). rewrite E1. specialize (Hlt1 Hne).
      destruct (IH s1 c1 Hi1 ltac:(lia)) as (s' & ch' & E & Hi' & Hle' & _).
      exists s', ch'. split; [exact E|]. split; [exact Hi'|]. split; [lia | intros _; lia].
    - exists s, ch. split; [reflexivity|]. split; [exact Hi|]. split; [lia | discriminate].
  Qed.

  Lemma scan_hex_total : forall n maxd s ch k, I s ch ->
    exists s' ch' k', scan_hex A nxt n maxd s ch k = Some (s', ch', k') /\ I s' ch' /\ (W s' ch' <= W s ch)%nat.
  Proof.
    induction n as [|n IH]; intros maxd s ch k Hi; cbn [scan_hex].
    - exists s, ch, k. split; [reflexivity|]. split; [exact Hi | lia].
    - destruct (Nat.ltb k maxd && is_hex ch).
      + destruct (T_nxt s ch Hi) as (s1 & c1 & E1 & Hi1 & Hle1 & _). rewrite E1.
        destruct (IH maxd s1 c1 (S k) Hi1) as (s' & ch' & k' & E & Hi' & Hle').
        exists s', ch', k'. split; [exact E|]. split; [exact Hi' | lia].
      + exists s, ch, k. split; [reflexivity|]. split; [exact Hi | lia].
  Qed.

  (* an escape sequence moves past the backslash *)
  Lemma scan_escape_total : forall s ch, I s ch ->
    exists s' ch', scan_escape A nxt seterr s = Some (s', ch') /\ I s' ch' /\ (W s' ch' <= W s ch)%nat /\
                   (ch <> rune_eof -> (W s' ch' < W s ch)%nat).
  Proof.
    intros s ch Hi. unfold scan_escape.
    destruct (T_nxt s ch Hi) as (s1 & c1 & E1 & Hi1 & Hle1 & Hlt1). rewrite E1.
    (* wherever the escape ends, it is enough to be no further from the end than (s1, c1) *)
    assert (G : forall x c, I x c -> (W x c <= W s1 c1)%nat ->
              exists s' ch', Some (x, c) = Some (s', ch') /\ I s' ch' /\ (W s' ch' <= W s ch)%nat /\
                             (ch <> rune_eof -> (W s' ch' < W s ch)%nat)).
    { intros x c Hx Hl. exists x, c. split; [reflexivity|]. split; [exact Hx|]. split; [lia|].
      intros Hne. specialize (Hlt1 Hne). lia. }
    destruct (existsb (Z.eqb c1) [110; 114; 116; 92; 48; 39; 34; 42]).
    { destruct (T_nxt s1 c1 Hi1) as (s2 & c2 & E2 & Hi2 & Hle2 & _). rewrite E2. apply G; assumption. }
    destruct (c1 =? 120).
    { destruct (T_nxt s1 c1 Hi1) as (s2 & c2 & E2 & Hi2 & Hle2 & _). rewrite E2.
      destruct (scan_hex_total 3 2 s2 c2 0 Hi2) as (s3 & c3 & k & E3 & Hi3 & Hle3). rewrite E3.
      destruct (seterr_if_total (Nat.ltb k 2) s3 c3 Hi3) as (Hi3' & Hw3). apply G; [exact Hi3' | lia]. }
    destruct (c1 =? 117).
    2:{ destruct (T_seterr s1 c1 Hi1) as (Hi1' & Hw1). apply G; [exact Hi1' | lia]. }
    destruct (T_nxt s1 c1 Hi1) as (s2 & c2 & E2 & Hi2 & Hle2 & _). rewrite E2.
    destruct (negb (c2 =? 123)).
    { destruct (T_seterr s2 c2 Hi2) as (Hi2' & Hw2). apply G; [exact Hi2' | lia]. }
    destruct (T_nxt s2 c2 Hi2) as (s3 & c3 & E3 & Hi3 & Hle3 & _). rewrite E3.
    destruct (scan_hex_total 7 6 s3 c3 0 Hi3) as (s4 & c4 & k & E4 & Hi4 & Hle4). rewrite E4. cbv zeta.
    destruct (seterr_if_total (Nat.ltb k 1) s4 c4 Hi4) as (Hi4' & Hw4).
    destruct (negb (c4 =? 125)).
    - destruct (T_seterr _ c4 Hi4') as (Hi4'' & Hw4'). apply G; [exact Hi4'' | lia].
    - destruct (T_nxt _ c4 Hi4') as (s5 & c5 & E5 & Hi5 & Hle5 & _). rewrite E5. apply G; [exact Hi5 | lia].
  Qed.

  Lemma scan_string_total : forall fuel s ch, I s ch -> (W s ch < fuel)%nat ->
    exists s' ch', scan_string A nxt seterr fuel s ch = Some (s', ch') /\ I s' ch' /\ (W s' ch' <= W s ch)%nat.
  Proof.
    induction fuel as [|f IH]; intros s ch Hi Hf; [lia|].
    cbn [scan_string].
    destruct (ch =? 34). { exists s, ch. split; [reflexivity|]. split; [exact Hi | lia]. }
    destruct ((ch =? 10) || (ch <? 0)) eqn:Hc.
    { destruct (T_seterr s ch Hi) as (Hi' & Hw). exists (seterr s), ch. split; [reflexivity|]. split; [exact Hi' | lia]. }
    assert (Hne : ch <> rune_eof) by (intros ->; cbn in Hc; discriminate).
    (* one step (an escape or a character) past ch, then the loop again *)
    assert (K : forall s1 c1, I s1 c1 -> (W s1 c1 < W s ch)%nat ->
              exists s' ch', scan_string A nxt seterr f s1 c1 = Some (s', ch') /\ I s' ch' /\ (W s' ch' <= W s ch)%nat).
    { intros s1 c1 Hi1 Hlt. destruct (IH s1 c1 Hi1 ltac:(lia)) as (s' & ch' & E & Hi' & Hle').
      exists s', ch'. split; [exact E|]. split; [exact Hi' | lia]. }
    destruct (ch =? 92).
    - destruct (scan_escape_total s ch Hi) as (s1 & c1 & E1 & Hi1 & _ & Hlt1). rewrite E1. apply K; auto.
    - destruct (T_nxt s ch Hi) as (s1 & c1 & E1 & Hi1 & _ & Hlt1). rewrite E1. apply K; auto.
  Qed.

  Lemma scan_block_comment_total : forall fuel s ch, I s ch -> (W s ch < fuel)%nat ->
    exists s' ch', scan_block_comment A nxt seterr fuel s ch = Some (s', ch') /\ I s' ch' /\ (W s' ch' <= W s ch)%nat.
  Proof.
    induction fuel as [|f IH]; intros s ch Hi Hf; [lia|].
    cbn [scan_block_comment].
    destruct (ch <? 0) eqn:Hc.
    { destruct (T_seterr s ch Hi) as (Hi' & Hw). exists (seterr s), ch. split; [reflexivity|]. split; [exact Hi' | lia]. }
    assert (Hne : ch <> rune_eof) by (intros ->; cbn in Hc; discriminate).
    destruct (T_nxt s ch Hi) as (s1 & c1 & E1 & Hi1 & _ & Hlt1). rewrite E1. specialize (Hlt1 Hne).
    destruct ((ch =? 42) && (c1 =? 47)).
    - destruct (T_nxt s1 c1 Hi1) as (s2 & c2 & E2 & Hi2 & Hle2 & _).
      exists s2, c2. split; [exact E2|]. split; [exact Hi2 | lia].
    - destruct (IH s1 c1 Hi1 ltac:(lia)) as (s' & ch' & E & Hi' & Hle').
      exists s', ch'. split; [exact E|]. split; [exact Hi' | lia].
  Qed.

  Lemma scan_operator_total : forall s ch0 ch, I s ch ->
    exists ty s' ch', scan_operator A nxt s ch0 ch = Some (ty, s', ch') /\ I s' ch' /\ (W s' ch' <= W s ch)%nat.
  Proof.
    intros s ch0 ch Hi. destruct (scan_operator_cases ch0 ch) as (ty & _ & [E | E]); rewrite E.
    - exists ty, s, ch. split; [reflexivity|]. split; [exact Hi | lia].
    - destruct (T_nxt s ch Hi) as (s1 & c1 & E1 & Hi1 & Hle1 & _). rewrite E1.
      exists ty, s1, c1. split; [reflexivity|]. split; [exact Hi1 | exact Hle1].
  Qed.

  Theorem next_token_total : forall fuel s ch, I s ch -> (W s ch < fuel)%nat ->
    exists t s' ch', next_token A nxt start stop seterr pos text fuel s ch = Some (t, s', ch') /\ I s' ch' /\
                     (W s' ch' <= W s ch)%nat /\ (t_type t <> TEOF -> (W s' ch' < W s ch)%nat).
  Proof.
    induction fuel as [|f IH]; intros s ch Hi Hf; [lia|].
    cbn [next_token].
    destruct (scan_while_total is_ws eq_refl (S f) s ch Hi Hf) as (s0 & c0 & E0 & Hi0 & Hle0 & _). rewrite E0.
    destruct (pos (start s0)) as [[off line] col]. cbv beta iota zeta.
    destruct (T_start s0 c0 Hi0) as [Hi1 Hw1].
    destruct (c0 =? rune_eof) eqn:Heof.
    { do 3 eexists. split; [reflexivity|]. split; [exact Hi1|]. split; [lia|]. cbn [t_type]. congruence. }
    apply Z.eqb_neq in Heof.
    (* every other token starts by moving past c0 ... *)
    destruct (T_nxt _ c0 Hi1) as (s2 & c2 & E2 & Hi2 & _ & Hlt2). specialize (Hlt2 Heof).
    (* ... and a token that ends at (x, c) no further from the end than that is done *)
    assert (K : forall t x c, I x c -> (W x c < W s ch)%nat ->
              exists t' s' ch', Some (t, x, c) = Some (t', s', ch') /\ I s' ch' /\ (W s' ch' <= W s ch)%nat /\
                                (t_type t' <> TEOF -> (W s' ch' < W s ch)%nat)).
    { intros t x c Hx Hl. exists t, x, c. split; [reflexivity|]. split; [exact Hx|]. split; [lia | intros _; exact Hl]. }
    destruct (is_ident_rune c0 true).
    { rewrite E2.
      destruct (scan_while_total (fun x => is_ident_rune x false) eq_refl (S f) s2 c2 Hi2 ltac:(lia)) as (s3 & c3 & E3 & Hi3 & Hle3 & _).
      rewrite E3. apply K; [exact Hi3 | lia]. }
    destruct (is_num c0) eqn:Hnum.
    { destruct (scan_while_total is_num eq_refl (S f) (start s0) c0 Hi1 ltac:(lia)) as (s3 & c3 & E3 & Hi3 & _ & Hlt3).
      rewrite E3. specialize (Hlt3 Hnum). apply K; [exact Hi3 | lia]. }
    destruct (c0 =? 34).
    { rewrite E2.
      destruct (scan_string_total (S f) s2 c2 Hi2 ltac:(lia)) as (s3 & c3 & E3 & Hi3 & Hle3). rewrite E3.
      destruct (T_nxt s3 c3 Hi3) as (s4 & c4 & E4 & Hi4 & Hle4 & _). rewrite E4. apply K; [exact Hi4 | lia]. }
    destruct (c0 =? 47).
    { rewrite E2.
      destruct (T_stop s2 c2 Hi2) as [Hi2' Hw2].
      destruct (c2 =? 47).
      { destruct (T_nxt _ c2 Hi2') as (s3 & c3 & E3 & Hi3 & Hle3 & _). rewrite E3.
        destruct (scan_while_total (fun x => negb (x =? 10) && (0 <=? x)) eq_refl (S f) s3 c3 Hi3 ltac:(lia))
          as (s4 & c4 & E4 & Hi4 & Hle4 & _).
        rewrite E4.
        destruct (IH s4 c4 Hi4 ltac:(lia)) as (t & s' & ch' & E & Hi' & Hle' & _).
        exists t, s', ch'. split; [exact E|]. split; [exact Hi'|]. split; [lia | intros _; lia]. }
      destruct (c2 =? 42).
      { destruct (T_nxt _ c2 Hi2') as (s3 & c3 & E3 & Hi3 & Hle3 & _). rewrite E3.
        destruct (scan_block_comment_total (S f) s3 c3 Hi3 ltac:(lia)) as (s4 & c4 & E4 & Hi4 & Hle4).
        rewrite E4.
        destruct (IH s4 c4 Hi4 ltac:(lia)) as (t & s' & ch' & E & Hi' & Hle' & _).
        exists t, s', ch'. split; [exact E|]. split; [exact Hi'|]. split; [lia | intros _; lia]. }
      destruct (scan_operator_total s2 c0 c2 Hi2) as (ty & s3 & c3 & E3 & Hi3 & Hle3). rewrite E3.
      apply K; [exact Hi3 | lia]. }
    rewrite E2.
    destruct (scan_operator_total s2 c0 c2 Hi2) as (ty & s3 & c3 & E3 & Hi3 & Hle3). rewrite E3.
    apply K; [exact Hi3 | lia].
  Qed.

  Theorem tokenize_loop_total : forall fuel s ch acc, I s ch -> (W s ch < fuel)%nat ->
    tokenize_loop A nxt start stop seterr pos text err fuel s ch acc <> None.
  Proof.
    induction fuel as [|f IH]; intros s ch acc Hi Hf; [lia|].
    cbn [tokenize_loop].
    destruct (next_token_total (S f) s ch Hi Hf) as (t & s' & c' & E & Hi' & _ & Hlt). rewrite E.
    destruct (err s'); [discriminate|].
    assert (Hcont : t_type t <> TEOF ->
                    tokenize_loop A nxt start stop seterr pos text err f s' c' (t :: acc) <> None).
    { intros Hty. specialize (Hlt Hty). apply IH; [exact Hi' | lia]. }
    destruct (t_type t) eqn:Hty; [discriminate | apply Hcont; discriminate ..].
  Qed.
End Total.
End Stream.

Print Assumptions scan_while_param.
Print Assumptions scan_hex_param.
Print Assumptions scan_escape_param.
Print Assumptions scan_string_param.
Print Assumptions scan_block_comment_param.
Print Assumptions scan_operator_param.
Print Assumptions next_token_param.
Print Assumptions tokenize_loop_param.
Print Assumptions tokenize_loop_fuel_mono.
