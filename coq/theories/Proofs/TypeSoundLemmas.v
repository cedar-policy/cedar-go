(* Lemmas for Proofs/TypeSoundProofs.v (strict-mode soundness of the expression type checker, C15).
   In this order:
   - association lists; well-formed types (WT: record keys pairwise distinct); strict least upper bounds are upper bounds (lub_sub);
   - capability keys are injective for attribute names shorter than 10^39 bytes (cap_key_inj);
   - depth-first search with one visited set (Section Search), and its instances: the schema-level descendant search finds every
     type-level path (is_descendant_ty_complete), the action-graph searches find every path (is_action_ty_desc_complete,
     areach_complete); run-time ancestors have ancestor types (reach_types); `in` on typed operands (do_in_total, do_in_false);
     store ancestors of a declared action (reach_action); `l in w` for operands given by uids (do_in_uids_single / do_in_uids_set);
     the hypotheses agraph_wf / actions_conform / store_types_known (in_hyps);
   - schema_wf / tenv_wf; attribute lookup (get_attr_typed), `has` (has_attr_typed), tags (get_tag_typed, has_tags_false);
   - the evaluator's binds on well-typed operands (bind_ok, as_*_ok); extension calls, row by row of the signature table
     (call_ext_sound). *)
From Coq Require Import ZArith List Bool String Lia Relations Arith.
Import ListNotations.
From Cedar Require Import Base.Int64 Lang.Value Impl.Like Lang.Expr Impl.Text Impl.InSearch Impl.Eval Impl.TypeCheck Lang.TypeSound
  Impl.Decimal Impl.Duration Impl.Datetime Impl.IPAddr Generated.Tables Generated.Kernels
  Proofs.ValueProofs Proofs.InSearchProofs Proofs.ExtSigTable.
From Cedar Require Proofs.SchemaResolveProofs Proofs.TextProofs Proofs.ScopeProofs.
Local Open Scope Z_scope.

Lemma alookup_In {A} k (l : list (str * A)) v : alookup k l = Some v -> In (k, v) l.
Proof.
  induction l as [|[k' v'] l IH]; cbn [alookup]; [discriminate|].
  destruct (str_eqb k' k) eqn:E.
  - intros H. inversion H; subst. apply str_eqb_eq in E. subst. left; reflexivity.
  - intros H. right. apply IH, H.
Qed.

Lemma alookup_keys {A} k (l : list (str * A)) : alookup k l <> None <-> In k (map fst l).
Proof.
  induction l as [|[k' v'] l IH]; cbn [alookup map fst].
  - split; [congruence | intros []].
  - destruct (str_eqb k' k) eqn:E.
    + apply str_eqb_eq in E. subst. split; [intros _; left; reflexivity | discriminate].
    + apply str_eqb_neq in E. rewrite IH. split; [intros H; right; exact H | intros [H|H]; [congruence | exact H]].
Qed.

Lemma alookup_none_keys {A} k (l : list (str * A)) : alookup k l = None <-> ~ In k (map fst l).
Proof. rewrite <- alookup_keys. destruct (alookup k l); split; try congruence. intros H. exfalso. apply H. discriminate. Qed.

Lemma alookup_app {A} k (l1 l2 : list (str * A)) :
  alookup k (l1 ++ l2) = match alookup k l1 with Some v => Some v | None => alookup k l2 end.
Proof.
  induction l1 as [|[k' v'] l1 IH]; cbn [app alookup]; [reflexivity|]. destruct (str_eqb k' k); auto.
Qed.

(* the two lookups differ only in the order of the arguments of the key test *)
Lemma rec_get_alookup {A} k (l : list (str * A)) : rec_get k l = alookup k l.
Proof. induction l as [|[k' v'] l IH]; [reflexivity|]. cbn [rec_get alookup]. rewrite (str_eqb_sym k k'), IH. reflexivity. Qed.

Lemma smem_In x l : smem x l = true <-> In x l.
Proof. apply (existsb_eqb_In str_eqb str_eqb_eq). Qed.

Lemma filter_none {A} (f : A -> bool) l : (forall x, In x l -> f x = false) -> filter f l = [].
Proof. induction l as [|a l IH]; intros H; [reflexivity|]. cbn [filter]. rewrite (H a (or_introl eq_refl)). apply IH. intros x Hx. apply H. right; exact Hx. Qed.

Lemma clos_trans_first {A} (R : relation A) x y : clos_trans A R x y -> exists z, R x z.
Proof. intros H. induction H as [x y H|x y z _ IH1 _ _]; [eauto | exact IH1]. Qed.

Lemma clos_trans_last {A} (R : relation A) x y : clos_trans A R x y -> exists w, R w y.
Proof. intros H. induction H as [x y H|x y z _ _ _ IH2]; [eauto | exact IH2]. Qed.

Section TyAll.
  Variable PE : list str -> Prop.     (* on the name list of every entity type *)
  Variable PK : list str -> Prop.     (* on the key list of every record type *)
  Fixpoint ty_all (t : cty) : Prop :=
    match t with
    | CSet e => ty_all e
    | CRec l => PK (map fst l) /\
                (fix go (l : list (str * (cty * bool))) : Prop :=
                   match l with [] => True | (_, (x, _)) :: r => ty_all x /\ go r end) l
    | CEnt l => PE l
    | _ => True
    end.

  Lemma ty_all_rec l : ty_all (CRec l) <-> PK (map fst l) /\ Forall (fun kv => ty_all (fst (snd kv))) l.
  Proof.
    cbn [ty_all]. apply and_iff_compat_l.
    induction l as [|[k [x q]] l IH].
    - split; intros _; [constructor | exact I].
    - split.
      + intros [H1 H2]. constructor; [exact H1 | apply IH, H2].
      + intros H. inversion H; subst. split; [assumption | apply IH; assumption].
  Qed.

  Lemma ty_all_lookup l k t q : ty_all (CRec l) -> alookup k l = Some (t, q) -> ty_all t.
  Proof.
    intros H E. apply ty_all_rec in H. destruct H as [_ H]. apply alookup_In in E.
    rewrite Forall_forall in H. apply (H _ E).
  Qed.
End TyAll.

(* record keys pairwise distinct, at every depth: what the symmetric half of lub-subsumption needs *)
Definition WT : cty -> Prop := ty_all (fun _ => True) (fun ks => NoDup ks).

Lemma WT_rec l : WT (CRec l) <-> NoDup (map fst l) /\ Forall (fun kv => WT (fst (snd kv))) l.
Proof. apply ty_all_rec. Qed.

Lemma sinsert_In x y l : In x (sinsert y l) <-> x = y \/ In x l.
Proof.
  induction l as [|z l IH]; cbn [sinsert].
  - cbn [In]. split; intros [->|[]]; auto.
  - destruct (str_eqb y z) eqn:E.
    + apply str_eqb_eq in E. subst. cbn [In]. split; [auto | intros [->|H]; auto].
    + destruct (str_ltb y z).
      * cbn [In]. split; intros [->|H]; auto.
      * cbn [In]. rewrite IH. tauto.
Qed.

Lemma union_lub_In x a b : In x (union_lub a b) <-> In x a \/ In x b.
Proof.
  unfold union_lub. revert a. induction b as [|y b IH]; intros a; cbn [fold_left].
  - cbn [In]. tauto.
  - rewrite IH, sinsert_In. cbn [In]. split; [intros [[->|H]|H] | intros [H|[->|H]]]; auto.
Qed.

Definition attrs := list (str * (cty * bool)).

Definition lub_go (f : nat) (rb : attrs) : attrs -> option attrs :=
  fix go (l : attrs) : option attrs :=
    match l with
    | [] => Some []
    | (k, (ta, qa)) :: r =>
        match alookup k rb with
        | Some (tb, qb) =>
            match lub true f ta tb with
            | Some t => option_map (cons (k, (t, qa && qb))) (go r)
            | None => None
            end
        | None => option_map (cons (k, (ta, false))) (go r)
        end
    end.

Definition same_keys_b (ra rb : attrs) : bool :=
  Nat.eqb (List.length ra) (List.length rb) &&
  forallb (fun kv : str * (cty * bool) => match alookup (fst kv) rb with Some _ => true | None => false end) ra.

Definition lub_rec (f : nat) (ra rb : attrs) : option cty :=
  if negb (same_keys_b ra rb) then None else
  match lub_go f rb ra with
  | None => None
  | Some common =>
      Some (CRec (common ++ map (fun kv : str * (cty * bool) => (fst kv, (fst (snd kv), false)))
                                (filter (fun kv : str * (cty * bool) => match alookup (fst kv) ra with Some _ => false | None => true end) rb)))
  end.

(* one unfolding of lub in strict mode, the record case named: the case analyses below work on this and not on the fixpoint *)
Lemma lub_S f a b :
  lub true (S f) a b =
  match b with
  | CNever => Some a
  | _ =>
    match a with
    | CNever => Some b
    | CTrue => match b with CTrue => Some CTrue | CFalse | CBool => Some CBool | _ => None end
    | CFalse => match b with CFalse => Some CFalse | CTrue | CBool => Some CBool | _ => None end
    | CBool => if is_bool_ty b then Some CBool else None
    | CLong => match b with CLong => Some CLong | _ => None end
    | CString => match b with CString => Some CString | _ => None end
    | CSet ea => match b with CSet eb => option_map CSet (lub true f ea eb) | _ => None end
    | CRec ra => match b with CRec rb => lub_rec f ra rb | _ => None end
    | CEnt la => match b with CEnt lb => Some (CEnt (union_lub la lb)) | _ => None end
    | CExt na => match b with CExt nb => if str_eqb na nb then Some a else None | _ => None end
    end
  end.
Proof. cbn [lub]. reflexivity. Qed.

Lemma same_keys_spec ra rb : same_keys_b ra rb = true -> NoDup (map fst ra) ->
  (forall k, In k (map fst ra) <-> In k (map fst rb)).
Proof.
  unfold same_keys_b. intros H Hnd. apply andb_true_iff in H. destruct H as [Hlen Hall].
  apply Nat.eqb_eq in Hlen. rewrite forallb_forall in Hall.
  assert (I1 : incl (map fst ra) (map fst rb)).
  { intros k Hk. apply in_map_iff in Hk. destruct Hk as (kv & <- & Hkv). specialize (Hall kv Hkv). cbv beta in Hall.
    apply alookup_keys. destruct (alookup (fst kv) rb); [discriminate | discriminate]. }
  assert (I2 : incl (map fst rb) (map fst ra)).
  { apply NoDup_length_incl; [exact Hnd | rewrite !map_length; lia | exact I1]. }
  intros k. split; [apply I1 | apply I2].
Qed.

Definition sub (a c : cty) : Prop := forall v, vtyped v a -> vtyped v c.

Lemma lub_go_spec f rb
  (IH : forall a b c, lub true f a b = Some c -> WT a -> WT b -> WT c /\ sub a c /\ sub b c) :
  forall ra common, lub_go f rb ra = Some common ->
    Forall (fun kv => WT (fst (snd kv))) ra -> Forall (fun kv => WT (fst (snd kv))) rb ->
    (forall k, In k (map fst ra) -> alookup k rb <> None) ->
    map fst common = map fst ra /\ Forall (fun kv => WT (fst (snd kv))) common /\
    (forall k, match alookup k ra with
               | Some (ta, qa) => exists tb qb t, alookup k rb = Some (tb, qb) /\ alookup k common = Some (t, qa && qb) /\ sub ta t /\ sub tb t
               | None => alookup k common = None
               end).
Proof.
  induction ra as [|[k0 [ta0 qa0]] r IHr]; intros common Hgo Hwa Hwb Hin.
  - cbn in Hgo. inversion Hgo; subst. split; [reflexivity|]. split; [constructor|]. intros k. reflexivity.
  - cbn [lub_go] in Hgo. fold (lub_go f rb) in Hgo.
    destruct (alookup k0 rb) as [[tb0 qb0]|] eqn:Eb; [|exfalso; apply (Hin k0); [left; reflexivity | exact Eb]].
    destruct (lub true f ta0 tb0) as [t0|] eqn:El; [|discriminate].
    destruct (lub_go f rb r) as [common'|] eqn:Eg; [|discriminate].
    cbn [option_map] in Hgo. inversion Hgo; subst common. clear Hgo.
    inversion Hwa as [|x y Hw0 Hwr]; subst. cbn [fst snd] in Hw0.
    assert (Hwtb : WT tb0).
    { apply alookup_In in Eb. rewrite Forall_forall in Hwb. apply (Hwb _ Eb). }
    destruct (IH _ _ _ El Hw0 Hwtb) as (Hwt0 & Hsa & Hsb).
    destruct (IHr common' eq_refl Hwr Hwb) as (Hk & Hwc & Hspec).
    { intros k Hk. apply Hin. right. exact Hk. }
    split; [cbn [map fst]; f_equal; exact Hk|]. split; [constructor; [exact Hwt0 | exact Hwc]|].
    intros k. cbn [alookup]. destruct (str_eqb k0 k) eqn:E.
    + apply str_eqb_eq in E. subst k. exists tb0, qb0, t0. repeat split; auto.
    + apply Hspec.
Qed.

Lemma alookup_map_false k (l : attrs) t q :
  alookup k (map (fun kv : str * (cty * bool) => (fst kv, (fst (snd kv), false))) l) = Some (t, q) -> q = false.
Proof.
  induction l as [|[k' [t' q']] l IH]; cbn [map alookup fst snd]; [discriminate|].
  destruct (str_eqb k' k); [intros H; inversion H; reflexivity | exact IH].
Qed.

(* canonical forms: the shape of a value of each type *)
Lemma vtyped_shape v t : vtyped v t ->
  match t with
  | CNever => False
  | CTrue => v = VBool true
  | CFalse => v = VBool false
  | CBool => exists b, v = VBool b
  | CLong => exists z, v = VLong z
  | CString => exists s, v = VString s
  | CSet e => exists l, v = VSet l /\ Forall (fun x => vtyped x e) l
  | CRec a => exists kvs, v = VRecord kvs /\
                Forall (fun kv : str * value => exists t q, alookup (fst kv) a = Some (t, q) /\ vtyped (snd kv) t) kvs /\
                (forall k t, alookup k a = Some (t, true) -> exists x, rec_get k kvs = Some x)
  | CEnt l => exists t i, v = VEntity t i /\ In t l
  | CExt n => match v with
              | VDecimal _ => n = s_of "decimal" | VIP _ _ _ => n = s_of "ipaddr"
              | VDatetime _ => n = s_of "datetime" | VDuration _ => n = s_of "duration"
              | _ => False
              end
  end.
Proof. destruct 1; eauto. Qed.

Lemma vtyped_rec_inv kvs attrs_ : vtyped (VRecord kvs) (CRec attrs_) ->
  Forall (fun kv : str * value => exists t q, alookup (fst kv) attrs_ = Some (t, q) /\ vtyped (snd kv) t) kvs /\
  (forall k t, alookup k attrs_ = Some (t, true) -> exists v, rec_get k kvs = Some v).
Proof. intros H. destruct (vtyped_shape _ _ H) as (kvs' & E & HF). injection E as <-. exact HF. Qed.

Lemma vtyped_set_inv l e : vtyped (VSet l) (CSet e) -> Forall (fun v => vtyped v e) l.
Proof. intros H. destruct (vtyped_shape _ _ H) as (l' & E & HF). injection E as <-. exact HF. Qed.

Lemma vtyped_never v : ~ vtyped v CNever.
Proof. exact (vtyped_shape v CNever). Qed.

Lemma vtyped_ent_inv v l : vtyped v (CEnt l) -> exists t i, v = VEntity t i /\ In t l.
Proof. exact (vtyped_shape v (CEnt l)). Qed.
Lemma vtyped_rec_inv' v l : vtyped v (CRec l) -> exists kvs, v = VRecord kvs.
Proof. intros H. destruct (vtyped_shape _ _ H) as (kvs & E & _). eauto. Qed.
Lemma vtyped_set_inv' v e : vtyped v (CSet e) -> exists l, v = VSet l /\ Forall (fun x => vtyped x e) l.
Proof. exact (vtyped_shape v (CSet e)). Qed.
Lemma vtyped_long_inv v : vtyped v CLong -> exists z, v = VLong z.
Proof. exact (vtyped_shape v CLong). Qed.
Lemma vtyped_string_inv v : vtyped v CString -> exists s, v = VString s.
Proof. exact (vtyped_shape v CString). Qed.
Lemma vtyped_bool_inv v t : is_bool_ty t = true -> vtyped v t -> exists b, v = VBool b.
Proof. intros Ht H. apply vtyped_shape in H. destruct t; try discriminate; subst; eauto. Qed.
Lemma vtyped_true_inv v : vtyped v CTrue -> v = VBool true.
Proof. exact (vtyped_shape v CTrue). Qed.
Lemma vtyped_false_inv v : vtyped v CFalse -> v = VBool false.
Proof. exact (vtyped_shape v CFalse). Qed.

(* width and depth subtyping of closed record types *)
Lemma sub_rec (ra rc : attrs) :
  (forall k ta qa, alookup k ra = Some (ta, qa) -> exists tc qc, alookup k rc = Some (tc, qc) /\ sub ta tc) ->
  (forall k tc, alookup k rc = Some (tc, true) -> exists ta, alookup k ra = Some (ta, true)) ->
  sub (CRec ra) (CRec rc).
Proof.
  intros H1 H2 v Hv. destruct (vtyped_shape _ _ Hv) as (kvs & -> & HF & HR). constructor.
  - eapply Forall_impl; [|exact HF]. intros kv (t & q & El & Ht). destruct (H1 _ _ _ El) as (tc & qc & Ec & S). exists tc, qc. auto.
  - intros k tc Ek. destruct (H2 _ _ Ek) as (ta & Ea). apply (HR _ _ Ea).
Qed.

Lemma sub_bool t : is_bool_ty t = true -> sub t CBool.
Proof. intros Ht v Hv. destruct (vtyped_bool_inv v t Ht Hv) as [b ->]. constructor. Qed.

Lemma sub_set a c : sub a c -> sub (CSet a) (CSet c).
Proof. intros S v Hv. destruct (vtyped_shape _ _ Hv) as (l & -> & HF). constructor. eapply Forall_impl; [|exact HF]. exact S. Qed.

Lemma sub_ent la l : incl la l -> sub (CEnt la) (CEnt l).
Proof. intros I v Hv. destruct (vtyped_shape _ _ Hv) as (t & i & -> & Hin). constructor. apply I, Hin. Qed.

Theorem lub_sub : forall f a b c, lub true f a b = Some c -> WT a -> WT b -> WT c /\ sub a c /\ sub b c.
Proof.
  induction f as [|f IH]; intros a b c H Ha Hb; [discriminate|]. rewrite lub_S in H.
  assert (Hnever : forall x, sub CNever x) by (intros x v Hv; exfalso; exact (vtyped_never _ Hv)).
  assert (Hrefl : forall x, sub x x) by (intros x v Hv; exact Hv).
  destruct b as [| | | | | |eb|rb|lb|nb].
  2-6: destruct a; cbn [is_bool_ty] in H; try discriminate H; injection H as <-; repeat split; auto; apply sub_bool; reflexivity.
  - (* b = CNever *) inversion H; subst. auto.
  - (* CSet *)
    destruct a as [| | | | | |ea|ra|la|na]; try discriminate H.
    + inversion H; subst. auto.
    + destruct (lub true f ea eb) as [e|] eqn:E; [|discriminate]. cbn in H. inversion H; subst.
      destruct (IH _ _ _ E Ha Hb) as (Hw & S1 & S2). split; [exact Hw|].
      split; apply sub_set; assumption.
  - (* CRec *)
    destruct a as [| | | | | |ea|ra|la|na]; try discriminate H.
    + inversion H; subst. auto.
    + unfold lub_rec in H. destruct (same_keys_b ra rb) eqn:Esk; [|discriminate]. cbn [negb] in H.
      destruct (lub_go f rb ra) as [common|] eqn:Eg; [|discriminate].
      apply WT_rec in Ha. destruct Ha as [Hnda Hwa]. apply WT_rec in Hb. destruct Hb as [Hndb Hwb].
      pose proof (same_keys_spec _ _ Esk Hnda) as Hkeys.
      assert (Hex : filter (fun kv : str * (cty * bool) => match alookup (fst kv) ra with Some _ => false | None => true end) rb = []).
      { apply filter_none. intros kv Hin. assert (Hk : In (fst kv) (map fst ra)) by (apply Hkeys, in_map, Hin).
        apply alookup_keys in Hk. destruct (alookup (fst kv) ra); congruence. }
      rewrite Hex in H. cbn [map] in H. rewrite app_nil_r in H. inversion H; subst c. clear H Hex.
      destruct (lub_go_spec f rb IH ra common Eg Hwa Hwb) as (Hk & Hwc & Hspec).
      { intros k Hk. apply alookup_keys. apply Hkeys. exact Hk. }
      split; [apply WT_rec; split; [rewrite Hk; exact Hnda | exact Hwc]|].
      assert (Hand : forall qa qb, (qa && qb)%bool = true -> qa = true /\ qb = true) by (intros [|] [|]; auto).
      split; apply sub_rec.
      * intros k ta qa Ea. specialize (Hspec k). rewrite Ea in Hspec. destruct Hspec as (tb & qb & t & _ & Ec & S1 & _). eauto.
      * intros k t Ek. specialize (Hspec k). destruct (alookup k ra) as [[ta qa]|]; [|congruence].
        destruct Hspec as (tb & qb & t' & _ & Ec & _). rewrite Ec in Ek. injection Ek as Et Eq. apply Hand in Eq. destruct Eq as [-> _]. eauto.
      * intros k tb qb Eb. specialize (Hspec k). destruct (alookup k ra) as [[ta qa]|] eqn:Ea.
        -- destruct Hspec as (tb' & qb' & t & Eb' & Ec & _ & S2). rewrite Eb in Eb'. inversion Eb'; subst. eauto.
        -- exfalso. apply (proj1 (alookup_none_keys k ra) Ea), Hkeys, alookup_keys. congruence.
      * intros k t Ek. specialize (Hspec k). destruct (alookup k ra) as [[ta qa]|]; [|congruence].
        destruct Hspec as (tb & qb & t' & Eb & Ec & _). rewrite Ec in Ek. injection Ek as Et Eq. apply Hand in Eq. destruct Eq as [_ ->]. eauto.
  - (* CEnt *)
    destruct a as [| | | | | |ea|ra|la|na]; try discriminate H; inversion H; subst; auto.
    split; [exact I|]. split; apply sub_ent; intros x Hx; apply union_lub_In; auto.
  - (* CExt *)
    destruct a as [| | | | | |ea|ra|la|na]; try discriminate H; try (inversion H; subst; auto; fail).
    destruct (str_eqb na nb) eqn:E; [|discriminate]. apply str_eqb_eq in E. subst. inversion H; subst. auto.
Qed.

Corollary lub'_sub a b c : lub' true a b = Some c -> WT a -> WT b -> WT c /\ sub a c /\ sub b c.
Proof. unfold lub'. apply lub_sub. Qed.

(* which arguments give a singleton-boolean or empty lub *)
Lemma lub_true_never f a b c : lub true f a b = Some c -> (c = CTrue \/ c = CNever) -> (b = CTrue \/ b = CNever).
Proof.
  destruct f as [|f]; [discriminate|]. rewrite lub_S. intros H Hc.
  destruct b as [| | | | | |eb|rb|lb|nb]; auto; exfalso; destruct a as [| | | | | |ea|ra|la|na];
    cbn [is_bool_ty] in H; try discriminate H; try (injection H as <-; destruct Hc; discriminate).
  - destruct (lub true f ea eb); cbn in H; inversion H; subst; destruct Hc; discriminate.
  - unfold lub_rec in H. destruct (negb (same_keys_b ra rb)); [discriminate|].
    destruct (lub_go f rb ra); inversion H; subst; destruct Hc; discriminate.
  - destruct (str_eqb na nb); inversion H; subst; destruct Hc; discriminate.
Qed.

(* Capability keys are injective (for attribute names shorter than 10^39 bytes on one side: Text.print_nat prints at most 40
   digits) *)
Lemma digits_of_full : forall f z acc, (1 <= f)%nat -> 10 ^ (Z.of_nat f - 1) <= z ->
  List.length (digits_of f z acc) = (f + List.length acc)%nat.
Proof.
  induction f as [|f IH]; intros z acc Hf Hz; [lia|].
  cbn [digits_of]. destruct f as [|f'].
  - destruct (z <? 10); cbn [digits_of List.length]; lia.
  - assert (Hp : 10 ^ (Z.of_nat (S (S f')) - 1) = 10 * 10 ^ (Z.of_nat (S f') - 1)).
    { replace (Z.of_nat (S (S f')) - 1) with (Z.succ (Z.of_nat (S f') - 1)) by lia. rewrite Z.pow_succ_r by lia. reflexivity. }
    rewrite Hp in Hz.
    assert (Hpos : 1 <= 10 ^ (Z.of_nat (S f') - 1)) by (apply Z.lt_pred_le; apply Z.pow_pos_nonneg; lia).
    destruct (Z.ltb_spec z 10) as [Hlt|Hge]; [lia|].
    rewrite IH; [cbn [List.length]; lia | lia |].
    apply Z.div_le_lower_bound; lia.
Qed.

Definition short_key (k : str) : bool := Z.of_nat (List.length k) <? 10 ^ 39.

Lemma print_nat_inj_short n1 n2 : 0 <= n1 < 10 ^ 39 -> 0 <= n2 -> print_nat n1 = print_nat n2 -> n1 = n2.
Proof.
  intros H1 H2 E.
  assert (L1 : (List.length (print_nat n1) <= 39)%nat) by (apply TextProofs.print_nat_length; [exact H1 | lia]).
  destruct (Z.lt_ge_cases n2 (10 ^ 40)) as [Hlt|Hge].
  - assert (P1 : parse_digits (print_nat n1) = Some n1) by (apply TextProofs.parse_print_nat; lia).
    assert (P2 : parse_digits (print_nat n2) = Some n2) by (apply TextProofs.parse_print_nat; lia).
    rewrite E in P1. congruence.
  - exfalso. assert (L2 : List.length (print_nat n2) = 40%nat).
    { unfold print_nat. rewrite digits_of_full; [reflexivity | lia |]. change (Z.of_nat 40 - 1) with 39.
      assert (10 ^ 39 <= 10 ^ 40) by (apply Z.pow_le_mono_r; lia). lia. }
    rewrite E in L1. lia.
Qed.

Definition seg (k : str) : str := [46] ++ s_of "#" ++ print_nat (Z.of_nat (List.length k)) ++ [58] ++ k.

(* two texts that agree and are each cut at the first separator s (or end there) are cut at the same place *)
Lemma app_sep_inj (s : Z) : forall d d' X X', ~ In s d -> ~ In s d' ->
  (X = [] \/ exists r, X = s :: r) -> (X' = [] \/ exists r, X' = s :: r) -> d ++ X = d' ++ X' -> d = d' /\ X = X'.
Proof.
  induction d as [|c d IH]; intros [|c' d'] X X' Hd Hd' HX HX' E; cbn [app] in E.
  - auto.
  - exfalso. subst X. destruct HX as [F|[r F]]; [discriminate|]. injection F as -> _. apply Hd'. left; reflexivity.
  - exfalso. subst X'. destruct HX' as [F|[r F]]; [discriminate|]. injection F as -> _. apply Hd. left; reflexivity.
  - injection E as -> E. destruct (IH d' X X') as [-> ->]; auto; intros F; [apply Hd | apply Hd']; right; exact F.
Qed.

Lemma digits_no_colon d : Forall (fun c => is_digit c = true) d -> ~ In 58 d.
Proof. intros H F. rewrite Forall_forall in H. specialize (H _ F). discriminate H. Qed.

Lemma app_inj_length {A} (a a' b b' : list A) : List.length a = List.length a' -> a ++ b = a' ++ b' -> a = a' /\ b = b'.
Proof.
  revert a'. induction a as [|x a IH]; intros [|x' a'] L E; cbn in *; try discriminate; auto.
  inversion E; subst. destruct (IH a') as [-> ->]; auto.
Qed.

Lemma seg_inj k k' R R' : short_key k = true -> seg k ++ R = seg k' ++ R' -> k = k' /\ R = R'.
Proof.
  unfold seg, short_key. intros Hs E. apply Z.ltb_lt in Hs.
  change (s_of "#") with [35] in E. cbn [app] in E. inversion E as [E1]. clear E.
  rewrite <- !app_assoc in E1. cbn [app] in E1.
  apply (app_sep_inj 58) in E1; eauto using digits_no_colon, TextProofs.print_nat_all_digits.
  destruct E1 as [Ed Ek]. injection Ek as Ek.
  apply print_nat_inj_short in Ed; [|lia|lia].
  apply Nat2Z.inj in Ed. apply app_inj_length in Ek; auto.
Qed.

Lemma seg_cons k : exists r, seg k = 46 :: r.
Proof. unfold seg. cbn [app]. eexists; reflexivity. Qed.

Fixpoint epath (e : expr) : option (var * list str) :=
  match e with
  | EVar x => Some (x, [])
  | EAccess a k => match epath a with Some (x, ks) => Some (x, ks ++ [k]) | None => None end
  | _ => None
  end.

Lemma cap_key_path e key : cap_key e = Some key ->
  exists x ks, epath e = Some (x, ks) /\ key = var_name x ++ List.concat (map seg ks).
Proof.
  revert key. induction e; intros key H; cbn [cap_key] in H; try discriminate.
  - inversion H; subst. exists x, []. cbn. rewrite app_nil_r. auto.
  - destruct (cap_key e) as [p|] eqn:E; [|discriminate]. inversion H; subst.
    destruct (IHe p eq_refl) as (x & ks & Ep & ->). exists x, (ks ++ [k]). cbn [epath]. rewrite Ep. split; [reflexivity|].
    rewrite map_app, concat_app. cbn [map List.concat]. rewrite app_nil_r. unfold seg. rewrite <- !app_assoc. reflexivity.
Qed.

Lemma epath_inj : forall e e' pp, epath e = Some pp -> epath e' = Some pp -> e = e'.
Proof.
  induction e; intros e' pp H H'; cbn [epath] in H; try discriminate.
  - inversion H; subst. destruct e'; cbn [epath] in H'; try discriminate.
    + inversion H'; reflexivity.
    + destruct (epath e') as [[y ks]|]; [|discriminate]. inversion H'. destruct ks; discriminate.
  - destruct (epath e) as [[x ks]|] eqn:E; [|discriminate]. inversion H; subst.
    destruct e'; cbn [epath] in H'; try discriminate.
    + inversion H'. destruct ks; discriminate.
    + destruct (epath e') as [[y ks']|] eqn:E'; [|discriminate]. inversion H'; subst.
      apply app_inj_tail in H2. destruct H2 as [-> ->]. f_equal. eapply IHe; eauto.
Qed.

Fixpoint short_path (e : expr) : bool :=
  match e with
  | EAccess a k => short_key k && short_path a
  | _ => true
  end.

Lemma epath_short e x ks : epath e = Some (x, ks) -> short_path e = true -> forallb short_key ks = true.
Proof.
  revert x ks. induction e; intros x0 ks H Hs; cbn [epath] in H; try discriminate.
  - inversion H; reflexivity.
  - destruct (epath e) as [[y ks']|] eqn:E; [|discriminate]. inversion H; subst.
    cbn [short_path] in Hs. apply andb_true_iff in Hs. destruct Hs as [Hk Hs].
    rewrite forallb_app. rewrite (IHe _ _ eq_refl Hs). cbn. rewrite Hk. reflexivity.
Qed.

Lemma segs_inj : forall ks ks', forallb short_key ks = true -> List.concat (map seg ks) = List.concat (map seg ks') -> ks = ks'.
Proof.
  induction ks as [|k ks IH]; intros [|k' ks'] Hs E; cbn [map List.concat] in E.
  - reflexivity.
  - destruct (seg_cons k') as [r Hr]. rewrite Hr in E. discriminate.
  - destruct (seg_cons k) as [r Hr]. rewrite Hr in E. discriminate.
  - cbn [forallb] in Hs. apply andb_true_iff in Hs. destruct Hs as [Hk Hs].
    apply seg_inj in E; [|exact Hk]. destruct E as [-> E]. f_equal. apply IH; assumption.
Qed.

Lemma segs_head ks : List.concat (map seg ks) = [] \/ exists r, List.concat (map seg ks) = 46 :: r.
Proof.
  destruct ks as [|k ks]; [left; reflexivity|]. right. cbn [map List.concat]. destruct (seg_cons k) as [r ->]. eexists; reflexivity.
Qed.

Lemma var_name_eq x y : var_name x = var_name y -> x = y.
Proof. destruct x, y; intros E; try reflexivity; vm_compute in E; discriminate E. Qed.

Lemma var_name_no_dot x : ~ In 46 (var_name x).
Proof. destruct x; vm_compute; intros H; repeat (destruct H as [H|H]; [discriminate H|]); exact H. Qed.

(* one side short is enough: the other side is ANY expression with the same key *)
Theorem cap_key_inj a b key : short_path a = true -> cap_key a = Some key -> cap_key b = Some key -> b = a.
Proof.
  intros Hs Ha Hb.
  destruct (cap_key_path _ _ Ha) as (x & ks & Pa & Ka). destruct (cap_key_path _ _ Hb) as (y & ks' & Pb & Kb).
  rewrite Ka in Kb. apply (app_sep_inj 46) in Kb; auto using var_name_no_dot, segs_head. destruct Kb as [Kx Kb]. apply var_name_eq in Kx. subst y.
  apply segs_inj in Kb; [|eapply epath_short; eauto]. subst ks'.
  eapply epath_inj; eauto.
Qed.

Module SRP := Cedar.Proofs.SchemaResolveProofs.

(* Depth-first search with one visited set, as the validator writes it four times (entity types, two searches of the action graph, the
   closure of an action's groups): [w fuel u vis] answers whether a node with [hit] is reachable from u through [parents], skipping
   the nodes of vis, and returns the enlarged visited set.  A search that answers false has visited u and everything reachable from
   it, none of which is a hit.  Fuel: a node is expanded only while it is unvisited, and only nodes of [keys] have parents. *)
Section Search.
  Context {A : Type} (eqb : A -> A -> bool).
  Hypothesis eqb_eq : forall x y, eqb x y = true <-> x = y.
  Variables (parents : A -> list A) (keys : list A) (hit : A -> bool) (w : nat -> A -> list A -> bool * list A).
  Hypothesis parents_keys : forall x p, In p (parents x) -> In x keys.

  Definition wgo (f : nat) : list A -> list A -> bool * list A :=
    fix go (ps vis : list A) : bool * list A :=
      match ps with
      | [] => (false, vis)
      | p :: r => if hit p then (true, vis) else let '(b, v) := w f p vis in if b then (true, v) else go r v
      end.
  Hypothesis w_S : forall f u vis,
    w (S f) u vis = if existsb (eqb u) vis then (false, vis) else wgo f (parents u) (u :: vis).

  Definition unv (V : list A) : nat := List.length (filter (fun k => negb (existsb (eqb k) V)) keys).

  Lemma unv_mono v v' : incl v v' -> (unv v' <= unv v)%nat.
  Proof.
    intros H. apply SRP.filter_length_mono. intros x _ Hx.
    destruct (existsb (eqb x) v) eqn:E; [|reflexivity]. apply (existsb_eqb_In eqb eqb_eq), H, (existsb_eqb_In eqb eqb_eq) in E.
    rewrite E in Hx. discriminate.
  Qed.

  Lemma unv_cons u V : In u keys -> existsb (eqb u) V = false -> (unv (u :: V) < unv V)%nat.
  Proof.
    intros Hk Em. apply (SRP.filter_length_strict _ _ _ u); [|exact Hk | rewrite Em; reflexivity|].
    - intros x _ Hx. cbn [existsb] in Hx. destruct (existsb (eqb x) V); [rewrite orb_true_r in Hx; discriminate | reflexivity].
    - cbn [existsb]. rewrite (proj2 (eqb_eq u u) eq_refl). reflexivity.
  Qed.

  Lemma unv_le V : (unv V <= List.length keys)%nat.
  Proof. apply SRP.filter_length_le. Qed.

  (* the nodes V' adds to V are fully explored: all their parents are in V' and none is a hit; [explored [] V]: V is closed *)
  Definition explored (V V' : list A) : Prop :=
    incl V V' /\ forall x, In x V' -> ~ In x V -> forall p, In p (parents x) -> hit p = false /\ In p V'.

  Lemma explored_refl V : explored V V.
  Proof. split; [apply incl_refl|]. intros x H1 H2. contradiction. Qed.

  Lemma explored_trans V1 V2 V3 : explored V1 V2 -> explored V2 V3 -> explored V1 V3.
  Proof.
    intros [I1 E1] [I2 E2]. split; [eapply incl_tran; eauto|].
    intros x Hx3 Hx1 p Hp. destruct (existsb (eqb x) V2) eqn:H2.
    - apply (existsb_eqb_In eqb eqb_eq) in H2. destruct (E1 x H2 Hx1 p Hp) as [Hne Hin]. split; [exact Hne | apply I2, Hin].
    - apply (E2 x Hx3); [|exact Hp]. intros X. apply (existsb_eqb_In eqb eqb_eq) in X. congruence.
  Qed.

  Lemma wgo_false f (IH : forall u V V', (unv V + 1 <= f)%nat -> w f u V = (false, V') -> explored V V' /\ In u V') :
    forall qs v V', (unv v + 1 <= f)%nat -> wgo f qs v = (false, V') ->
      explored v V' /\ forall p, In p qs -> hit p = false /\ In p V'.
  Proof.
    induction qs as [|q r IHr]; intros v V' Hv Hg; cbn [wgo] in Hg.
    - inversion Hg; subst. split; [apply explored_refl | intros p []].
    - destruct (hit q) eqn:Eq; [discriminate|]. destruct (w f q v) as [[|] v1] eqn:E; [discriminate|].
      destruct (IH _ _ _ Hv E) as [Ex1 Hp1].
      destruct (IHr v1 V') as [Ex2 Hr]; [pose proof (unv_mono _ _ (proj1 Ex1)); lia | exact Hg |].
      split; [eapply explored_trans; eauto|].
      intros p [<-|Hp]; [|apply Hr, Hp]. split; [exact Eq | apply (proj1 Ex2), Hp1].
  Qed.

  Lemma walk_false : forall fuel u V V', (unv V + 1 <= fuel)%nat -> w fuel u V = (false, V') -> explored V V' /\ In u V'.
  Proof.
    induction fuel as [|f IH]; intros u V V' Hf H; [lia|].
    rewrite w_S in H. destruct (existsb (eqb u) V) eqn:Em.
    - inversion H; subst. split; [apply explored_refl | apply (existsb_eqb_In eqb eqb_eq), Em].
    - destruct (parents u) as [|p0 ps] eqn:Ep.
      + (* a node without parents need not be a key: nothing to expand *)
        cbn [wgo] in H. inversion H; subst. split; [|left; reflexivity]. split; [intros x Hx; right; exact Hx|].
        intros x [<-|Hx] Hn p Hp; [rewrite Ep in Hp; destruct Hp | contradiction].
      + assert (Hkey : In u keys) by (apply (parents_keys u p0); rewrite Ep; left; reflexivity).
        pose proof (unv_cons u V Hkey Em) as Hlt. rewrite <- Ep in H.
        destruct (wgo_false f IH (parents u) (u :: V) V' ltac:(lia) H) as [[I1 E1] Hps].
        split; [|apply I1; left; reflexivity]. split; [intros x Hx; apply I1; right; exact Hx|].
        intros x Hx' Hx p Hp. destruct (eqb x u) eqn:Exu.
        * apply eqb_eq in Exu. subst x. apply Hps, Hp.
        * apply (E1 x Hx'); [|exact Hp]. intros [X|X]; [|contradiction]. subst x. rewrite (proj2 (eqb_eq u u) eq_refl) in Exu. discriminate.
  Qed.

  Lemma search_false fuel u V V' : explored [] V -> (unv V + 1 <= fuel)%nat -> w fuel u V = (false, V') ->
    explored [] V' /\ incl V V' /\ In u V'.
  Proof.
    intros Hc Hf H. destruct (walk_false _ _ _ _ Hf H) as [Ex Hu]. split; [eapply explored_trans; eauto|]. split; [apply Ex | exact Hu].
  Qed.

  Variable edge : A -> A -> Prop.
  Hypothesis edge_parents : forall x p, edge x p -> In p (parents x).

  Lemma explored_no_hit V u p : explored [] V -> In u V -> clos_trans A edge u p -> In p V /\ hit p = false.
  Proof.
    intros [_ Hc] Hu Hp. revert Hu. induction Hp as [x y X | x y z _ IH1 _ IH2]; intros Hx.
    - destruct (Hc x Hx (fun F => F) y (edge_parents _ _ X)). auto.
    - exact (IH2 (proj1 (IH1 Hx))).
  Qed.

  Theorem search_complete fuel u p : (List.length keys < fuel)%nat -> clos_trans A edge u p -> hit p = true -> fst (w fuel u []) = true.
  Proof.
    intros Hf Hp Hh. destruct (w fuel u []) as [[|] V'] eqn:E; [reflexivity|]. exfalso.
    pose proof (unv_le []) as Hl. destruct (search_false fuel u [] V' (explored_refl []) ltac:(lia) E) as (Hc & _ & Hu).
    destruct (explored_no_hit V' u p Hc Hu Hp) as [_ Hn]. congruence.
  Qed.
End Search.

Section DescC.
  Variable sch : tschema.
  Definition tparents (c : str) : list str := match entity_of sch c with Some e => te_parents e | None => [] end.
  Definition tedge (a p : str) : Prop := In p (tparents a).
  Definition declared : list str := map fst (ts_entities sch).

  Lemma tparents_declared c p : In p (tparents c) -> In c declared.
  Proof.
    unfold tparents, entity_of, declared. destruct (alookup c (ts_entities sch)) eqn:E; [|intros []].
    intros _. apply alookup_keys. congruence.
  Qed.

  (* completeness of is_descendant_ty: a type-level path is always found *)
  Theorem is_descendant_ty_complete child anc : clos_trans _ tedge child anc -> is_descendant_ty sch child anc = true.
  Proof.
    intros Hp.
    apply (search_complete str_eqb str_eqb_eq tparents declared (fun p => str_eqb p anc) (fun f c vis => desc sch f c anc vis)
             tparents_declared (fun _ _ _ => eq_refl) tedge (fun _ _ H => H) _ child anc); [|exact Hp | apply str_eqb_refl].
    unfold declared. rewrite map_length. lia.
  Qed.

  Definition aparents_l (u : uid) : list uid := match aparents sch u with Some ps => ps | None => [] end.

  Lemma aparents_In u ps : aparents sch u = Some ps -> In (u, ps) (ts_agraph sch).
  Proof.
    unfold aparents. induction (ts_agraph sch) as [|[a qs] r IH]; [discriminate|].
    destruct (uid_eqb a u) eqn:E.
    - apply uid_eqb_eq in E. subst a. intros H. inversion H; subst. left; reflexivity.
    - intros H. right. apply IH, H.
  Qed.

  (* direct membership edge of the schema's action graph, and its transitive closure *)
  Definition aedge (u p : uid) : Prop := exists ps, aparents sch u = Some ps /\ In p ps.
  Definition aclosure : uid -> uid -> Prop := clos_trans uid aedge.

  Definition akeys : list uid := map fst (ts_agraph sch).

  Lemma aedge_parents u p : aedge u p <-> In p (aparents_l u).
  Proof.
    unfold aedge, aparents_l. destruct (aparents sch u) as [ps|]; split; [intros (qs & E & H); congruence | eauto | intros (qs & E & _); discriminate | intros []].
  Qed.

  Lemma aedge_key u p : aedge u p -> In u akeys.
  Proof. intros (ps & H & _). apply aparents_In in H. unfold akeys. apply in_map_iff. exists (u, ps). auto. Qed.

  Lemma aparents_l_key u p : In p (aparents_l u) -> In u akeys.
  Proof. intros H. apply (aedge_key u p), aedge_parents, H. Qed.

  Lemma umem_In u l : umem u l = true <-> In u l.
  Proof. apply (existsb_eqb_In uid_eqb uid_eqb_eq). Qed.

  Lemma uid_dec (x y : uid) : {x = y} + {x <> y}.
  Proof. destruct (uid_eqb x y) eqn:E; [left; apply uid_eqb_eq, E | right; intros ->; rewrite uid_eqb_refl in E; discriminate]. Qed.

  (* the fuel the validator gives covers the search measure on the action graph *)
  Lemma akeys_fuel V : (unv uid_eqb akeys V + 1 <= S (List.length (ts_agraph sch)))%nat.
  Proof. pose proof (unv_le uid_eqb akeys V) as H. unfold akeys in *. rewrite map_length in H. lia. Qed.

  Lemma aclosure_first u p : aclosure u p -> exists z, aedge u z.
  Proof. apply clos_trans_first. Qed.
  Lemma tedge_first x y : clos_trans _ tedge x y -> exists w, tedge x w.
  Proof. apply clos_trans_first. Qed.

  Section AWalk.
    Variable anc : str.
    Definition ahit (p : uid) : bool := str_eqb (fst p) anc.
    Definition aw (f : nat) (u : uid) (vis : list uid) : bool * list uid := awalk sch f u anc vis.

    Lemma awalk_S f u vis : aw (S f) u vis = if existsb (uid_eqb u) vis then (false, vis) else wgo ahit aw f (aparents_l u) (u :: vis).
    Proof. unfold aw, aparents_l. cbn [awalk]. destruct (aparents sch u); reflexivity. Qed.

    Definition ogo (child : str) : list (uid * list uid) -> list uid -> bool * list uid :=
      fix go (l : list (uid * list uid)) (vis : list uid) : bool * list uid :=
        match l with
        | [] => (false, vis)
        | (a, _) :: r => if str_eqb (fst a) child
                         then let '(b, v) := awalk sch (S (List.length (ts_agraph sch))) a anc vis in if b then (true, v) else go r v
                         else go r vis
        end.

    Lemma ogo_false child : forall l V V', explored aparents_l ahit [] V -> ogo child l V = (false, V') ->
      explored aparents_l ahit [] V' /\ incl V V' /\ forall a ps, In (a, ps) l -> fst a = child -> In a V'.
    Proof.
      induction l as [|[a qs] r IH]; intros V V' Hc H; cbn [ogo] in H.
      - inversion H; subst. split; [exact Hc|]. split; [apply incl_refl | intros a ps []].
      - destruct (str_eqb (fst a) child) eqn:Ea.
        + destruct (awalk sch (S (List.length (ts_agraph sch))) a anc V) as [[|] v1] eqn:E; [discriminate|].
          destruct (search_false uid_eqb uid_eqb_eq aparents_l akeys ahit aw aparents_l_key awalk_S _ a V v1 Hc (akeys_fuel V) E) as (Hc1 & I1 & Ha).
          destruct (IH _ _ Hc1 H) as (Hc' & I' & Hall).
          split; [exact Hc'|]. split; [eapply incl_tran; eauto|].
          intros a' ps [X|X] Hty; [inversion X; subst a'; apply I', Ha | eapply Hall; eauto].
        + destruct (IH _ _ Hc H) as (Hc' & I' & Hall). split; [exact Hc'|]. split; [exact I'|].
          intros a' ps [X|X] Hty; [|eapply Hall; eauto]. inversion X; subst a'. subst child. rewrite str_eqb_refl in Ea. discriminate.
    Qed.
  End AWalk.

  (* completeness of isActionDescendant: a path in the action graph to the target is always found *)
  Theorem areach_complete u p : aclosure u p -> fst (areach sch (S (List.length (ts_agraph sch))) u p []) = true.
  Proof.
    intros Hp.
    apply (search_complete uid_eqb uid_eqb_eq aparents_l akeys (fun q => uid_eqb q p) (fun f x vis => areach sch f x p vis) aparents_l_key)
      with (edge := aedge) (u := u) (p := p);
      [|intros x q; apply aedge_parents | unfold akeys; rewrite map_length; lia | exact Hp | apply uid_eqb_refl].
    intros f x vis. unfold aparents_l. cbn [areach]. destruct (aparents sch x); reflexivity.
  Qed.

  Lemma is_action_ty_desc_eq child anc :
    is_action_ty_desc sch child anc = is_action_type child && is_action_type anc && fst (ogo anc child (ts_agraph sch) []).
  Proof. reflexivity. Qed.

  (* completeness of isActionTypeDescendant: a path in the action graph is always found *)
  Theorem is_action_ty_desc_complete u p : aclosure u p -> is_action_type (fst u) = true -> is_action_type (fst p) = true ->
    is_action_ty_desc sch (fst u) (fst p) = true.
  Proof.
    intros Hp Hu Hpt. rewrite is_action_ty_desc_eq, Hu, Hpt. cbn [andb].
    destruct (ogo (fst p) (fst u) (ts_agraph sch) []) as [[|] V'] eqn:E; [reflexivity|]. exfalso.
    destruct (ogo_false (fst p) (fst u) _ _ _ (explored_refl _ _ []) E) as (Hc & _ & Hall).
    destruct (clos_trans_first _ _ _ Hp) as (z & ps & Hz & _). apply aparents_In in Hz.
    destruct (explored_no_hit aparents_l _ aedge (fun x q => proj1 (aedge_parents x q)) V' u p Hc (Hall _ _ Hz eq_refl) Hp) as [_ Hn].
    unfold ahit in Hn. rewrite str_eqb_refl in Hn. discriminate.
  Qed.

  (* Well-formedness of the schema's action graph and of the action entity types:
     (a) every declared action has an action entity type (resolveActions builds the uid with qualifyActionType), and every listed
         parent is itself a declared action (validateActionMembership: "undefined parent action");
     (b) an action entity type is neither a declared nor an enumerated entity type (Cedar reserves the type name Action; Go's
         Validator.Entity tests isActionEntity FIRST, so for such a name entity_ok and the Go code would disagree anyway);
     (c) no declared entity type lists an action entity type among its parent types (memberOfTypes are entity types; with (b) this is
         "every parent type is declared or enumerated");
     (d) ts_actions and the keys of ts_agraph are the same set (both list the resolved schema's Actions map). *)
  Definition agraph_wf : Prop :=
    (forall u, In u (ts_actions sch) <-> In u akeys) /\
    (forall a ps, In (a, ps) (ts_agraph sch) -> is_action_type (fst a) = true /\ forall p, In p ps -> In p akeys) /\
    (forall n, is_action_type n = true -> entity_of sch n = None /\ smem n (ts_enums sch) = false) /\
    (forall n te p, entity_of sch n = Some te -> In p (te_parents te) -> is_action_type p = false).

  (* What validateActionEntity (x/exp/schema/validate/entity.go) establishes for an action entity of the store: the action is declared,
     and its parents are exactly the transitive closure of its declared groups - here only "are in the closure" is needed. *)
  Definition actions_conform (st : store) : Prop :=
    forall u e, lookup st u = Some e -> is_action_type (fst u) = true -> entity_of sch (fst u) = None -> smem (fst u) (ts_enums sch) = false ->
      exists ps, aparents sch u = Some ps /\ forall p, In p (e_parents e) -> aclosure u p.

  (* Validator.Entity rejects an entity whose type is neither an action type, nor declared, nor enumerated ("entity type not found in
     schema"); entity_ok does not say it *)
  Definition store_types_known (st : store) : Prop :=
    forall u e, lookup st u = Some e ->
      entity_of sch (fst u) <> None \/ smem (fst u) (ts_enums sch) = true \/ is_action_type (fst u) = true.

  (* everything the `in` case needs beyond env_ok *)
  Definition in_hyps (st : store) : Prop := agraph_wf /\ actions_conform st /\ store_types_known st.

  Lemma akey_action u : agraph_wf -> In u akeys -> is_action_type (fst u) = true.
  Proof.
    intros (_ & Ha & _) Hk. unfold akeys in Hk. apply in_map_iff in Hk. destruct Hk as ([a ps] & <- & Hin). apply (Ha _ _ Hin).
  Qed.

  Lemma aedge_target_action u p : agraph_wf -> aedge u p -> is_action_type (fst p) = true.
  Proof.
    intros Hw (ps & Hps & Hp). apply akey_action; [exact Hw|]. destruct Hw as (_ & Ha & _). apply aparents_In in Hps. apply (Ha _ _ Hps), Hp.
  Qed.

  (* every store ancestor of an entity: same entity, or a type-level path, or a path in the action graph *)
  Lemma reach_types st a b : store_ok sch st -> in_hyps st -> reach_st st a b ->
    a = b \/ clos_trans _ tedge (fst a) (fst b) \/ aclosure a b.
  Proof.
    intros Hst (Hw & Hac & Hk) Hr. induction Hr as [|y z Hr IH He]; [left; reflexivity|].
    destruct He as (ps & Hps & Hz). unfold parents_of in Hps.
    destruct (lookup st y) as [e|] eqn:El; [|discriminate]. cbn in Hps. inversion Hps; subst ps.
    pose proof (Hst _ _ El) as Hok. unfold entity_ok in Hok. right.
    destruct (alookup (fst y) (ts_entities sch)) as [te|] eqn:Et.
    - destruct Hok as (_ & _ & Hpar). specialize (Hpar _ Hz).
      assert (Hedge : tedge (fst y) (fst z)).
      { unfold tedge, tparents, entity_of. rewrite Et. exact Hpar. }
      destruct IH as [->|[IH|IH]].
      + left. apply t_step; exact Hedge.
      + left. eapply t_trans; [exact IH | apply t_step; exact Hedge].
      + exfalso. destruct (clos_trans_last _ _ _ IH) as (w & Hwy). pose proof (aedge_target_action _ _ Hw Hwy) as Hy.
        destruct Hw as (_ & _ & Hb & _). destruct (Hb _ Hy) as [Hn _]. unfold entity_of in Hn. congruence.
    - destruct Hok as (_ & _ & Henum). destruct (smem (fst y) (ts_enums sch)) eqn:Es.
      + rewrite (Henum eq_refl) in Hz. destruct Hz.
      + assert (Hy : is_action_type (fst y) = true).
        { destruct (Hk _ _ El) as [H|[H|H]]; [unfold entity_of in H; congruence | congruence | exact H]. }
        destruct (Hac _ _ El Hy Et Es) as (qs & _ & Hcl). specialize (Hcl _ Hz).
        destruct IH as [->|[IH|IH]].
        * right. exact Hcl.
        * exfalso. destruct (clos_trans_last _ _ _ IH) as (w & Hwy). unfold tedge, tparents in Hwy.
          destruct (entity_of sch w) as [tw|] eqn:Ew; [|destruct Hwy].
          destruct Hw as (_ & _ & _ & Hc). rewrite (Hc _ _ _ Ew Hwy) in Hy. discriminate.
        * right. eapply t_trans; eauto.
  Qed.

  Lemma any_descendant_complete ll r lt rt : In lt ll -> In rt r ->
    (lt = rt \/ clos_trans _ tedge lt rt \/ is_action_ty_desc sch lt rt = true) ->
    any_descendant sch ll r = true.
  Proof.
    intros Hl Hr H. unfold any_descendant. apply existsb_exists. exists lt. split; [exact Hl|].
    apply existsb_exists. exists rt. split; [exact Hr|].
    destruct H as [->|[H|H]].
    - rewrite str_eqb_refl. reflexivity.
    - rewrite (is_descendant_ty_complete _ _ H). apply orb_true_iff. left. apply orb_true_r.
    - rewrite H. apply orb_true_r.
  Qed.

  Lemma reach_any_descendant st a b ll r : store_ok sch st -> in_hyps st -> reach_st st a b -> In (fst a) ll -> In (fst b) r ->
    any_descendant sch ll r = true.
  Proof.
    intros Hst Hh Hr Hl Hrr. apply (any_descendant_complete ll r (fst a) (fst b) Hl Hrr).
    destruct (reach_types st a b Hst Hh Hr) as [->|[H|H]]; [left; reflexivity | right; left; exact H|].
    right. right. destruct Hh as (Hw & _). apply is_action_ty_desc_complete; [exact H | |].
    - destruct (clos_trans_first _ _ _ H) as (z & Hz). apply akey_action; [exact Hw | eapply aedge_key; eauto].
    - destruct (clos_trans_last _ _ _ H) as (w & Hwb). eapply aedge_target_action; eauto.
  Qed.
  (* the store ancestors of a DECLARED ACTION are its strict ancestors in the action graph, which are declared actions *)
  Lemma reach_action st l x : store_ok sch st -> in_hyps st -> In l (ts_actions sch) -> reach_st st l x ->
    l = x \/ (aclosure l x /\ In x (ts_actions sch)).
  Proof.
    intros Hst Hh Hl Hr. destruct (reach_types st l x Hst Hh Hr) as [->|[H|H]]; [left; reflexivity | exfalso | right].
    - destruct Hh as (Hw & _). destruct (clos_trans_first _ _ _ H) as (w & Hw1). unfold tedge, tparents in Hw1.
      destruct (entity_of sch (fst l)) as [te|] eqn:Ee; [|destruct Hw1].
      pose proof (akey_action l Hw) as Ha. destruct Hw as (Hd & _ & Hb & _). specialize (Ha (proj1 (Hd l) Hl)).
      destruct (Hb _ Ha) as [Hn _]. congruence.
    - split; [exact H|]. destruct Hh as ((Hd & Ha & _) & _). destruct (clos_trans_last _ _ _ H) as (w & ps & Hps & Hx).
      apply aparents_In in Hps. apply Hd. apply (Ha _ _ Hps), Hx.
  Qed.
End DescC.

(* do_in on typed operands *)
Lemma all_entities_typed l r : Forall (fun v => vtyped v (CEnt r)) l ->
  exists us, all_entities l = Some us /\ Forall (fun u => In (fst u) r) us.
Proof.
  induction l as [|v l IH]; intros H.
  - exists []. split; [reflexivity | constructor].
  - inversion H as [|x y Hv Hl]; subst. destruct (IH Hl) as (us & E & F).
    destruct (vtyped_shape _ _ Hv) as (t & i & -> & Hin). cbn [all_entities]. rewrite E. exists ((t, i) :: us). split; [reflexivity|].
    constructor; [exact Hin | exact F].
Qed.

Lemma all_entities_any l : Forall (fun v => exists t i, v = VEntity t i) l -> exists us, all_entities l = Some us.
Proof.
  induction l as [|v l IH]; intros H; [exists []; reflexivity|].
  inversion H as [|x y (t & i & ->) Hl]; subst. destruct (IH Hl) as (us & E). cbn [all_entities]. rewrite E. eexists; reflexivity.
Qed.

(* the same function as ScopeProofs.ent, whose lemmas about entity sets apply to it by conversion *)
Definition ent_of (u : uid) : value := VEntity (fst u) (snd u).

(* the set built from a list of entity values has the same members *)
Lemma dedup_ents rs : exists us, all_entities (dedup (map ent_of rs) []) = Some us /\ forall u, In u us <-> In u rs.
Proof.
  destruct (ScopeProofs.all_entities_ents (dedup (map ent_of rs) [])) as (us & E & Hm).
  { intros y Hy. apply dedup_incl in Hy. destruct Hy as [Hy|[]]. apply in_map_iff in Hy. destruct Hy as (v & <- & _). exists v. reflexivity. }
  exists us. split; [exact E|]. intros u. rewrite Hm. apply (ScopeProofs.dedup_ent_members rs).
Qed.

(* `l in w` for an entity or a set of entities given by their uids *)
Lemma do_in_uids_single st l u : exists r, do_in st l (ent_of u) = Ok (VBool r) /\ (r = true <-> reach_st st l u).
Proof.
  destruct u as [t i]. unfold ent_of. cbn [fst snd do_in]. destruct (eval_in_one_correct st l (t, i)) as (r & E & Hiff). rewrite E. exists r. auto.
Qed.

Lemma do_in_uids_set st l rs : exists r, do_in st l (mk_set (map ent_of rs)) = Ok (VBool r) /\ (r = true <-> exists x, In x rs /\ reach_st st l x).
Proof.
  unfold mk_set. cbn [do_in]. destruct (dedup_ents rs) as (us & E & Hm). rewrite E.
  destruct (eval_in_set_correct st l us) as (r & E2 & Hiff). rewrite E2. exists r. split; [reflexivity|].
  rewrite Hiff. split; intros (x & Hx & Hr); exists x; (split; [apply Hm, Hx | exact Hr]).
Qed.

(* rhs of `in`: typed entity or set of entities *)
Lemma do_in_total st u w rt : is_ent_or_set_of_ent rt = true -> vtyped w rt -> exists b, do_in st u w = Ok (VBool b).
Proof.
  intros Hrt Hw. destruct rt as [| | | | | |e| |l|]; try discriminate.
  - destruct e as [| | | | | | | |l|]; try discriminate.
    + destruct (vtyped_shape _ _ Hw) as (l & -> & HF). destruct l as [|x l]; [|inversion HF as [|? ? Hx]; exfalso; exact (vtyped_never _ Hx)].
      cbn [do_in all_entities]. destruct (eval_in_set_correct st u []) as (r & E & _). rewrite E. exists r. reflexivity.
    + destruct (vtyped_shape _ _ Hw) as (l' & -> & HF). destruct (all_entities_typed _ _ HF) as (us & E & _). cbn [do_in]. rewrite E.
      destruct (eval_in_set_correct st u us) as (r & E2 & _). rewrite E2. exists r. reflexivity.
  - destruct (vtyped_shape _ _ Hw) as (t & i & -> & _). cbn [do_in]. destruct (eval_in_one_correct st u (t, i)) as (r & E & _). rewrite E. exists r. reflexivity.
Qed.

(* typed CFalse: no type-level relation between the operand types *)
Lemma do_in_false sch st t i w ll rt r :
  store_ok sch st -> in_hyps sch st -> In t ll ->
  (rt = CEnt r \/ rt = CSet (CEnt r)) -> vtyped w rt -> any_descendant sch ll r = false ->
  do_in st (t, i) w = Ok (VBool false).
Proof.
  intros Hst Hup Ht Hrt Hw Hany.
  destruct Hrt as [-> | ->].
  - destruct (vtyped_ent_inv _ _ Hw) as (t0 & i0 & -> & H1). cbn [do_in].
    destruct (eval_in_one_correct st (t, i) (t0, i0)) as (b & E & Hiff). rewrite E.
    destruct b; [|reflexivity]. exfalso.
    assert (Hr : reach_st st (t, i) (t0, i0)) by (apply Hiff; reflexivity).
    rewrite (reach_any_descendant sch st _ _ ll r Hst Hup Hr Ht H1) in Hany. discriminate.
  - destruct (vtyped_set_inv' _ _ Hw) as (l & -> & H1). destruct (all_entities_typed _ _ H1) as (us & E & F). cbn [do_in]. rewrite E.
    destruct (eval_in_set_correct st (t, i) us) as (b & E2 & Hiff). rewrite E2.
    destruct b; [|reflexivity]. exfalso.
    destruct (proj1 Hiff eq_refl) as (u' & Hu' & Hr). rewrite Forall_forall in F. specialize (F _ Hu').
    rewrite (reach_any_descendant sch st _ _ ll r Hst Hup Hr Ht F) in Hany. discriminate.
Qed.

(* the attribute and tag types of every declared entity type have pairwise distinct record keys (at every depth), and the empty name
   is not a declared entity type.  Only the FIRST declaration of a name counts (alookup). *)
Definition schema_wf (sch : tschema) : Prop :=
  entity_of sch [] = None /\
  forall n te, entity_of sch n = Some te ->
    (forall k t q, alookup k (te_shape te) = Some (t, q) -> WT t) /\
    (forall tt, te_tags te = Some tt -> WT tt).

(* the context type has pairwise distinct keys (at every depth) *)
Definition tenv_wf (sch : tschema) (tv : tenv) : Prop := WT (CRec (tv_context tv)).

Lemma sub_trans a b c : sub a b -> sub b c -> sub a c.
Proof. intros H1 H2 v Hv. apply H2, H1, Hv. Qed.

Lemma get_attr_rec kvs l k at_ req : vtyped (VRecord kvs) (CRec l) -> alookup k l = Some (at_, req) ->
  match rec_get k kvs with Some x => vtyped x at_ | None => req = false end.
Proof.
  intros H E. apply vtyped_rec_inv in H. destruct H as [HF HR].
  destruct (rec_get k kvs) as [x|] eqn:Eg.
  - apply rec_get_In in Eg. rewrite Forall_forall in HF. destruct (HF _ Eg) as (t & q & El & Ht). cbn [fst snd] in *.
    rewrite E in El. inversion El; subst. exact Ht.
  - destruct req; [|reflexivity]. destruct (HR _ _ E) as (v & Hv). congruence.
Qed.

Lemma has_attr_rec_closed kvs l k : vtyped (VRecord kvs) (CRec l) -> alookup k l = None -> rec_get k kvs = None.
Proof.
  intros H E. apply vtyped_rec_inv in H. destruct H as [HF _].
  destruct (rec_get k kvs) as [x|] eqn:Eg; [|reflexivity].
  apply rec_get_In in Eg. rewrite Forall_forall in HF. destruct (HF _ Eg) as (t & q & El & _). cbn [fst] in El. congruence.
Qed.

Section Attr.
  Variable sch : tschema.
  Hypothesis Hwf : schema_wf sch.

  Definition ea_go (attr : str) : list str -> option (cty * bool) -> option (cty * bool) :=
    fix go (l : list str) (acc : option (cty * bool)) : option (cty * bool) :=
       match l with
       | [] => acc
       | et :: r =>
           match entity_of sch et with
           | None => None
           | Some e =>
               match alookup attr (te_shape e) with
               | None => None
               | Some (t, q) =>
                   match acc with
                   | None => go r (Some (t, q))
                   | Some (ta, qa) => match lub' true ta t with Some tl => go r (Some (tl, qa && q)) | None => None end
                   end
               end
           end
       end.

  Lemma lookup_entity_attr_eq l attr : lookup_entity_attr true sch l attr = ea_go attr l None.
  Proof. reflexivity. Qed.

  Lemma ea_go_spec attr : forall l acc at_ req, ea_go attr l acc = Some (at_, req) ->
    match acc with Some (ta, _) => WT ta | None => True end ->
    WT at_ /\
    match acc with Some (ta, qa) => sub ta at_ /\ (req = true -> qa = true) | None => l <> [] end /\
    forall et, In et l -> exists te t q, entity_of sch et = Some te /\ alookup attr (te_shape te) = Some (t, q) /\ sub t at_ /\ (req = true -> q = true).
  Proof.
    induction l as [|et r IH]; intros acc at_ req H Hacc.
    - cbn in H. subst acc. split; [exact Hacc|]. split; [split; [intros v Hv; exact Hv | auto] | intros et []].
    - cbn [ea_go] in H. fold (ea_go attr) in H.
      destruct (entity_of sch et) as [e|] eqn:Ee; [|discriminate].
      destruct (alookup attr (te_shape e)) as [[t q]|] eqn:Ea; [|discriminate].
      assert (Hwt : WT t) by (destruct Hwf as [_ Hw]; destruct (Hw _ _ Ee) as [Hs _]; apply (Hs _ _ _ Ea)).
      destruct acc as [[ta qa]|].
      + destruct (lub' true ta t) as [tl|] eqn:El; [|discriminate].
        destruct (lub'_sub _ _ _ El Hacc Hwt) as (Hwl & S1 & S2).
        destruct (IH _ _ _ H Hwl) as (Hwa & [S3 Hq] & Hall).
        split; [exact Hwa|]. split.
        * split; [eapply sub_trans; eauto | intros Hr; specialize (Hq Hr); apply andb_true_iff in Hq; tauto].
        * intros et' [<-|Hin]; [|apply Hall, Hin]. exists e, t, q. repeat split; auto.
          -- eapply sub_trans; eauto.
          -- intros Hr; specialize (Hq Hr); apply andb_true_iff in Hq; tauto.
      + destruct (IH _ _ _ H Hwt) as (Hwa & [S3 Hq] & Hall).
        split; [exact Hwa|]. split; [discriminate|].
        intros et' [<-|Hin]; [|apply Hall, Hin]. exists e, t, q. repeat split; auto.
  Qed.

  Lemma lookup_attr_WT t k at_ req : WT t -> lookup_attr true sch t k = Some (at_, req) -> WT at_.
  Proof.
    intros Hw H. destruct t; cbn [lookup_attr] in H; try discriminate.
    - unfold WT in *. eapply ty_all_lookup; eauto.
    - rewrite lookup_entity_attr_eq in H. apply ea_go_spec in H; [tauto | exact I].
  Qed.

  Lemma nonzero_declared t i te : entity_of sch t = Some te -> is_zero_uid (t, i) = false.
  Proof.
    intros H. unfold is_zero_uid. cbn [fst snd]. destruct t; [|reflexivity].
    destruct Hwf as [H0 _]. congruence.
  Qed.

  (* attribute access on a typed value *)
  Lemma get_attr_typed st v t k at_ req :
    store_ok sch st -> vtyped v t -> lookup_attr true sch t k = Some (at_, req) ->
    match get_attr st v k with
    | Ok x => vtyped x at_
    | Err EEntity => True
    | Err EAttr => req = false /\ has_attr st v k = Ok (VBool false)
    | Err _ => False
    end.
  Proof.
    intros Hst Hv H. destruct t as [| | | | | | |attrs0|lub0|]; cbn [lookup_attr] in H; try discriminate.
    - destruct (vtyped_rec_inv' _ _ Hv) as (kvs & ->). cbn [get_attr has_attr].
      pose proof (get_attr_rec _ _ _ _ _ Hv H) as G. destruct (rec_get k kvs); [exact G | split; [exact G | reflexivity]].
    - destruct (vtyped_ent_inv _ _ Hv) as (t0 & i & -> & H1). rewrite lookup_entity_attr_eq in H. apply ea_go_spec in H; [|exact I].
      destruct H as (_ & _ & Hall). destruct (Hall _ H1) as (te & t' & q & Ee & Ea & S1 & Hq).
      cbn [get_attr has_attr]. rewrite (nonzero_declared _ i _ Ee).
      destruct (lookup st (t0, i)) as [e|] eqn:El; [|exact I].
      pose proof (Hst _ _ El) as Hok. unfold entity_ok in Hok. cbn [fst] in Hok.
      unfold entity_of in Ee. rewrite Ee in Hok. destruct Hok as (Hattrs & _ & _).
      pose proof (get_attr_rec _ _ _ _ _ Hattrs Ea) as G.
      destruct (rec_get k (e_attrs e)); [apply S1, G|]. subst q.
      split; [|reflexivity]. destruct req; [specialize (Hq eq_refl); discriminate | reflexivity].
  Qed.

  (* `has` on a typed value *)
  Lemma has_attr_typed st v t k :
    store_ok sch st -> vtyped v t -> is_ent_or_rec t = true ->
    exists b, has_attr st v k = Ok (VBool b) /\ vtyped (VBool b) (has_result_type sch t k).
  Proof.
    intros Hst Hv Ht. destruct t as [| | | | | | |attrs0|lub0|]; try discriminate.
    - destruct (vtyped_rec_inv' _ _ Hv) as (kvs & ->). cbn [has_attr has_result_type]. unfold vbool. eexists. split; [reflexivity|].
      destruct (alookup k attrs0) as [[t [|]]|] eqn:Ea.
      + apply vtyped_rec_inv in Hv. destruct Hv as [_ HR]. destruct (HR _ _ Ea) as (x & ->). constructor.
      + constructor.
      + rewrite (has_attr_rec_closed _ _ _ Hv Ea). constructor.
    - destruct (vtyped_ent_inv _ _ Hv) as (t0 & i & -> & H1). cbn [has_attr has_result_type]. unfold vbool.
      match goal with |- context [existsb ?f lub0] => destruct (existsb f lub0) eqn:Eex end.
      + destruct (lookup st (t0, i)) as [e|]; eexists; (split; [reflexivity | constructor]).
      + exists false. split; [|constructor].
        destruct (lookup st (t0, i)) as [e|] eqn:El; [|reflexivity].
        pose proof (Hst _ _ El) as Hok. unfold entity_ok in Hok. cbn [fst] in Hok.
        pose proof (proj1 (Forall_forall _ _) (proj1 (existsb_false_Forall _ _) Eex) _ H1) as Hf. cbv beta in Hf. unfold entity_of in Hf.
        destruct (alookup t0 (ts_entities sch)) as [te|].
        * destruct Hok as (Hattrs & _ & _).
          destruct (alookup k (te_shape te)) eqn:Ea; [discriminate|].
          rewrite (has_attr_rec_closed _ _ _ Hattrs Ea). reflexivity.
        * destruct Hok as (-> & _). reflexivity.
  Qed.

  (* tags *)
  Definition tag_go : list str -> cty -> option cty :=
    fix go (l : list str) (acc : cty) : option cty :=
       match l with
       | [] => Some acc
       | et :: r =>
           match entity_of sch et with
           | Some e => match te_tags e with
                       | None => go r acc
                       | Some t => match lub' true acc t with Some x => go r x | None => None end
                       end
           | None => go r acc
           end
       end.
  Lemma entity_tag_type_eq l : entity_tag_type true sch l = tag_go l CNever.
  Proof. reflexivity. Qed.

  Lemma tag_go_spec : forall l acc t, WT acc -> tag_go l acc = Some t ->
    WT t /\ sub acc t /\
    forall et te tt, In et l -> entity_of sch et = Some te -> te_tags te = Some tt -> sub tt t.
  Proof.
    induction l as [|et r IH]; intros acc t Hacc H; cbn [tag_go] in H; fold tag_go in H.
    - inversion H; subst. split; [exact Hacc|]. split; [intros v Hv; exact Hv | intros et te tt []].
    - destruct (entity_of sch et) as [e|] eqn:Ee.
      + destruct (te_tags e) as [tt0|] eqn:Et.
        * destruct (lub' true acc tt0) as [x|] eqn:El; [|discriminate].
          assert (Hwt : WT tt0) by (destruct Hwf as [_ Hw]; destruct (Hw _ _ Ee) as [_ Hs]; apply (Hs _ Et)).
          destruct (lub'_sub _ _ _ El Hacc Hwt) as (Hwx & S1 & S2).
          destruct (IH _ _ Hwx H) as (Hwt' & S3 & Hall).
          split; [exact Hwt'|]. split; [eapply sub_trans; eauto|].
          intros et' te tt [<-|Hin] Ee' Et'; [|eapply Hall; eauto].
          rewrite Ee in Ee'. inversion Ee'; subst te. rewrite Et in Et'. inversion Et'; subst tt. eapply sub_trans; eauto.
        * destruct (IH _ _ Hacc H) as (Hwt' & S3 & Hall). split; [exact Hwt'|]. split; [exact S3|].
          intros et' te tt [<-|Hin] Ee' Et'; [|eapply Hall; eauto].
          rewrite Ee in Ee'. inversion Ee'; subst te. congruence.
      + destruct (IH _ _ Hacc H) as (Hwt' & S3 & Hall). split; [exact Hwt'|]. split; [exact S3|].
        intros et' te tt [<-|Hin] Ee' Et'; [|eapply Hall; eauto]. congruence.
  Qed.

  (* what a conforming store says about the tags of an entity *)
  Lemma store_tag st t i ent s x : store_ok sch st -> lookup st (t, i) = Some ent -> rec_get s (e_tags ent) = Some x ->
    exists te tt, entity_of sch t = Some te /\ te_tags te = Some tt /\ vtyped x tt.
  Proof.
    intros Hst El Eg. pose proof (Hst _ _ El) as Hok. unfold entity_ok in Hok. cbn [fst] in Hok. unfold entity_of.
    destruct (alookup t (ts_entities sch)) as [te|].
    - destruct Hok as (_ & Htags & _). destruct (Htags _ _ Eg) as (tt & Et & Hx). exists te, tt. auto.
    - destruct Hok as (_ & Hnil & _). rewrite Hnil in Eg. discriminate.
  Qed.

  (* getTag on a typed entity whose tag is present *)
  Lemma get_tag_typed st l t i ent s x tagt : store_ok sch st -> In t l -> entity_tag_type true sch l = Some tagt ->
    lookup st (t, i) = Some ent -> rec_get s (e_tags ent) = Some x -> vtyped x tagt /\ is_zero_uid (t, i) = false.
  Proof.
    intros Hst Hin Ht El Eg. destruct (store_tag _ _ _ _ _ _ Hst El Eg) as (te & tt & Ee & Et & Hx).
    rewrite entity_tag_type_eq in Ht. apply tag_go_spec in Ht; [|exact I]. destruct Ht as (_ & _ & Hall).
    split; [apply (Hall _ _ _ Hin Ee Et), Hx | eapply nonzero_declared; eauto].
  Qed.

  Lemma tag_type_WT l tagt : entity_tag_type true sch l = Some tagt -> WT tagt.
  Proof. rewrite entity_tag_type_eq. intros H. apply tag_go_spec in H; [tauto | exact I]. Qed.

  Lemma has_tags_false st l t i ent s : store_ok sch st -> In t l -> entity_has_tags sch l = false ->
    lookup st (t, i) = Some ent -> rec_get s (e_tags ent) = None.
  Proof.
    intros Hst Hin Hh El. destruct (rec_get s (e_tags ent)) as [v|] eqn:Eg; [|reflexivity].
    destruct (store_tag _ _ _ _ _ _ Hst El Eg) as (te & tt & Ee & Et & _).
    unfold entity_has_tags in Hh. pose proof (proj1 (Forall_forall _ _) (proj1 (existsb_false_Forall _ _) Hh) _ Hin) as Hf. cbv beta in Hf. rewrite Ee, Et in Hf. discriminate.
  Qed.
End Attr.

Lemma vtyped_ext_inv v n : vtyped v (CExt n) ->
  match v with
  | VDecimal _ => n = s_of "decimal" | VIP _ _ _ => n = s_of "ipaddr" | VDatetime _ => n = s_of "datetime" | VDuration _ => n = s_of "duration"
  | _ => False
  end.
Proof. exact (vtyped_shape v (CExt n)). Qed.

Lemma arg_subtype_eq t ty : arg_subtype t ty = true -> t = ty.
Proof.
  destruct ty; cbn [arg_subtype]; try discriminate.
  - destruct t; try discriminate. reflexivity.
  - destruct t; try discriminate. intros H. apply str_eqb_eq in H. subst. reflexivity.
Qed.

Definition res_typed (r : res) (t : cty) : Prop := match r with Ok v => vtyped v t | Err k => allowed_error k = true end.

(* what the evaluator's binds do on a well-typed operand: an error passes through, a value has the shape its type promises *)
Lemma bind_ok r t u k : res_typed r t -> (forall v, vtyped v t -> res_typed (k v) u) -> res_typed (bindr r k) u.
Proof. destruct r; cbn [res_typed bindr]; auto. Qed.

Lemma as_bool_ok v t u k : is_bool_ty t = true -> vtyped v t -> (forall b, vtyped (VBool b) t -> res_typed (k b) u) -> res_typed (as_bool v k) u.
Proof. intros Ht H K. destruct (vtyped_bool_inv v t Ht H) as [b ->]. apply K, H. Qed.
Lemma as_long_ok v u k : vtyped v CLong -> (forall z, res_typed (k z) u) -> res_typed (as_long v k) u.
Proof. intros H K. destruct (vtyped_shape _ _ H) as [z ->]. apply K. Qed.
Lemma as_string_ok v u k : vtyped v CString -> (forall s, res_typed (k s) u) -> res_typed (as_string v k) u.
Proof. intros H K. destruct (vtyped_shape _ _ H) as [z ->]. apply K. Qed.
Lemma as_set_ok v e u k : vtyped v (CSet e) -> (forall l, Forall (fun x => vtyped x e) l -> res_typed (k l) u) -> res_typed (as_set v k) u.
Proof. intros H K. destruct (vtyped_shape _ _ H) as (l & -> & HF). apply K, HF. Qed.
Lemma as_entity_ok v l u k : vtyped v (CEnt l) -> (forall t i, In t l -> res_typed (k (t, i)) u) -> res_typed (as_entity v k) u.
Proof. intros H K. destruct (vtyped_shape _ _ H) as (t & i & -> & Hin). apply K, Hin. Qed.
Lemma as_decimal_ok v u k : vtyped v (xt "decimal") -> (forall z, res_typed (k z) u) -> res_typed (as_decimal v k) u.
Proof. intros H K. apply vtyped_ext_inv in H. destruct v; try contradiction; try (vm_compute in H; discriminate). apply K. Qed.
Lemma as_ip_ok v u k : vtyped v (xt "ipaddr") -> (forall b a p, res_typed (k b a p) u) -> res_typed (as_ip v k) u.
Proof. intros H K. apply vtyped_ext_inv in H. destruct v; try contradiction; try (vm_compute in H; discriminate). apply K. Qed.
Lemma as_datetime_ok v u k : vtyped v (xt "datetime") -> (forall z, res_typed (k z) u) -> res_typed (as_datetime v k) u.
Proof. intros H K. apply vtyped_ext_inv in H. destruct v; try contradiction; try (vm_compute in H; discriminate). apply K. Qed.
Lemma as_duration_ok v u k : vtyped v (xt "duration") -> (forall z, res_typed (k z) u) -> res_typed (as_duration v k) u.
Proof. intros H K. apply vtyped_ext_inv in H. destruct v; try contradiction; try (vm_compute in H; discriminate). apply K. Qed.

(* a checked 64-bit operation: its result, or the overflow error *)
Lemma checked_ok (p : Z * bool) (c : Z -> value) t : (forall r, vtyped (c r) t) ->
  res_typed (let '(r, ok) := p in if ok then Ok (c r) else Err EOverflow) t.
Proof. intros H. destruct p as [r [|]]; [apply H | reflexivity]. Qed.

(* [forall r1, res_typed r1 t1 -> ... -> forall rn, res_typed rn tn -> concl [r1; ...; rn]], by recursion on the types *)
Fixpoint for_args (tys : list cty) (acc : list res) (concl : list res -> Prop) : Prop :=
  match tys with
  | [] => concl (rev acc)
  | t :: ts => forall r, res_typed r t -> for_args ts (r :: acc) concl
  end.

Lemma for_args_Forall2 concl : forall tys acc, for_args tys acc concl -> forall rs, Forall2 res_typed rs tys -> concl (rev acc ++ rs).
Proof.
  induction tys as [|t ts IH]; intros acc H rs HF; inversion HF as [|r ? rs' ? Hr HF']; subst; cbn [for_args] in H.
  - rewrite app_nil_r. exact H.
  - specialize (IH (r :: acc) (H r Hr) rs' HF'). cbn [rev] in IH. rewrite <- app_assoc in IH. exact IH.
Qed.

(* What is to be shown of one function name: the result type of its signature is well formed, a constructor takes one string, and the
   evaluator's function of that name maps well-typed arguments to a value of the result type or an allowed error.  Constructors are
   only accepted on a literal the parser accepts (ext_literal_ok), so they cannot fail either. *)
Definition sig_sound (name : str) (sig : bool * list cty * cty) : Prop :=
  let '(ctor, argtys, ret) := sig in
  WT ret /\ (ctor = true -> argtys = [CString]) /\
  for_args argtys [] (fun rs => (ctor = true -> exists s, rs = [Ok (VString s)] /\ ext_literal_ok name s = true) -> res_typed (call_ext name rs) ret).

Definition name_sound (n : string) : Prop :=
  match ext_sig (s_of n) with Some sig => sig_sound (s_of n) sig | None => True end.

(* One name of the table.  The name is closed, so ext_sig computes its signature and call_ext evaluates to the binds on its arguments
   (the functions listed after `lazy -` stay folded).  A constructor (first branch) is applied to a literal its parser accepts; a
   function or method (second branch) goes through its binds, each discharged by the as_*_ok lemma of its argument type. *)
Ltac ext_row :=
  unfold name_sound;
  match goal with |- context [ext_sig (s_of ?n)] => let x := eval vm_compute in (ext_sig (s_of n)) in change (ext_sig (s_of n)) with x end;
  split; [exact I|]; split; [intros E; first [reflexivity | discriminate E]|]; cbn [for_args rev app]; intros;
  match goal with Hc : _ = true -> _ |- _ =>
    first
    [ destruct (Hc eq_refl) as (s & E & Hlit); injection E as ->;
      lazy -[parse_ip parse_decimal parse_datetime parse_duration] in Hlit |- *;
      match type of Hlit with match ?p with Some _ => _ | None => _ end = _ => destruct p; [|discriminate] end;
      first [apply vt_decimal | apply vt_ip | apply vt_datetime | apply vt_duration]
    | clear Hc;
      lazy -[res_typed bindr as_decimal as_ip as_datetime as_duration Z.ltb Z.leb Z.gtb Z.geb checkedAddI64 checkedSubI64 goquot gorem wrap64
             ip_is_loopback ip_is_multicast ip_contains MillisPerDay MillisPerHour MillisPerMinute MillisPerSecond];
      repeat (eapply bind_ok; [eassumption|]; intros ? ?;
              first [eapply as_decimal_ok | eapply as_ip_ok | eapply as_datetime_ok | eapply as_duration_ok]; [eassumption|]; intros);
      first [apply vt_bool | apply vt_long | apply vt_duration | apply (checked_ok _ VDatetime), vt_datetime | apply (checked_ok _ VDuration), vt_duration] ]
  end.

Lemma tc_ext_names_sound : Forall name_sound (map fst tc_ext_table).
Proof. cbn [tc_ext_table map fst]. repeat (apply Forall_cons; [ext_row|]). apply Forall_nil. Qed.

Lemma table_sig_In tb name sig : table_sig tb name = Some sig -> exists e, In e tb /\ name = s_of (fst e).
Proof.
  induction tb as [|[n [[c a] r]] tb IH]; cbn [table_sig]; [discriminate|]. destruct (nm name n) eqn:E.
  - intros _. exists (n, (c, a, r)). split; [left; reflexivity | symmetry; apply str_eqb_eq, E].
  - intros H. destruct (IH H) as (e & Hin & He). exists e. split; [right; exact Hin | exact He].
Qed.

(* ext_sig answers what a lookup in the generated table answers, so a name with a signature is one of the table's *)
Lemma call_ext_sound name ctor argtys ret :
  ext_sig name = Some (ctor, argtys, ret) ->
  WT ret /\ (ctor = true -> argtys = [CString]) /\
  forall rs, Forall2 res_typed rs argtys ->
    (ctor = true -> exists s, rs = [Ok (VString s)] /\ ext_literal_ok name s = true) ->
    res_typed (call_ext name rs) ret.
Proof.
  intros H. pose proof H as H'. rewrite ext_sig_is_generated_table in H'. apply table_sig_In in H'. destruct H' as (e & Hin & ->).
  pose proof tc_ext_names_sound as HT. rewrite Forall_forall in HT. specialize (HT (fst e) (in_map fst _ _ Hin)).
  unfold name_sound in HT. rewrite H in HT. destruct HT as (Hw & Hc & Hr).
  split; [exact Hw|]. split; [exact Hc|]. intros rs HF. exact (for_args_Forall2 _ _ _ Hr rs HF).
Qed.
