(* C15 at proof level: STRICT-MODE SOUNDNESS of the expression type checker (Impl/TypeCheck.v, model of x/exp/schema/validate) with
   respect to the evaluator (Impl/Eval.v), in the vocabulary of Lang/TypeSound.v.  Lemmas: Proofs/TypeSoundLemmas.v (lub subsumption,
   injectivity of capability keys, completeness of the schema-level descendant search and of the action-graph search, attribute / tag
   lookup, extension calls).

   MAIN THEOREM (full expression language, every operator): typeof_sound_strict, an instance of typeof_sound_all (the induction).  An
   accepted expression evaluates to a value of its type, which if true establishes the returned capabilities, or fails with an allowed
   error (entity not in the store, overflow, extension error);
   i.e. `sound_at sch true tv e` of Lang/TypeSound.v, where "conforming environment" additionally contains the two facts the Go entity
   validator checks and entity_ok does not state (actions_conform, store_types_known), for schemas with a well-formed action graph
   (agraph_wf), request environments whose action is a declared action (action_declared) and expressions with attribute names below
   10^39 bytes (keys_small).  agraph_wf, action_declared, actions_conform and store_types_known are used by the `in` case only
   (both of its rules: the type-level one and the action-hierarchy one for operands that denote actions).  Also proved:
     typeof_sound_strict_in_free : schema_wf sch -> tenv_wf sch tv -> in_free_small e = true -> sound_at sch true tv e
        (literally sound_at, no extra store / action hypothesis, for expressions without `in`; `is .. in` is allowed),
     typeof_strict_WT   : every type typeof produces has pairwise distinct record keys at every depth,
     typeof_true_caps   : an expression typed True establishes its capabilities whether or not it is evaluated
                          (needed for `a || b` with b : True, whose capabilities are returned although b may not run),
     permissive_unsound : the permissive-mode counterexample (F29), by vm_compute,
     strict_needs_action_conformance : without actions_conform the strict-mode statement is false (a store that env_ok admits and
                          validateActionEntity rejects; concrete witness below, with a proof that it violates actions_conform),
     strict_needs_action_declared : without action_declared it is false too (`action in action` is typed False when the request
                          action is not in ts_actions; model-level only: Go enumerates request environments from schema.Actions).

   HYPOTHESES (definitions in TypeSoundLemmas.v):
   - schema_wf sch := entity_of sch [] = None /\
                      forall n te, entity_of sch n = Some te ->
                        (forall k t q, alookup k (te_shape te) = Some (t, q) -> WT t) /\ (forall tt, te_tags te = Some tt -> WT tt)
       where WT t = the keys of every record type inside t (at any depth) are pairwise distinct.  (The empty name is not a declared
       entity type: otherwise `x.attr` on the zero UID fails with EUnspecified.  No condition on entity lubs, on CNever/CTrue/CFalse
       inside schema types, on duplicate declarations, on enums.)
   - tenv_wf sch tv := WT (CRec (tv_context tv)).      (Nothing about the principal / resource / action types.)
   - keys_small e: every attribute name k in an access `a.k` inside e is shorter than 10^39 bytes.  MODEL ARTIFACT: cap_key prints the
       length of k with Text.print_nat, which keeps 40 digits; with that bound cap_key is injective (cap_key_inj: one side small, the
       other side arbitrary), beyond it two different paths can in principle get the same key.  Go's strconv.Quote has no such limit.
   - action_declared sch tv := umem (tv_action tv) (ts_actions sch) = true.
   - agraph_wf sch :=
       (forall u, In u (ts_actions sch) <-> In u (map fst (ts_agraph sch))) /\
       (forall a ps, In (a, ps) (ts_agraph sch) -> is_action_type (fst a) = true /\ forall p, In p ps -> In p (map fst (ts_agraph sch))) /\
       (forall n, is_action_type n = true -> entity_of sch n = None /\ smem n (ts_enums sch) = false) /\
       (forall n te p, entity_of sch n = Some te -> In p (te_parents te) -> is_action_type p = false)
       (d, first conjunct) ts_actions and the keys of ts_agraph are the same set;
       (a) declared actions have action entity types and their listed parents are declared actions (resolveActions / qualifyActionType,
       validateActionMembership); (b) an action entity type is neither declared nor enumerated (Cedar reserves the name Action; Go's
       Validator.Entity tests isActionEntity first, so for such a name entity_ok and the Go code would disagree anyway); (c) no
       declared entity type has an action entity type as a parent type.  (b), (c) keep type-level paths and action-graph paths apart:
       any_descendant accepts one or the other, not a concatenation.
   - actions_conform sch st := forall u e, lookup st u = Some e -> is_action_type (fst u) = true -> entity_of sch (fst u) = None ->
                                  smem (fst u) (ts_enums sch) = false ->
                                  exists ps, aparents sch u = Some ps /\ forall p, In p (e_parents e) -> aclosure sch u p
       with aclosure sch = clos_trans of (aedge sch u p := exists ps, aparents sch u = Some ps /\ In p ps): what validateActionEntity
       checks (the action is declared; its parents are the transitive closure of its declared groups - only "are in" is used).
   - store_types_known sch st := forall u e, lookup st u = Some e ->
                                  entity_of sch (fst u) <> None \/ smem (fst u) (ts_enums sch) = true \/ is_action_type (fst u) = true
       (Validator.Entity: "entity type not found in schema").

   FINDINGS in cedar-go that the proof attempt exposed (all fixed in the Go code; the model and the proofs are of the fixed code):
   - hasTag on a non-singleton entity lub was typed False as soon as ONE member type had no tags;
   - `in` with an enum-typed left operand was typed False although enum entities with parents were accepted by the entity validator;
   - `in` with an action-typed left operand that does not syntactically denote an action was typed False whenever the type names
     differ, although action groups may live in another namespace (fixed: isActionTypeDescendant; is_action_ty_desc_complete here);
   - `action in Action::"grp"` was typed True from the schema although it is false when the action entity is missing from the store;
     the fixed code types it Bool, reflexive membership stays True (P_in: reach is reflexive; areach_complete for False).
   No operator is excluded. *)
From Coq Require Import ZArith List Bool String Lia Relations Arith.
Import ListNotations.
From Cedar Require Import Base.Int64 Lang.Value Impl.Like Lang.Expr Impl.InSearch Impl.Eval Impl.TypeCheck Lang.TypeSound
  Impl.Decimal Impl.Duration Impl.Datetime Impl.IPAddr Generated.Tables Generated.Kernels
  Proofs.ValueProofs Proofs.InSearchProofs Proofs.TypeSoundLemmas.
Local Open Scope Z_scope.

(* [core ai e]: - every attribute name used in an access `a.k` is shorter than 10^39 bytes (the model's capability keys print the
                   length with Text.print_nat, which truncates beyond 40 digits),
                 - if [ai = false], e contains no `in` (the `is ... in` form is always allowed).
   keys_small = core true, in_free_small = core false (end of file). *)
Fixpoint core (ai : bool) (e : expr) : bool :=
  let fix go (l : list expr) : bool := match l with [] => true | x :: r => core ai x && go r end in
  let fix gokv (l : list (str * expr)) : bool := match l with [] => true | (_, x) :: r => core ai x && gokv r end in
  match e with
  | ELit _ | EVar _ | EPartialError _ => true
  | EIn a b => ai && core ai a && core ai b
  | EAnd a b | EOr a b | EEq a b | ENe a b | ELt a b | ELe a b | EGt a b | EGe a b | EAdd a b | ESub a b | EMul a b
  | EContains a b | EContainsAll a b | EContainsAny a b | EGetTag a b | EHasTag a b => core ai a && core ai b
  | EAccess a k => short_key k && core ai a
  | ENeg a | ENot a | EIsEmpty a | EHas a _ | ELike a _ | EIs a _ => core ai a
  | EIsIn a _ b => core ai a && core ai b
  | EIf c t f => core ai c && core ai t && core ai f
  | ESet es => go es
  | ERecord kvs => gokv kvs
  | ECall _ args => go args
  end.

Lemma core_set ai es : core ai (ESet es) = forallb (core ai) es.
Proof. induction es as [|x r IH]; [reflexivity|]. cbn [forallb]. rewrite <- IH. reflexivity. Qed.
Lemma core_call ai n es : core ai (ECall n es) = forallb (core ai) es.
Proof. induction es as [|x r IH]; [reflexivity|]. cbn [forallb]. rewrite <- IH. reflexivity. Qed.
Lemma core_record ai kvs : core ai (ERecord kvs) = forallb (fun kv => core ai (snd kv)) kvs.
Proof. induction kvs as [|[k x] r IH]; [reflexivity|]. cbn [forallb snd]. rewrite <- IH. reflexivity. Qed.

Lemma core_short_path ai a : core ai a = true -> short_path a = true.
Proof.
  induction a; intros H; try reflexivity.
  cbn [core short_path] in *. apply andb_true_iff in H. destruct H as [H1 H2]. rewrite H1. cbn [andb]. auto.
Qed.

(* the inner loops of typeof, named *)
Definition rec_go (tf : expr -> tres) (caps : list cap) : list (str * expr) -> attrs -> tres :=
  fix go (l : list (str * expr)) (acc : attrs) : tres :=
    match l with
    | [] => TOk (CRec acc) caps
    | (k, x) :: r =>
        match tf x with
        | TOk t _ => go r ((k, (t, true)) :: filter (fun kv : str * (cty * bool) => negb (str_eqb (fst kv) k)) acc)
        | TErr => match go r acc with TUnk => TUnk | _ => TErr end
        | TUnk => TUnk
        end
    end.

Definition set_go (tf : expr -> tres) (caps : list cap) : list expr -> cty -> bool -> tres :=
  fix go (l : list expr) (acc : cty) (bad : bool) : tres :=
    match l with
    | [] => if bad then TErr else TOk (CSet acc) caps
    | x :: r =>
        match tf x with
        | TOk t _ =>
            if bad then go r acc true else
            if negb (strict_ent_lub_ok true acc t) then go r acc true else
            match lub' true acc t with Some u => go r u false | None => go r acc true end
        | TErr => go r acc true
        | TUnk => TUnk
        end
    end.

Definition call_go (tf : expr -> tres) (caps : list cap) (ret : cty) (lit_problem : bool) : list expr -> list cty -> bool -> tres :=
  fix go (l : list expr) (tys : list cty) (bad : bool) : tres :=
    match l, tys with
    | x :: r, ty :: tr =>
        match tf x with
        | TOk t _ => go r tr (bad || negb (arg_subtype t ty))
        | TErr => go r tr true
        | TUnk => TUnk
        end
    | _, _ => if bad || lit_problem then TErr else TOk ret caps
    end.

Section Main.
  Variable sch : tschema.
  Variable tv : tenv.
  Hypothesis Hwf : schema_wf sch.
  Hypothesis Htv : tenv_wf sch tv.
  Variable ai : bool.     (* `in` is allowed in the expressions considered: the first argument of core *)
  (* what the `in` case needs beyond env_ok: the hypotheses on the store, and that the request environment's action is a declared
     action (request environments are enumerated from the schema's actions) *)
  Definition in_env_hyps (st : store) : Prop := in_hyps sch st /\ umem (tv_action tv) (ts_actions sch) = true.

  Local Notation T := (typeof true sch tv).

  Lemma typeof_record kvs caps : T (ERecord kvs) caps = rec_go (fun x => T x caps) caps kvs [].
  Proof. cbn [typeof]. reflexivity. Qed.
  Lemma typeof_set x es caps : T (ESet (x :: es)) caps = set_go (fun x => T x caps) caps (x :: es) CNever false.
  Proof. cbn [typeof]. reflexivity. Qed.
  Lemma typeof_call name args caps :
    T (ECall name args) caps =
    match ext_sig name with
    | None => TErr
    | Some (ctor, argtys, ret) =>
        if negb (Nat.eqb (List.length args) (List.length argtys)) then
          (if existsb (fun x => match T x caps with TUnk => true | _ => false end) args then TUnk else TErr)
        else
          call_go (fun x => T x caps) caps ret
            (ctor && match args with
                     | [ELit (VString s)] => negb (ext_literal_ok name s)
                     | [ELit _] => false
                     | [_] => true
                     | _ => false
                     end) args argtys false
    end.
  Proof. cbn [typeof]. reflexivity. Qed.

  Definition res_sound (en : env) (t : cty) (caps' : list cap) (r : res) : Prop :=
    match r with
    | Ok v => vtyped v t /\ (v = VBool true -> caps_hold en caps')
    | Err k => allowed_error k = true
    end.

  (* the environment conforms to the schema and the capabilities assumed so far hold in it *)
  Definition conf (en : env) (caps : list cap) : Prop :=
    env_ok sch tv en /\ (ai = true -> in_env_hyps (e_store en)) /\ caps_hold en caps.

  Definition P (e : expr) : Prop :=
    core ai e = true ->
    forall caps t caps', T e caps = TOk t caps' ->
      WT t /\
      forall en, conf en caps -> res_sound en t caps' (eval en e) /\ ((t = CTrue \/ t = CNever) -> caps_hold en caps').

  Lemma res_sound_typed en t c r : res_sound en t c r -> res_typed r t.
  Proof. destruct r; cbn; tauto. Qed.

  Lemma simple en t caps r : caps_hold en caps -> res_typed r t ->
    res_sound en t caps r /\ ((t = CTrue \/ t = CNever) -> caps_hold en caps).
  Proof. intros Hc Hr. split; [|auto]. destruct r; cbn in *; auto. Qed.

  Lemma conf_app en a b : caps_hold en a -> conf en b -> conf en (a ++ b).
  Proof. intros Ha (He & Hi & Hb). split; [exact He|]. split; [exact Hi|]. unfold caps_hold. apply Forall_app. auto. Qed.

  (* Most operators leave the capabilities alone.  What such an operator needs of an operand (P_weak), what it has to show (P_simple),
     and both together for the operators typed with `both` / `b1` of typeof (P_both, P_un). *)
  Lemma P_weak a caps ta ca : P a -> core ai a = true -> T a caps = TOk ta ca ->
    WT ta /\ forall en, conf en caps -> res_typed (eval en a) ta.
  Proof.
    intros IH Hc H. destruct (IH Hc _ _ _ H) as [Hw Hs]. split; [exact Hw|]. intros en Hen. apply (res_sound_typed en ta ca), Hs, Hen.
  Qed.

  Lemma P_simple e caps t : WT t -> (forall en, conf en caps -> res_typed (eval en e) t) ->
    WT t /\ forall en, conf en caps -> res_sound en t caps (eval en e) /\ ((t = CTrue \/ t = CNever) -> caps_hold en caps).
  Proof. intros Hw Hs. split; [exact Hw|]. intros en Hen. apply simple; [apply Hen | apply Hs, Hen]. Qed.

  Definition both (ra rb : tres) (k : cty -> cty -> tres) : tres :=
    match ra, rb with
    | TOk ta _, TOk tb _ => k ta tb
    | TUnk, _ | _, TUnk => TUnk
    | _, _ => TErr
    end.
  Definition b1 (ra : tres) (k : cty -> list cap -> tres) : tres :=
    match ra with TOk t c => k t c | TErr => TErr | TUnk => TUnk end.

  (* the instances' first premise, `T (EFoo a b) caps = both (T a caps) (T b caps) k`.  cbn unfolds the one step of typeof and folds the
     recursive calls back; a bare `reflexivity` leaves that to the unifier, which compares the whole body of the fixpoint at every
     recursive call *)
  Ltac typeof_eq := intros caps; cbn [typeof]; reflexivity.

  Lemma P_both e a b (k : list cap -> cty -> cty -> tres) :
    (forall caps, T e caps = both (T a caps) (T b caps) (k caps)) ->
    (core ai e = true -> core ai a = true /\ core ai b = true) ->
    (forall caps ta tb t caps', core ai e = true -> k caps ta tb = TOk t caps' -> WT ta -> WT tb ->
       caps' = caps /\ WT t /\
       forall en, conf en caps -> res_typed (eval en a) ta -> res_typed (eval en b) tb -> res_typed (eval en e) t) ->
    P a -> P b -> P e.
  Proof.
    intros HT Hcore Hk IHa IHb Hc caps t caps' H. destruct (Hcore Hc) as [Hca Hcb]. rewrite HT in H.
    destruct (T a caps) as [ta ca| |] eqn:Ha; destruct (T b caps) as [tb cb| |] eqn:Hb; try discriminate.
    destruct (P_weak _ _ _ _ IHa Hca Ha) as [Hwa Hsa]. destruct (P_weak _ _ _ _ IHb Hcb Hb) as [Hwb Hsb].
    destruct (Hk _ _ _ _ _ Hc H Hwa Hwb) as (-> & Hw & Hs). apply P_simple; [exact Hw|]. intros en Hen. apply Hs; auto.
  Qed.

  Lemma P_un e a (k : list cap -> cty -> list cap -> tres) :
    (forall caps, T e caps = b1 (T a caps) (k caps)) ->
    (core ai e = true -> core ai a = true) ->
    (forall caps ta ca t caps', core ai e = true -> k caps ta ca = TOk t caps' -> WT ta ->
       caps' = caps /\ WT t /\ forall en, conf en caps -> res_typed (eval en a) ta -> res_typed (eval en e) t) ->
    P a -> P e.
  Proof.
    intros HT Hcore Hk IHa Hc caps t caps' H. rewrite HT in H.
    destruct (T a caps) as [ta ca| |] eqn:Ha; try discriminate.
    destruct (P_weak _ _ _ _ IHa (Hcore Hc) Ha) as [Hwa Hsa].
    destruct (Hk _ _ _ _ _ Hc H Hwa) as (-> & Hw & Hs). apply P_simple; [exact Hw|]. intros en Hen. apply Hs; auto.
  Qed.

  Lemma type_of_value_sound v t : type_of_value sch v = Some t -> vtyped v t /\ WT t.
  Proof.
    destruct v; cbn [type_of_value]; try discriminate; try (intros H; inversion H; subst; split; [constructor | exact I]; fail).
    - destruct b; intros H; inversion H; subst; split; try constructor; exact I.
    - unfold type_of_uid. cbn [fst].
      destruct (known_entity_type sch ty); [intros H; inversion H; subst; split; [constructor; left; reflexivity | exact I]|].
      match goal with |- (if ?c then _ else _) = _ -> _ => destruct c end; [|discriminate].
      intros H; inversion H; subst; split; [constructor; left; reflexivity | exact I].
  Qed.

  Lemma P_lit v : P (ELit v).
  Proof.
    intros _ caps t caps' H. cbn [typeof] in H.
    destruct (type_of_value sch v) as [t0|] eqn:E; [|discriminate]. inversion H; subst.
    destruct (type_of_value_sound _ _ E) as [Hv Hw]. apply P_simple; [exact Hw|]. intros en _. exact Hv.
  Qed.

  Lemma P_var x : P (EVar x).
  Proof.
    intros _ caps t caps' H.
    destruct x; cbn [typeof] in H; inversion H; subst; (apply P_simple; [try exact I; try exact Htv|]);
      intros en ((Hst & Hp & Ha & Hr & Hc) & _); cbn [eval var_value res_typed]; auto.
    rewrite Ha. constructor. left. reflexivity.
  Qed.

  Lemma P_perr k : P (EPartialError k).
  Proof. intros _ caps t caps' H. cbn [typeof] in H. discriminate. Qed.

  (* a Boolean operand: an error passes through; otherwise the continuation gets a Boolean of the operand's type, which establishes
     the operand's capabilities if it is true *)
  Lemma bool_bind en lt lcaps r (k : value -> bool -> res) t c :
    is_bool_ty lt = true -> res_sound en lt lcaps r ->
    (forall x, vtyped (VBool x) lt -> (x = true -> caps_hold en lcaps) -> res_sound en t c (k (VBool x) x)) ->
    res_sound en t c (bindr r (fun v => as_bool v (k v))).
  Proof.
    intros Hb Hr K. destruct r as [v|e]; [|exact Hr]. destruct Hr as [Hv Hc]. destruct (vtyped_bool_inv v lt Hb Hv) as [x ->].
    apply K; [exact Hv | intros ->; auto].
  Qed.

  Lemma bool_ty_WT t : is_bool_ty t = true -> WT t.
  Proof. destruct t; try discriminate; intros _; exact I. Qed.

  Lemma P_and a b : P a -> P b -> P (EAnd a b).
  Proof.
    intros IHa IHb Hcore caps t caps' H. cbn [core] in Hcore. apply andb_true_iff in Hcore. destruct Hcore as [Hca Hcb].
    cbn [typeof] in H.
    destruct (T a caps) as [lt lcaps| |] eqn:Ha; try discriminate.
    destruct (IHa Hca _ _ _ Ha) as [_ Hsa].
    destruct lt; try discriminate; cbn [is_bool_ty negb] in H.
    2: { (* a : False - b is not typed and never evaluated *)
      destruct (refs_ok sch b); [|discriminate]. injection H as <- <-. split; [exact I|].
      intros en Hen. destruct (Hsa en Hen) as [Hra _]. split; [|intros [E|E]; discriminate]. cbn [eval].
      apply (bool_bind en CFalse lcaps); [reflexivity | exact Hra|]. intros x Hx _. inversion Hx. split; [constructor | discriminate]. }
    all: destruct (T b (lcaps ++ caps)) as [rt rcaps| |] eqn:Hb; try discriminate;
      destruct (IHb Hcb _ _ _ Hb) as [_ Hsb]; destruct (is_bool_ty rt) eqn:Hrt; [cbn [negb] in H | discriminate].
    - (* a : True - the verdict on b, typed with the capabilities of a, which hold whether or not a is evaluated *)
      injection H as <- <-. split; [apply bool_ty_WT, Hrt|].
      intros en Hen. destruct (Hsa en Hen) as [Hra HAa].
      destruct (Hsb en (conf_app _ _ _ (HAa (or_introl eq_refl)) Hen)) as [Hrb HAb]. split; [|exact HAb]. cbn [eval].
      apply (bool_bind en CTrue lcaps); [reflexivity | exact Hra|]. intros x Hx _. inversion Hx. cbn [negb].
      apply (bool_bind en rt rcaps); [exact Hrt | exact Hrb|]. intros y Hy Hcy. split; [exact Hy | intros E; injection E as ->; auto].
    - (* a : Bool - b is evaluated only when a is true, and then the capabilities of a hold *)
      assert (Ht : caps' = rcaps /\ WT t /\ vtyped (VBool false) t /\ (forall y, vtyped (VBool y) rt -> vtyped (VBool y) t) /\
                   ~ (t = CTrue \/ t = CNever)).
      { destruct rt; try discriminate; injection H as <- <-; repeat split; try exact I; try constructor;
          try (intros y Hy; inversion Hy; constructor); intros [E|E]; discriminate. }
      destruct Ht as (-> & Hw & Hf & Hy & Hn). split; [exact Hw|].
      intros en Hen. destruct (Hsa en Hen) as [Hra _]. split; [|intros E; contradiction]. cbn [eval].
      apply (bool_bind en CBool lcaps); [reflexivity | exact Hra|]. intros [|] _ Hcx; cbn [negb].
      + destruct (Hsb en (conf_app _ _ _ (Hcx eq_refl) Hen)) as [Hrb _].
        apply (bool_bind en rt rcaps); [exact Hrt | exact Hrb|]. intros y Hy' Hcy. split; [apply Hy, Hy' | intros E; injection E as ->; auto].
      + split; [exact Hf | discriminate].
  Qed.

  Lemma caps_inter_l en a b : caps_hold en a -> caps_hold en (cap_inter a b).
  Proof.
    unfold caps_hold, cap_inter. intros H. rewrite Forall_forall in *. intros c Hc. apply filter_In in Hc. apply H, Hc.
  Qed.

  Lemma cap_eqb_eq c d : cap_eqb c d = true -> c = d.
  Proof.
    destruct c as [[k1 a1] b1], d as [[k2 a2] b2]. unfold cap_eqb. cbn [fst snd]. intros H.
    apply andb_true_iff in H. destruct H as [H H3]. apply andb_true_iff in H. destruct H as [H1 H2].
    apply str_eqb_eq in H1. apply str_eqb_eq in H2. apply Bool.eqb_prop in H3. subst. reflexivity.
  Qed.

  Lemma cap_has_In cs c : cap_has cs c = true -> In c cs.
  Proof.
    unfold cap_has. intros H. apply existsb_exists in H. destruct H as (d & Hd & E). apply cap_eqb_eq in E. subst. exact Hd.
  Qed.

  Lemma caps_inter_r en a b : caps_hold en b -> caps_hold en (cap_inter a b).
  Proof.
    unfold caps_hold, cap_inter. intros H. rewrite Forall_forall in *. intros c Hc. apply filter_In in Hc.
    destruct Hc as [_ Hc]. apply H, cap_has_In, Hc.
  Qed.

  Lemma P_or a b : P a -> P b -> P (EOr a b).
  Proof.
    intros IHa IHb Hcore caps t caps' H. cbn [core] in Hcore. apply andb_true_iff in Hcore. destruct Hcore as [Hca Hcb].
    cbn [typeof] in H.
    destruct (T a caps) as [lt lcaps| |] eqn:Ha; try discriminate.
    destruct (IHa Hca _ _ _ Ha) as [_ Hsa].
    destruct lt; try discriminate; cbn [is_bool_ty negb] in H.
    1: { (* a : True - its capabilities hold whether or not it is evaluated *)
      destruct (refs_ok sch b); [|discriminate]. injection H as <- <-. split; [exact I|].
      intros en Hen. destruct (Hsa en Hen) as [Hra HAa]. specialize (HAa (or_introl eq_refl)). split; [|intros _; exact HAa]. cbn [eval].
      apply (bool_bind en CTrue lcaps); [reflexivity | exact Hra|]. intros x Hx _. inversion Hx. split; [constructor | intros _; exact HAa]. }
    all: destruct (T b caps) as [rt rcaps| |] eqn:Hb; try discriminate;
      destruct (IHb Hcb _ _ _ Hb) as [_ Hsb]; destruct (is_bool_ty rt) eqn:Hrt; [cbn [negb] in H | discriminate].
    - (* a : False - the verdict on b *)
      injection H as <- <-. split; [apply bool_ty_WT, Hrt|].
      intros en Hen. destruct (Hsa en Hen) as [Hra _]. destruct (Hsb en Hen) as [Hrb HAb]. split; [|exact HAb]. cbn [eval].
      apply (bool_bind en CFalse lcaps); [reflexivity | exact Hra|]. intros x Hx _. inversion Hx.
      apply (bool_bind en rt rcaps); [exact Hrt | exact Hrb|]. intros y Hy Hcy. split; [exact Hy | intros E; injection E as ->; auto].
    - (* a : Bool - a true result comes from a or from b *)
      destruct rt; try discriminate; injection H as <- <-; (split; [exact I|]);
        intros en Hen; destruct (Hsa en Hen) as [Hra _]; destruct (Hsb en Hen) as [Hrb HAb].
      + (* b : True *)
        pose proof (HAb (or_introl eq_refl)) as Hc. split; [|intros _; exact Hc]. cbn [eval].
        apply (bool_bind en CBool lcaps); [reflexivity | exact Hra|]. intros [|] _ _; [split; [constructor | intros _; exact Hc]|].
        apply (bool_bind en CTrue rcaps); [reflexivity | exact Hrb|]. intros y Hy _. split; [exact Hy | intros _; exact Hc].
      + (* b : False *)
        split; [|intros [E|E]; discriminate]. cbn [eval].
        apply (bool_bind en CBool lcaps); [reflexivity | exact Hra|]. intros [|] _ Hcx; [split; [constructor | intros _; apply Hcx; reflexivity]|].
        apply (bool_bind en CFalse rcaps); [reflexivity | exact Hrb|]. intros y Hy _. inversion Hy. split; [constructor | discriminate].
      + (* b : Bool *)
        split; [|intros [E|E]; discriminate]. cbn [eval].
        apply (bool_bind en CBool lcaps); [reflexivity | exact Hra|].
        intros [|] _ Hcx; [split; [constructor | intros _; apply caps_inter_l, Hcx; reflexivity]|].
        apply (bool_bind en CBool rcaps); [reflexivity | exact Hrb|]. intros y _ Hcy.
        split; [constructor | intros E; injection E as ->; apply caps_inter_r, Hcy; reflexivity].
  Qed.

  Lemma res_sound_sub en t t' c c' r : res_sound en t c r -> sub t t' -> (caps_hold en c -> caps_hold en c') -> res_sound en t' c' r.
  Proof. destruct r; cbn [res_sound]; [|auto]. intros [Hv Hc] Hs Hcc. split; [apply Hs, Hv | auto]. Qed.

  Lemma P_if c e1 e2 : P c -> P e1 -> P e2 -> P (EIf c e1 e2).
  Proof.
    intros IHc IH1 IH2 Hcore caps t caps' H. cbn [core] in Hcore. apply andb_true_iff in Hcore. destruct Hcore as [Hcore Hc2].
    apply andb_true_iff in Hcore. destruct Hcore as [Hcc Hc1].
    cbn [typeof] in H.
    destruct (T c caps) as [ct ccaps| |] eqn:Hc; try discriminate.
    destruct (IHc Hcc _ _ _ Hc) as [_ Hsc].
    destruct ct; try discriminate; cbn [is_bool_ty negb] in H.
    - (* CTrue: only the first branch is typed, with the capabilities of the condition *)
      destruct (refs_ok sch e2); [|discriminate].
      destruct (IH1 Hc1 _ _ _ H) as [Hw1 Hs1]. split; [exact Hw1|].
      intros en Hen. destruct (Hsc en Hen) as [Hrc HAc].
      destruct (Hs1 en (conf_app _ _ _ (HAc (or_introl eq_refl)) Hen)) as [Hr1 HA1]. split; [|exact HA1]. cbn [eval].
      apply (bool_bind en CTrue ccaps); [reflexivity | exact Hrc|]. intros x Hx _. inversion Hx. exact Hr1.
    - (* CFalse *)
      destruct (refs_ok sch e1); [|discriminate].
      destruct (IH2 Hc2 _ _ _ H) as [Hw2 Hs2]. split; [exact Hw2|].
      intros en Hen. destruct (Hsc en Hen) as [Hrc _]. destruct (Hs2 en Hen) as [Hr2 HA2]. split; [|exact HA2]. cbn [eval].
      apply (bool_bind en CFalse ccaps); [reflexivity | exact Hrc|]. intros x Hx _. inversion Hx. exact Hr2.
    - (* CBool: both branches, the lub of their types, the capabilities both establish *)
      destruct (T e1 (ccaps ++ caps)) as [tt tc| |] eqn:H1; destruct (T e2 caps) as [ft fc| |] eqn:H2; try discriminate.
      destruct (negb (strict_ent_lub_ok true tt ft)); [discriminate|].
      destruct (lub' true tt ft) as [r|] eqn:El; [|discriminate]. inversion H; subst. clear H.
      destruct (IH1 Hc1 _ _ _ H1) as [Hw1 Hs1]. destruct (IH2 Hc2 _ _ _ H2) as [Hw2 Hs2].
      destruct (lub'_sub _ _ _ El Hw1 Hw2) as (Hwr & S1 & S2). split; [exact Hwr|].
      intros en Hen. destruct (Hsc en Hen) as [Hrc _]. destruct (Hs2 en Hen) as [Hr2 HA2]. split.
      + cbn [eval]. apply (bool_bind en CBool ccaps); [reflexivity | exact Hrc|]. intros [|] _ Hcx.
        * destruct (Hs1 en (conf_app _ _ _ (Hcx eq_refl) Hen)) as [Hr1 _].
          eapply res_sound_sub; [exact Hr1 | exact S1 | apply caps_inter_l].
        * eapply res_sound_sub; [exact Hr2 | exact S2 | apply caps_inter_r].
      + intros Ht. apply caps_inter_r. apply HA2. unfold lub' in El. eapply lub_true_never; eauto.
  Qed.

  Lemma P_not a : P a -> P (ENot a).
  Proof.
    eapply (P_un (ENot a) a); [typeof_eq | auto |]. intros caps ta ca t caps' _ H _.
    assert (Ht : caps' = caps /\ WT t /\ is_bool_ty ta = true /\ forall x, vtyped (VBool x) ta -> vtyped (VBool (negb x)) t).
    { destruct ta; try discriminate; inversion H; subst; repeat split; auto; intros x Hx; inversion Hx; constructor. }
    destruct Ht as (-> & Hw & Hb & Hn). repeat split; auto. intros en _ Hr. cbn [eval].
    eapply bind_ok; [exact Hr|]. intros v Hv. apply (as_bool_ok v ta); auto.
  Qed.

  Lemma P_neg a : P a -> P (ENeg a).
  Proof.
    eapply (P_un (ENeg a) a); [typeof_eq | auto |]. intros caps ta ca t caps' _ H _.
    destruct ta; try discriminate. injection H as <- <-. repeat split; auto. intros en _ Hr. cbn [eval].
    eapply bind_ok; [exact Hr|]. intros v Hv. apply as_long_ok with (1 := Hv). intros x. apply (checked_ok _ VLong), vt_long.
  Qed.

  Lemma P_arith e a b op :
    (forall caps, T e caps = both (T a caps) (T b caps) (fun ta tb => match ta, tb with CLong, CLong => TOk CLong caps | _, _ => TErr end)) ->
    (forall en, eval en e = arith_eval (eval en a) (eval en b) op) ->
    core ai e = core ai a && core ai b -> P a -> P b -> P e.
  Proof.
    intros HT He Hc. apply (P_both e a b _ HT); [rewrite Hc; apply andb_true_iff|].
    intros caps ta tb t caps' _ H _ _. destruct ta; try discriminate; destruct tb; try discriminate. injection H as <- <-.
    repeat split; auto. intros en _ H1 H2. rewrite He. unfold arith_eval.
    eapply bind_ok; [exact H1|]. intros v Hv. apply as_long_ok with (1 := Hv). intros x.
    eapply bind_ok; [exact H2|]. intros w Hw. apply as_long_ok with (1 := Hw). intros y. apply (checked_ok _ VLong), vt_long.
  Qed.

  Lemma cmp_sound ta tb r1 r2 f :
    TypeCheck.comparable ta && TypeCheck.comparable tb && same_comparable ta tb = true ->
    res_typed r1 ta -> res_typed r2 tb -> res_typed (cmp_eval r1 r2 f) CBool.
  Proof.
    intros Hc H1 H2. apply andb_true_iff in Hc. destruct Hc as [Hc Hs]. apply andb_true_iff in Hc. destruct Hc as [Hca _].
    unfold cmp_eval. eapply bind_ok; [exact H1|]. intros v Hv.
    destruct ta as [| | | | | | | | |na]; try discriminate; destruct tb as [| | | | | | | | |nb]; try discriminate.
    - inversion Hv; subst. cbn [Eval.comparable negb]. eapply bind_ok; [exact H2|]. intros w Hw. inversion Hw; subst. constructor.
    - (* the same extension type on both sides, and it is datetime or duration *)
      cbn [same_comparable] in Hs. apply str_eqb_eq in Hs. subst nb. apply vtyped_ext_inv in Hv.
      destruct v; try contradiction; subst na; try (vm_compute in Hca; discriminate); cbn [Eval.comparable negb];
        (eapply bind_ok; [exact H2|]); intros w Hw; apply vtyped_ext_inv in Hw;
        destruct w; try contradiction; try (vm_compute in Hw; discriminate); constructor.
  Qed.

  Lemma P_cmp e a b f :
    (forall caps, T e caps = both (T a caps) (T b caps)
                               (fun ta tb => if TypeCheck.comparable ta && TypeCheck.comparable tb && same_comparable ta tb then TOk CBool caps else TErr)) ->
    (forall en, eval en e = cmp_eval (eval en a) (eval en b) f) ->
    core ai e = core ai a && core ai b -> P a -> P b -> P e.
  Proof.
    intros HT He Hc. apply (P_both e a b _ HT); [rewrite Hc; apply andb_true_iff|].
    intros caps ta tb t caps' _ H _ _.
    destruct (TypeCheck.comparable ta && TypeCheck.comparable tb && same_comparable ta tb) eqn:Hcmp; [|discriminate]. injection H as <- <-.
    repeat split; auto. intros en _ H1 H2. rewrite He. eapply cmp_sound; eauto.
  Qed.

  Definition eq_body (a b : expr) (ta tb : cty) (negated : bool) (caps : list cap) : tres :=
    let sing (r : bool) := TOk (if xorb r negated then CTrue else CFalse) caps in
    match a, b with
    | EVar x, EVar y => if str_eqb (var_name x) (var_name y) then sing true else
                        if types_disjoint ta tb then sing false else
                        if true && negb (match lub' true ta tb with Some _ => true | None => false end) then TErr else TOk CBool caps
    | _, _ =>
      match lit_eq a b with
      | Some r => sing r
      | None =>
        if types_disjoint ta tb then sing false
        else if true && negb (match lub' true ta tb with Some _ => true | None => false end) then TErr else TOk CBool caps
      end
    end.

  Definition eq_known (a b : expr) (ta tb : cty) (r : bool) : Prop :=
    (exists x, a = EVar x /\ b = EVar x /\ r = true) \/
    (types_disjoint ta tb = true /\ r = false) \/
    (exists x y, a = ELit x /\ b = ELit y /\ r = veq x y).

  Lemma eq_body_inv a b ta tb neg caps t caps' : eq_body a b ta tb neg caps = TOk t caps' ->
    caps' = caps /\ (t = CBool \/ exists r, eq_known a b ta tb r /\ t = if xorb r neg then CTrue else CFalse).
  Proof.
    assert (Hdef : (if types_disjoint ta tb then TOk (if xorb false neg then CTrue else CFalse) caps
                    else if true && negb (match lub' true ta tb with Some _ => true | None => false end) then TErr else TOk CBool caps) = TOk t caps' ->
                   caps' = caps /\ (t = CBool \/ exists r, eq_known a b ta tb r /\ t = if xorb r neg then CTrue else CFalse)).
    { destruct (types_disjoint ta tb) eqn:Ed.
      - intros H; inversion H; subst. split; [reflexivity|]. right. exists false. split; [right; left; auto | reflexivity].
      - destruct (true && negb (match lub' true ta tb with Some _ => true | None => false end)); [discriminate|].
        intros H; inversion H; subst. auto. }
    unfold eq_body.
    destruct a; try exact Hdef.
    - (* ELit *) destruct b; try exact Hdef. cbn [lit_eq]. intros H; inversion H; subst. split; [reflexivity|]. right.
      eexists. split; [right; right; eauto | reflexivity].
    - (* EVar *) destruct b; try exact Hdef. cbn [lit_eq].
      destruct (str_eqb (var_name x) (var_name x0)) eqn:Ev; [|exact Hdef].
      apply str_eqb_eq, var_name_eq in Ev. subst. intros H; inversion H; subst. split; [reflexivity|]. right.
      exists true. split; [left; eauto | reflexivity].
  Qed.

  Lemma veq_disjoint ta tb v w : types_disjoint ta tb = true -> vtyped v ta -> vtyped w tb -> veq v w = false.
  Proof.
    intros Hd Hv Hw. destruct ta as [| | | | | | | |la|]; try discriminate. destruct tb as [| | | | | | | |lb|]; try discriminate.
    destruct (vtyped_ent_inv _ _ Hv) as (t1 & i1 & -> & H1). destruct (vtyped_ent_inv _ _ Hw) as (t2 & i2 & -> & H2).
    cbn [veq]. destruct (str_eqb t1 t2) eqn:E; [|reflexivity]. exfalso. apply str_eqb_eq in E. subst t2.
    cbn [types_disjoint] in Hd. unfold lubs_disjoint, lubs_related in Hd. apply negb_true_iff in Hd.
    pose proof (proj1 (Forall_forall _ _) (proj1 (existsb_false_Forall _ _) Hd) _ H1) as Hf. cbv beta in Hf. apply smem_In in H2. congruence.
  Qed.

  Lemma eq_known_sound a b ta tb r en v w : eq_known a b ta tb r -> eval en a = Ok v -> eval en b = Ok w ->
    vtyped v ta -> vtyped w tb -> veq v w = r.
  Proof.
    intros [(x & -> & -> & ->) | [[Hd ->] | (x & y & -> & -> & ->)]] Ea Eb Hv Hw.
    - rewrite Ea in Eb. inversion Eb; subst. apply veq_refl.
    - eapply veq_disjoint; eauto.
    - cbn [eval] in *. inversion Ea; inversion Eb; subst. reflexivity.
  Qed.

  (* == and !=: [g] is the identity or negb *)
  Lemma P_equality e a b neg (g : bool -> bool) : (forall r, g r = xorb r neg) ->
    (forall caps, T e caps = both (T a caps) (T b caps) (fun ta tb => eq_body a b ta tb neg caps)) ->
    (forall en, eval en e = bindr (eval en a) (fun v => bindr (eval en b) (fun w => vbool (g (veq v w))))) ->
    core ai e = core ai a && core ai b -> P a -> P b -> P e.
  Proof.
    intros Hg HT He Hc. apply (P_both e a b _ HT); [rewrite Hc; apply andb_true_iff|].
    intros caps ta tb t caps' _ H _ _. apply eq_body_inv in H. destruct H as [-> Ht].
    split; [reflexivity|]. split; [destruct Ht as [->|(r & _ & ->)]; [exact I | destruct (xorb r neg); exact I]|].
    intros en _ Hra Hrb. rewrite He.
    destruct (eval en a) as [v|k] eqn:Ea; cbn [bindr res_typed] in *; [|assumption].
    destruct (eval en b) as [w|k] eqn:Eb; cbn [bindr res_typed] in *; [|assumption].
    unfold vbool. destruct Ht as [->|(r & Hk & ->)]; [constructor|].
    rewrite Hg, (eq_known_sound _ _ _ _ _ _ _ _ Hk Ea Eb Hra Hrb). destruct (xorb r neg); constructor.
  Qed.

  Lemma P_contains a b : P a -> P b -> P (EContains a b).
  Proof.
    eapply (P_both (EContains a b) a b); [typeof_eq | apply andb_true_iff |].
    intros caps ta tb t caps' _ H _ _. destruct ta as [| | | | | |el| | |]; try discriminate.
    assert (Ht : t = CBool /\ caps' = caps).
    { destruct el; try (injection H as <- <-; auto; fail);
        match type of H with (if ?c then _ else _) = _ => destruct c; [discriminate | injection H as <- <-; auto] end. }
    destruct Ht as [-> ->]. repeat split; auto. intros en _ Hra Hrb. cbn [eval].
    eapply bind_ok; [exact Hra|]. intros v Hv. apply as_set_ok with (1 := Hv). intros l _.
    eapply bind_ok; [exact Hrb|]. intros w _. constructor.
  Qed.

  (* containsAll and containsAny *)
  Lemma P_set_rel e a b (f : list value -> list value -> bool) :
    (forall caps, T e caps = both (T a caps) (T b caps)
                               (fun lt rt => match lt, rt with
                                             | CSet el, CSet er => if true && negb (match lub' true el er with Some _ => true | None => false end) then TErr else TOk CBool caps
                                             | _, _ => TErr
                                             end)) ->
    (forall en, eval en e = bindr (eval en a) (fun v => as_set v (fun l => bindr (eval en b) (fun w => as_set w (fun m => vbool (f l m)))))) ->
    core ai e = core ai a && core ai b -> P a -> P b -> P e.
  Proof.
    intros HT He Hc. apply (P_both e a b _ HT); [rewrite Hc; apply andb_true_iff|].
    intros caps ta tb t caps' _ H _ _.
    destruct ta as [| | | | | |el| | |]; try discriminate; destruct tb as [| | | | | |er| | |]; try discriminate.
    match type of H with (if ?c then _ else _) = TOk _ _ => destruct c; [discriminate|]; injection H as <- <- end.
    repeat split; auto. intros en _ Hra Hrb. rewrite He.
    eapply bind_ok; [exact Hra|]. intros v Hv. apply as_set_ok with (1 := Hv). intros l _.
    eapply bind_ok; [exact Hrb|]. intros w Hw. apply as_set_ok with (1 := Hw). intros m _. constructor.
  Qed.

  Lemma P_is_empty a : P a -> P (EIsEmpty a).
  Proof.
    eapply (P_un (EIsEmpty a) a); [typeof_eq | auto |]. intros caps ta ca t caps' _ H _.
    destruct ta as [| | | | | |el| | |]; try discriminate. injection H as <- <-. repeat split; auto. intros en _ Hr. cbn [eval].
    eapply bind_ok; [exact Hr|]. intros v Hv. apply as_set_ok with (1 := Hv). intros l _. constructor.
  Qed.

  Lemma P_like a p : P a -> P (ELike a p).
  Proof.
    eapply (P_un (ELike a p) a); [typeof_eq | auto |]. intros caps ta ca t caps' _ H _.
    destruct ta; try discriminate. injection H as <- <-. repeat split; auto. intros en _ Hr. cbn [eval].
    eapply bind_ok; [exact Hr|]. intros v Hv. apply as_string_ok with (1 := Hv). intros s. constructor.
  Qed.

  Lemma P_is a ty : P a -> P (EIs a ty).
  Proof.
    eapply (P_un (EIs a ty) a); [typeof_eq | auto |]. intros caps ta ca t caps' _ H _.
    destruct ta as [| | | | | | | |l|]; try discriminate.
    assert (Ht : caps' = caps /\ WT t /\ forall t0, In t0 l -> vtyped (VBool (str_eqb t0 ty)) t).
    { destruct (smem ty l) eqn:Em; cbn [negb] in H.
      - apply smem_In in Em. destruct l as [|x [|y l]]; inversion H; subst; repeat split; auto; try (intros; constructor).
        destruct Em as [->|[]]. intros t0 [->|[]]. rewrite str_eqb_refl. constructor.
      - inversion H; subst. repeat split; auto. intros t0 Hin.
        destruct (str_eqb t0 ty) eqn:E; [|constructor]. apply str_eqb_eq in E. subst t0. apply smem_In in Hin. congruence. }
    destruct Ht as (-> & Hw & Hv). repeat split; auto. intros en _ Hr. cbn [eval].
    eapply bind_ok; [exact Hr|]. intros v Hv'. apply as_entity_ok with (1 := Hv'). intros t0 i Hin. apply Hv, Hin.
  Qed.

  Definition in_general (ll : list str) (tb : cty) (caps : list cap) : tres :=
    match (match tb with CEnt x => Some x | CSet (CEnt x) => Some x | _ => None end) with
    | Some r => if any_descendant sch ll r then TOk CBool caps else TOk CFalse caps
    | None => TOk CBool caps
    end.

  (* the action-hierarchy rule: operands that denote actions / entity literals *)
  Definition elem_uid (x : expr) : option uid :=
    match action_euid sch tv x with
    | Some u => Some u
    | None => match x with ELit (VEntity t i) => Some (t, i) | _ => None end
    end.
  Definition euids_go : list expr -> option (list uid) :=
    fix go (l : list expr) : option (list uid) :=
      match l with
      | [] => Some []
      | x :: r => match elem_uid x with
                  | Some u => match go r with Some us => Some (u :: us) | None => None end
                  | None => None
                  end
      end.
  Lemma action_euids_eq e :
    action_euids sch tv e =
    match action_euid sch tv e with
    | Some u => Some [u]
    | None => match e with ESet [] => None | ESet els => euids_go els | _ => None end
    end.
  Proof. reflexivity. Qed.

  Lemma action_euid_eval en x u : env_ok sch tv en -> action_euid sch tv x = Some u -> eval en x = Ok (ent_of u).
  Proof.
    intros (_ & _ & Ha & _) H. destruct x as [v|x| | | | | | | | | | | | | | | | | | | | | | | | | | | | | |]; try discriminate.
    - destruct v; try discriminate. cbn [action_euid] in H. destruct (umem (ty, id) (ts_actions sch)); [|discriminate]. inversion H; subst. reflexivity.
    - destruct x; try discriminate. cbn [action_euid] in H. inversion H; subst. cbn [eval var_value]. rewrite Ha. reflexivity.
  Qed.

  Lemma action_euid_declared x u : umem (tv_action tv) (ts_actions sch) = true -> action_euid sch tv x = Some u -> In u (ts_actions sch).
  Proof.
    intros Hact H. apply (umem_In). destruct x as [v|x| | | | | | | | | | | | | | | | | | | | | | | | | | | | | |]; try discriminate.
    - destruct v; try discriminate. cbn [action_euid] in H. destruct (umem (ty, id) (ts_actions sch)) eqn:E; [|discriminate]. inversion H; subst. exact E.
    - destruct x; try discriminate. cbn [action_euid] in H. inversion H; subst. exact Hact.
  Qed.

  Lemma elem_uid_eval en x u : env_ok sch tv en -> elem_uid x = Some u -> eval en x = Ok (ent_of u).
  Proof.
    intros Hen H. unfold elem_uid in H. destruct (action_euid sch tv x) as [u'|] eqn:E.
    - inversion H; subst. eapply action_euid_eval; eauto.
    - destruct x as [v| | | | | | | | | | | | | | | | | | | | | | | | | | | | | | |]; try discriminate. destruct v; try discriminate. inversion H; subst. reflexivity.
  Qed.

  Lemma euids_go_eval en : env_ok sch tv en -> forall els rs, euids_go els = Some rs -> seq_res (map (eval en) els) = inr (map ent_of rs).
  Proof.
    intros Hen. induction els as [|x r IH]; intros rs H; cbn [euids_go] in H.
    - inversion H; subst. reflexivity.
    - destruct (elem_uid x) as [u|] eqn:Ex; [|discriminate]. fold euids_go in H. destruct (euids_go r) as [us|]; [|discriminate].
      inversion H; subst. cbn [map seq_res]. rewrite (elem_uid_eval en x u Hen Ex), (IH us eq_refl). reflexivity.
  Qed.

  (* evaluation of `l in b` when b is such an expression *)
  Lemma action_euids_eval en st l b rs : env_ok sch tv en -> action_euids sch tv b = Some rs ->
    exists w r, eval en b = Ok w /\ do_in st l w = Ok (VBool r) /\ (r = true <-> exists x, In x rs /\ reach_st st l x).
  Proof.
    intros Hen H. rewrite action_euids_eq in H. destruct (action_euid sch tv b) as [u|] eqn:Eb.
    - inversion H; subst. destruct (do_in_uids_single st l u) as (r & Hr & Hiff). exists (ent_of u), r.
      split; [eapply action_euid_eval; eauto|]. split; [exact Hr|]. rewrite Hiff. split.
      + intros Hx. exists u. split; [left; reflexivity | exact Hx].
      + intros (x & [<-|[]] & Hx). exact Hx.
    - destruct b as [| | | | | | | | | | | | | | | | | | | | | | | | | | | |els| | |]; try discriminate.
      destruct els as [|x0 els]; [discriminate|].
      destruct (do_in_uids_set st l rs) as (r & Hr & Hiff). exists (mk_set (map ent_of rs)), r.
      split; [|split; assumption]. cbn [eval]. rewrite (euids_go_eval en Hen _ _ H). reflexivity.
  Qed.

  Lemma in_general_sound a b ll tb caps t caps' : ai = true -> is_ent_or_set_of_ent tb = true -> in_general ll tb caps = TOk t caps' ->
    caps' = caps /\ WT t /\
    forall en, conf en caps -> res_typed (eval en a) (CEnt ll) -> res_typed (eval en b) tb -> res_typed (eval en (EIn a b)) t.
  Proof.
    intros Hai Hrt H.
    assert (Ht : caps' = caps /\ (t = CBool \/ (t = CFalse /\ exists r, (tb = CEnt r \/ tb = CSet (CEnt r)) /\ any_descendant sch ll r = false))).
    { unfold in_general in H. destruct tb as [| | | | | |e| |r|]; try discriminate.
      - destruct e as [| | | | | | | |r|]; try discriminate; try (inversion H; subst; auto; fail).
        destruct (any_descendant sch ll r) eqn:Ead; inversion H; subst; auto. split; [reflexivity|]. right. split; [reflexivity|]. exists r. auto.
      - destruct (any_descendant sch ll r) eqn:Ead; inversion H; subst; auto. split; [reflexivity|]. right. split; [reflexivity|]. exists r. auto. }
    destruct Ht as [-> Ht]. split; [reflexivity|]. split; [destruct Ht as [->|[-> _]]; exact I|].
    intros en ((Hst & _) & Hpo & _) Hra Hrb. cbn [eval].
    eapply bind_ok; [exact Hra|]. intros v Hv. apply as_entity_ok with (1 := Hv). intros t0 i Hin.
    eapply bind_ok; [exact Hrb|]. intros w Hw. destruct Ht as [->|(-> & r & Hr & Had)].
    - destruct (do_in_total (e_store en) (t0, i) w tb Hrt Hw) as [x ->]. constructor.
    - rewrite (do_in_false sch (e_store en) t0 i w ll tb r Hst (proj1 (Hpo Hai)) Hin Hr Hw Had). constructor.
  Qed.

  Lemma P_in a b : P a -> P b -> P (EIn a b).
  Proof.
    eapply (P_both (EIn a b) a b); [typeof_eq | |].
    { cbn [core]. intros H. apply andb_true_iff in H. destruct H as [H Hb]. apply andb_true_iff in H. tauto. }
    intros caps ta tb t caps' Hcore H _ _. cbn [core] in Hcore. apply andb_true_iff in Hcore. destruct Hcore as [Hcore _].
    apply andb_true_iff in Hcore. destruct Hcore as [Hai _].
    destruct ta as [| | | | | | | |ll|]; try discriminate. cbn [is_ent_ty andb] in H.
    destruct (is_ent_or_set_of_ent tb) eqn:Hrt; [|discriminate]. cbn [negb] in H.
    destruct (action_euid sch tv a) as [l|] eqn:Ela; [|eapply in_general_sound; eauto].
    destruct (action_euids sch tv b) as [rs|] eqn:Erb; [|eapply in_general_sound; eauto].
    (* decided from the action hierarchy *)
    set (ra := filter (fun u => umem u (ts_actions sch)) rs) in *.
    assert (Ht : caps' = caps /\
                 ((t = CTrue /\ umem l ra = true) \/ t = CBool \/ (t = CFalse /\ umem l ra = false /\ action_below sch l ra = false))).
    { destruct ra as [|r0 ra'] eqn:Era; [inversion H; subst; auto 6|]. rewrite <- Era in *.
      destruct (umem l ra); [inversion H; subst; auto|]. destruct (action_below sch l ra); inversion H; subst; auto 6. }
    destruct Ht as [-> Ht]. clear H. split; [reflexivity|]. split; [destruct Ht as [[-> _]|[->|[-> _]]]; exact I|].
    intros en (Hen & Hpo & _) _ _. cbn [eval].
    rewrite (action_euid_eval en a l Hen Ela). cbn [bindr ent_of as_entity].
    destruct (action_euids_eval en (e_store en) (fst l, snd l) b rs Hen Erb) as (w & r & Ew & Hdo & Hiff).
    rewrite Ew. cbn [bindr]. rewrite Hdo. cbn [res_typed].
    assert (Hl : (fst l, snd l) = l) by (destruct l; reflexivity). rewrite Hl in Hiff.
    assert (Hra : forall x, In x ra <-> In x rs /\ In x (ts_actions sch)).
    { intros x. unfold ra. rewrite filter_In, umem_In. reflexivity. }
    destruct Ht as [[-> Hin]|[->|(-> & Hnl & Hnb)]]; [|constructor|].
    - (* membership is reflexive *)
      assert (r = true) by (apply Hiff; exists l; split; [apply Hra, umem_In, Hin | constructor]). subst r. constructor.
    - (* a store ancestor of the declared action l is l itself or a declared action above it in the graph, which areach finds *)
      destruct r; [|constructor]. exfalso. destruct (proj1 Hiff eq_refl) as (x & Hx & Hr).
      destruct Hen as (Hst & _). destruct (Hpo Hai) as [Hih Hact]. pose proof (action_euid_declared a l Hact Ela) as Hla.
      assert (Hxl : In l ra -> False) by (intros X; apply umem_In in X; congruence).
      destruct (reach_action sch (e_store en) l x Hst Hih Hla Hr) as [<-|[Hcl Hxa]]; [apply Hxl, Hra; auto|].
      pose proof (proj1 (Forall_forall _ _) (proj1 (existsb_false_Forall _ _) Hnb) x (proj2 (Hra x) (conj Hx Hxa))) as Hf. cbv beta in Hf.
      rewrite (proj2 (umem_In _ _) Hla), (areach_complete sch l x Hcl) in Hf.
      destruct (uid_eqb l x) eqn:E; [|discriminate]. apply uid_eqb_eq in E. subst x. apply Hxl, Hra; auto.
  Qed.

  Lemma P_is_in a ty b : P a -> P b -> P (EIsIn a ty b).
  Proof.
    eapply (P_both (EIsIn a ty b) a b); [typeof_eq | apply andb_true_iff |].
    intros caps ta tb t caps' _ H _ _.
    destruct ta as [| | | | | | | |ll|]; try discriminate. destruct (is_ent_or_set_of_ent tb) eqn:Hrt; [|discriminate].
    injection H as <- <-. repeat split; auto. intros en _ Hra Hrb. cbn [eval].
    eapply bind_ok; [exact Hra|]. intros v Hv. apply as_entity_ok with (1 := Hv). intros t0 i _. cbn [fst].
    destruct (str_eqb t0 ty); cbn [negb]; [|constructor].
    eapply bind_ok; [exact Hrb|]. intros w Hw. destruct (do_in_total (e_store en) (t0, i) w tb Hrt Hw) as [x ->]. constructor.
  Qed.

  Lemma caps_hold_In en caps c : caps_hold en caps -> In c caps -> cap_holds en c.
  Proof. unfold caps_hold. rewrite Forall_forall. auto. Qed.

  Lemma P_access a k : P a -> P (EAccess a k).
  Proof.
    eapply (P_un (EAccess a k) a); [typeof_eq | |].
    { cbn [core]. intros H. apply andb_true_iff in H. tauto. }
    intros caps ta ca t caps' _ H Hwa. cbv beta in H.
    destruct (is_ent_or_rec ta) eqn:Hta; [|discriminate]. cbn [negb] in H.
    destruct (lookup_attr true sch ta k) as [[at_ req]|] eqn:El; [|discriminate].
    assert (Ht : t = at_ /\ caps' = caps /\ (req = true \/ exists key, cap_key a = Some key /\ In (key, k, false) caps)).
    { destruct req; [inversion H; auto|].
      destruct (cap_key a) as [key|]; [|discriminate]. destruct (cap_has caps (key, k, false)) eqn:Ec; [|discriminate].
      inversion H; subst. split; [reflexivity|]. split; [reflexivity|]. right. exists key. split; [reflexivity | apply cap_has_In, Ec]. }
    destruct Ht as (-> & -> & Hreq). split; [reflexivity|]. split; [eapply lookup_attr_WT; eauto|].
    intros en ((Hst & _) & _ & Hcaps) Hra. cbn [eval].
    destruct (eval en a) as [v|kk] eqn:Ea; cbn [bindr res_typed] in *; [|assumption].
    pose proof (get_attr_typed sch Hwf (e_store en) v ta k at_ req Hst Hra El) as G.
    destruct (get_attr (e_store en) v k) as [x|[]]; cbn [res_typed]; try assumption; try reflexivity; try contradiction.
    exfalso. destruct G as [-> Hf]. destruct Hreq as [E|(key & Hkey & Hin)]; [discriminate|].
    pose proof (caps_hold_In _ _ _ Hcaps Hin a Hkey v Ea) as Hc. cbn [snd fst] in Hc. congruence.
  Qed.

  Lemma has_ty_cases t k : has_result_type sch t k = CTrue \/ has_result_type sch t k = CFalse \/ has_result_type sch t k = CBool.
  Proof.
    destruct t as [| | | | | | |attrs0|l0|]; cbn [has_result_type]; auto.
    - destruct (alookup k attrs0) as [[? [|]]|]; auto.
    - match goal with |- context [if ?c then _ else _] => destruct c end; auto.
  Qed.

  Lemma P_has a k : P a -> P (EHas a k).
  Proof.
    intros IHa Hca caps t caps' H. cbn [core] in Hca. cbn [typeof] in H.
    destruct (T a caps) as [ta ca| |] eqn:Ha; try discriminate.
    destruct (P_weak _ _ _ _ IHa Hca Ha) as [_ Hsa].
    destruct (is_ent_or_rec ta) eqn:Hta; [|discriminate]. cbn [negb] in H.
    pose proof (has_ty_cases ta k) as Hcases. set (rt := has_result_type sch ta k) in *.
    assert (HWT : WT t).
    { destruct (cap_key a) as [key0|]; inversion H; subst; destruct Hcases as [E|[E|E]]; rewrite E; try exact I.
      destruct (cap_has caps (key0, k, false)); exact I. }
    split; [exact HWT|].
    intros en Hen. pose proof (Hsa en Hen) as Hra. destruct Hen as ((Hst & _) & _ & Hcaps).
    assert (Hev : forall v, eval en a = Ok v -> exists x, has_attr (e_store en) v k = Ok (VBool x) /\ vtyped (VBool x) rt).
    { intros v Ev. rewrite Ev in Hra. apply (has_attr_typed sch); auto. }
    destruct (cap_key a) as [key|] eqn:Hkey.
    - injection H as <- <-.
      (* the new capability holds as soon as `has` is true on every value of a: a is the only expression with its key *)
      assert (Hnew : (forall v, eval en a = Ok v -> has_attr (e_store en) v k = Ok (VBool true)) -> caps_hold en ((key, k, false) :: caps)).
      { intros Hall. constructor; [|exact Hcaps]. intros base Hb v Ev. cbn [fst snd] in *.
        assert (base = a) by (eapply cap_key_inj; eauto using core_short_path). subst base. apply Hall, Ev. }
      (* the result is typed rt, and True if the capability is already there *)
      assert (Hsharp : forall v, eval en a = Ok v -> exists x, has_attr (e_store en) v k = Ok (VBool x) /\
                         vtyped (VBool x) (match rt with CBool => if cap_has caps (key, k, false) then CTrue else CBool | y => y end)).
      { intros v Ev. destruct (Hev v Ev) as (x & Hx & Hxt). exists x. split; [exact Hx|].
        destruct rt; try exact Hxt. destruct (cap_has caps (key, k, false)) eqn:Ec; [|exact Hxt].
        pose proof (caps_hold_In _ _ _ Hcaps (cap_has_In _ _ Ec) a Hkey v Ev) as Ht. cbn [fst snd] in Ht.
        rewrite Ht in Hx. injection Hx as <-. constructor. }
      split.
      + cbn [eval]. destruct (eval en a) as [v|kk] eqn:Ea; [|exact Hra]. destruct (Hsharp v eq_refl) as (x & Hx & Hxt).
        cbn [bindr]. rewrite Hx. split; [exact Hxt|]. intros E. injection E as ->. apply Hnew. intros v' Ev'. injection Ev' as <-. exact Hx.
      + intros [E|E]; [|destruct Hcases as [E'|[E'|E']]; rewrite E' in E; try discriminate E; destruct (cap_has caps (key, k, false)); discriminate E].
        apply Hnew. intros v Ev. destruct (Hsharp v Ev) as (x & Hx & Hxt). rewrite E in Hxt. apply vtyped_true_inv in Hxt. congruence.
    - injection H as <- <-. apply simple; [exact Hcaps|]. cbn [eval].
      destruct (eval en a) as [v|kk] eqn:Ea; [|exact Hra]. destruct (Hev v eq_refl) as (x & Hx & Hxt). cbn [bindr]. rewrite Hx. exact Hxt.
  Qed.

  Lemma hastag_caps_inv a b caps t caps' :
    match cap_key a, b with
    | Some key, ELit (VString s) => (match s with [] => TOk CBool caps | _ => TOk CBool ((key, s, true) :: caps) end)
    | _, _ => TOk CBool caps
    end = TOk t caps' ->
    t = CBool /\ (caps' = caps \/ exists key s, cap_key a = Some key /\ b = ELit (VString s) /\ caps' = (key, s, true) :: caps).
  Proof.
    destruct (cap_key a) as [key|]; [|intros H; inversion H; auto].
    destruct b; try (intros H; inversion H; auto; fail).
    destruct v; try (intros H; inversion H; auto; fail).
    destruct s; intros H; inversion H; subst; auto. split; [reflexivity|]. right. eauto.
  Qed.

  Lemma P_has_tag a b : P a -> P b -> P (EHasTag a b).
  Proof.
    intros IHa IHb Hcore caps t caps' H. cbn [core] in Hcore. apply andb_true_iff in Hcore. destruct Hcore as [Hca Hcb].
    cbn [typeof] in H.
    destruct (T a caps) as [ta ca| |] eqn:Ha; destruct (T b caps) as [tb cb| |] eqn:Hb; try discriminate.
    destruct (P_weak _ _ _ _ IHa Hca Ha) as [_ Hsa]. destruct (P_weak _ _ _ _ IHb Hcb Hb) as [_ Hsb].
    destruct ta as [| | | | | | | |l|]; try discriminate. destruct tb; try discriminate.
    destruct (entity_has_tags sch l) eqn:Eh; cbn [negb] in H.
    - apply hastag_caps_inv in H. destruct H as [-> Hc']. split; [exact I|].
      intros en Hen. pose proof (Hsa en Hen) as Hra. pose proof (Hsb en Hen) as Hrb. destruct Hen as (_ & _ & Hcaps).
      split; [|intros [E|E]; discriminate]. cbn [eval].
      destruct (eval en a) as [v|k] eqn:Ea; cbn [bindr res_typed res_sound] in *; [|assumption].
      destruct (vtyped_ent_inv _ _ Hra) as (t0 & i & -> & Hin). cbn [as_entity].
      destruct (eval en b) as [w|k] eqn:Eb; cbn [bindr res_typed res_sound] in *; [|assumption].
      destruct (vtyped_string_inv _ Hrb) as (s' & ->). cbn [as_string]. unfold vbool.
      destruct Hc' as [->|(key & s & Hkey & -> & ->)].
      + destruct (lookup (e_store en) (t0, i)); (split; [constructor | auto]).
      + cbn [eval] in Eb. inversion Eb; subst s'.
        destruct (lookup (e_store en) (t0, i)) as [ent|] eqn:El; [|split; [constructor | discriminate]].
        split; [constructor|]. intros Et. constructor; [|exact Hcaps].
        intros base Hbase v Ev. cbn [fst snd] in *.
        assert (base = a) by (eapply cap_key_inj; eauto using core_short_path). subst base.
        rewrite Ea in Ev. inversion Ev; subst v. exists t0, i, ent. split; [reflexivity|]. split; [exact El|].
        destruct (rec_get s (e_tags ent)); [discriminate | inversion Et].
    - inversion H; subst. apply P_simple; [exact I|]. intros en Hen. cbn [eval].
      eapply bind_ok; [exact (Hsa en Hen)|]. intros v Hv. apply as_entity_ok with (1 := Hv). intros t0 i Hin.
      eapply bind_ok; [exact (Hsb en Hen)|]. intros w Hw. apply as_string_ok with (1 := Hw). intros s'. unfold vbool.
      destruct (lookup (e_store en) (t0, i)) as [ent|] eqn:El; [|constructor].
      destruct Hen as ((Hst & _) & _). rewrite (has_tags_false sch (e_store en) l t0 i ent s' Hst Hin Eh El). constructor.
  Qed.

  Lemma gettag_inv a b caps tagt t caps' :
    match cap_key a, b with
    | Some key, ELit (VString s) => (match s with [] => TErr | _ => if cap_has caps (key, s, true) then TOk tagt caps else TErr end)
    | _, _ => TErr
    end = TOk t caps' ->
    exists key s, cap_key a = Some key /\ b = ELit (VString s) /\ In (key, s, true) caps /\ t = tagt /\ caps' = caps.
  Proof.
    intros H. destruct (cap_key a) as [key|]; [|discriminate].
    destruct b; try discriminate. destruct v; try discriminate. destruct s as [|c s]; [discriminate|].
    match type of H with (if ?cc then _ else _) = _ => destruct cc eqn:Ec end; [|discriminate].
    inversion H; subst. exists key, (c :: s). repeat split; auto. apply cap_has_In, Ec.
  Qed.

  Lemma P_get_tag a b : P a -> P b -> P (EGetTag a b).
  Proof.
    eapply (P_both (EGetTag a b) a b); [typeof_eq | apply andb_true_iff |].
    intros caps ta tb t caps' _ H _ _.
    destruct ta as [| | | | | | | |l|]; try discriminate. destruct tb; try discriminate.
    destruct (entity_tag_type true sch l) as [tagt|] eqn:Et; [|discriminate].
    apply gettag_inv in H. destruct H as (key & s & Hkey & -> & Hin & -> & ->).
    split; [reflexivity|]. split; [eapply tag_type_WT; eauto|]. intros en ((Hst & _) & _ & Hcaps) Hra Hrb. cbn [eval].
    destruct (eval en a) as [v|k] eqn:Ea; cbn [bindr res_typed] in *; [|assumption].
    pose proof (caps_hold_In _ _ _ Hcaps Hin a Hkey v Ea) as Hc. cbn [fst snd] in Hc.
    destruct Hc as (t0 & i & ent & -> & El & Htag). cbn [as_entity].
    destruct (vtyped_ent_inv _ _ Hra) as (t1 & i1 & E & Hin1). inversion E; subst t1 i1.
    destruct (rec_get s (e_tags ent)) as [x|] eqn:Eg; [|congruence].
    destruct (get_tag_typed sch Hwf (e_store en) l t0 i ent s x tagt Hst Hin1 Et El Eg) as [Hx Hz].
    rewrite Hz. cbn [bindr as_string]. rewrite El, Eg. exact Hx.
  Qed.

  Lemma res_typed_sub r t u : res_typed r t -> sub t u -> res_typed r u.
  Proof. destruct r; cbn [res_typed]; auto. Qed.

  Lemma set_go_spec caps : forall l acc bad t caps',
    Forall P l -> forallb (core ai) l = true -> WT acc ->
    set_go (fun x => T x caps) caps l acc bad = TOk t caps' ->
    bad = false /\ caps' = caps /\ exists u, t = CSet u /\ WT u /\ sub acc u /\
      Forall (fun x => forall en, conf en caps -> res_typed (eval en x) u) l.
  Proof.
    induction l as [|x r IH]; intros acc bad t caps' HP Hc Hw H.
    - cbn [set_go] in H. destruct bad; [discriminate|]. inversion H; subst. split; [reflexivity|]. split; [reflexivity|].
      exists acc. repeat split; auto. intros v Hv; exact Hv.
    - cbn [set_go] in H. fold (set_go (fun x => T x caps) caps) in H.
      inversion HP as [|? ? HPx HPr]; subst. cbn [forallb] in Hc. apply andb_true_iff in Hc. destruct Hc as [Hcx Hcr].
      destruct (T x caps) as [tx cx| |] eqn:Hx; [| |discriminate].
      + destruct (P_weak _ _ _ _ HPx Hcx Hx) as [Hwx Hsx].
        destruct bad; [destruct (IH _ _ _ _ HPr Hcr Hw H) as [E _]; discriminate|].
        destruct (negb (strict_ent_lub_ok true acc tx)); [destruct (IH _ _ _ _ HPr Hcr Hw H) as [E _]; discriminate|].
        destruct (lub' true acc tx) as [u0|] eqn:El; [|destruct (IH _ _ _ _ HPr Hcr Hw H) as [E _]; discriminate].
        destruct (lub'_sub _ _ _ El Hw Hwx) as (Hwu & S1 & S2).
        destruct (IH _ _ _ _ HPr Hcr Hwu H) as (_ & -> & u & -> & Hwu' & S3 & Hall).
        split; [reflexivity|]. split; [reflexivity|]. exists u. repeat split; auto.
        * eapply sub_trans; eauto.
        * constructor; [|exact Hall]. intros en Hen. eapply res_typed_sub; [exact (Hsx en Hen)|]. eapply sub_trans; eauto.
      + destruct (IH _ _ _ _ HPr Hcr Hw H) as [E _]; discriminate.
  Qed.

  Lemma seq_res_spec u rs : Forall (fun r => res_typed r u) rs ->
    match seq_res rs with
    | inl e => exists k, e = Err k /\ allowed_error k = true
    | inr vs => Forall (fun v => vtyped v u) vs
    end.
  Proof.
    induction rs as [|r rs IH]; intros H; cbn [seq_res]; [constructor|].
    inversion H as [|? ? Hr Hrs]; subst. destruct r as [v|k]; cbn [res_typed] in Hr.
    - specialize (IH Hrs). destruct (seq_res rs); [exact IH | constructor; assumption].
    - exists k. auto.
  Qed.

  Lemma P_set es : Forall P es -> P (ESet es).
  Proof.
    intros HP Hcore caps t caps' H. rewrite core_set in Hcore.
    destruct es as [|x es]; [cbn [typeof] in H; discriminate|].
    rewrite typeof_set in H. apply set_go_spec in H; auto; [|exact I].
    destruct H as (_ & -> & u & -> & Hwu & _ & Hall). apply P_simple; [exact Hwu|].
    intros en Hen. cbn [eval].
    assert (HF : Forall (fun r => res_typed r u) (map (eval en) (x :: es))).
    { apply Forall_map. eapply Forall_impl; [|exact Hall]. cbv beta. intros y Hy. apply Hy; auto. }
    pose proof (seq_res_spec u _ HF) as Hs.
    destruct (seq_res (map (eval en) (x :: es))) as [e|vs].
    - destruct Hs as (k & -> & Hk). exact Hk.
    - cbn [res_typed]. unfold mk_set. constructor. rewrite Forall_forall in *. intros v Hv.
      destruct (dedup_incl _ _ _ Hv) as [Hin|[]]. apply Hs, Hin.
  Qed.

  Lemma alookup_filter_ne (acc : attrs) k0 k : k <> k0 ->
    alookup k (filter (fun kv : str * (cty * bool) => negb (str_eqb (fst kv) k0)) acc) = alookup k acc.
  Proof.
    intros Hne. induction acc as [|[k1 v1] acc IH]; [reflexivity|]. cbn [filter fst].
    destruct (str_eqb k1 k0) eqn:E; cbn [negb alookup].
    - apply str_eqb_eq in E. subst k1. destruct (str_eqb k0 k) eqn:E2; [apply str_eqb_eq in E2; congruence | exact IH].
    - rewrite IH. reflexivity.
  Qed.

  Lemma WT_rec_step (acc : attrs) k0 tx : WT (CRec acc) -> WT tx ->
    WT (CRec ((k0, (tx, true)) :: filter (fun kv : str * (cty * bool) => negb (str_eqb (fst kv) k0)) acc)).
  Proof.
    intros Hw Hx. apply WT_rec in Hw. destruct Hw as [Hnd Hall]. apply WT_rec. cbn [map fst]. split.
    - constructor.
      + intros Hin. apply in_map_iff in Hin. destruct Hin as ([k1 v1] & E & Hin). cbn [fst] in E. subst k1.
        apply filter_In in Hin. destruct Hin as [_ Hf]. cbn [fst] in Hf. rewrite str_eqb_refl in Hf. discriminate.
      + clear Hall. induction acc as [|[k1 v1] acc IH]; [constructor|]. cbn [map fst] in Hnd. inversion Hnd as [|? ? Hn1 Hn2]; subst.
        cbn [filter fst]. destruct (negb (str_eqb k1 k0)); [|apply IH, Hn2].
        cbn [map fst]. constructor; [|apply IH, Hn2]. intros Hin. apply Hn1.
        apply in_map_iff in Hin. destruct Hin as (kv & E & Hin). apply filter_In in Hin. apply in_map_iff. exists kv. tauto.
    - constructor; [exact Hx|]. rewrite Forall_forall in *. intros kv Hkv. apply filter_In in Hkv. apply Hall, Hkv.
  Qed.

  Lemma rec_go_spec caps : forall l acc t caps',
    Forall (fun kv => P (snd kv)) l -> forallb (fun kv => core ai (snd kv)) l = true -> WT (CRec acc) ->
    rec_go (fun x => T x caps) caps l acc = TOk t caps' ->
    caps' = caps /\ exists accf, t = CRec accf /\ WT (CRec accf) /\
      (forall k, alookup k accf = match rec_get k (rev l) with
                                  | Some x => match T x caps with TOk tx _ => Some (tx, true) | _ => None end
                                  | None => alookup k acc
                                  end) /\
      Forall (fun kv => exists tx cx, T (snd kv) caps = TOk tx cx) l.
  Proof.
    induction l as [|[k0 x] r IH]; intros acc t caps' HP Hc Hw H.
    - cbn [rec_go] in H. inversion H; subst. split; [reflexivity|]. exists acc.
      split; [reflexivity|]. split; [exact Hw|]. split; [intros k; reflexivity | constructor].
    - cbn [rec_go] in H. fold (rec_go (fun x => T x caps) caps) in H.
      inversion HP as [|? ? HPx HPr]; subst. cbn [snd] in HPx. cbn [forallb snd] in Hc. apply andb_true_iff in Hc. destruct Hc as [Hcx Hcr].
      destruct (T x caps) as [tx cx| |] eqn:Hx; [| |discriminate].
      + destruct (P_weak _ _ _ _ HPx Hcx Hx) as [Hwx _].
        destruct (IH _ _ _ HPr Hcr (WT_rec_step acc k0 tx Hw Hwx) H) as (-> & accf & -> & Hwf' & Hlk & Hall).
        split; [reflexivity|]. exists accf. split; [reflexivity|]. split; [exact Hwf'|]. split.
        * intros k. rewrite Hlk. cbn [rev]. rewrite rec_get_app. destruct (rec_get k (rev r)); [reflexivity|].
          cbn [rec_get alookup]. rewrite (str_eqb_sym k0 k). destruct (str_eqb k k0) eqn:E.
          -- rewrite Hx. reflexivity.
          -- apply alookup_filter_ne. apply str_eqb_neq, E.
        * constructor; [cbn [snd]; eauto | exact Hall].
      + destruct (rec_go (fun x => T x caps) caps r acc); discriminate.
  Qed.

  Lemma seq_rec_spec (rs : list (str * res)) :
    match seq_rec rs with
    | inl e => exists k kk, In (k, Err kk) rs /\ e = Err kk
    | inr fields => rs = map (fun kv => (fst kv, Ok (snd kv))) fields
    end.
  Proof.
    induction rs as [|[k [v|kk]] rs IH]; cbn [seq_rec]; [reflexivity| |].
    - destruct (seq_rec rs) as [e|fields].
      + destruct IH as (k' & kk & Hin & ->). exists k', kk. split; [right; exact Hin | reflexivity].
      + cbn [map fst snd]. rewrite <- IH. reflexivity.
    - exists k, kk. split; [left; reflexivity | reflexivity].
  Qed.

  Lemma P_record kvs : Forall (fun kv => P (snd kv)) kvs -> P (ERecord kvs).
  Proof.
    intros HP Hcore caps t caps' H. rewrite core_record in Hcore. rewrite typeof_record in H.
    apply rec_go_spec in H; auto; [|apply WT_rec; split; constructor].
    destruct H as (-> & accf & -> & Hwf' & Hlk & Hall). apply P_simple; [exact Hwf'|].
    intros en Hen. cbn [eval].
    set (rs := rec_of_list (map (fun kv : str * expr => (fst kv, eval en (snd kv))) kvs)).
    assert (Hsorted : keys_sorted rs = true) by apply rec_of_list_sorted_gen.
    (* every field of rs is the value of the last expression bound to its key, whose type is recorded in accf *)
    assert (Hget : forall k, rec_get k rs = option_map (eval en) (rec_get k (rev kvs))).
    { intros k. unfold rs. rewrite rec_of_list_get_gen, <- map_rev. apply rec_get_map. }
    assert (Hfield : forall k r, In (k, r) rs -> exists x tx cx, In (k, x) kvs /\ r = eval en x /\ T x caps = TOk tx cx /\
                                                    alookup k accf = Some (tx, true) /\ res_typed r tx).
    { intros k r Hin. pose proof (rec_get_In_sorted _ _ _ Hsorted Hin) as Hg. rewrite Hget in Hg.
      destruct (rec_get k (rev kvs)) as [x|] eqn:Ex; [|discriminate]. cbn [option_map] in Hg. inversion Hg; subst r.
      assert (Hinx : In (k, x) kvs) by (apply in_rev; apply rec_get_In; exact Ex).
      rewrite Forall_forall in Hall. destruct (Hall _ Hinx) as (tx & cx & Hx). cbn [snd] in Hx.
      exists x, tx, cx. repeat split; auto.
      - rewrite Hlk, Ex, Hx. reflexivity.
      - rewrite Forall_forall in HP. rewrite forallb_forall in Hcore.
        apply (P_weak _ _ _ _ (HP _ Hinx) (Hcore _ Hinx) Hx), Hen. }
    pose proof (seq_rec_spec rs) as Hseq. destruct (seq_rec rs) as [e|fields].
    - destruct Hseq as (k & kk & Hin & ->). destruct (Hfield _ _ Hin) as (x & tx & cx & _ & _ & _ & _ & Hr). exact Hr.
    - cbn [res_typed]. constructor.
      + rewrite Forall_forall. intros [k v] Hkv.
        assert (Hin : In (k, Ok v) rs) by (rewrite Hseq; apply in_map_iff; exists (k, v); auto).
        destruct (Hfield _ _ Hin) as (x & tx & cx & _ & _ & _ & Hl & Hr). exists tx, true. cbn [fst snd]. auto.
      + intros k t' Hl. rewrite Hlk in Hl. destruct (rec_get k (rev kvs)) as [x|] eqn:Ex; [|discriminate].
        pose proof (Hget k) as Hg. rewrite Ex in Hg. cbn [option_map] in Hg. rewrite Hseq in Hg.
        rewrite (rec_get_map (fun v => Ok v)) in Hg. destruct (rec_get k fields) as [v|]; [eauto | discriminate].
  Qed.

  Lemma call_go_spec caps ret lp : forall l tys bad t caps',
    Forall P l -> forallb (core ai) l = true -> List.length l = List.length tys ->
    call_go (fun x => T x caps) caps ret lp l tys bad = TOk t caps' ->
    bad = false /\ lp = false /\ t = ret /\ caps' = caps /\
    Forall2 (fun x ty => forall en, conf en caps -> res_typed (eval en x) ty) l tys.
  Proof.
    induction l as [|x r IH]; intros tys bad t caps' HP Hc Hlen H.
    - destruct tys; [|discriminate]. cbn [call_go] in H. destruct bad; [discriminate|]. destruct lp; [discriminate|].
      cbn in H. inversion H; subst. repeat split; auto.
    - destruct tys as [|ty tr]; [discriminate|]. cbn [List.length] in Hlen. inversion Hlen as [Hlen'].
      cbn [call_go] in H. fold (call_go (fun x => T x caps) caps ret lp) in H.
      inversion HP as [|? ? HPx HPr]; subst. cbn [forallb] in Hc. apply andb_true_iff in Hc. destruct Hc as [Hcx Hcr].
      destruct (T x caps) as [tx cx| |] eqn:Hx; [| |discriminate].
      + destruct (IH _ _ _ _ HPr Hcr Hlen' H) as (Hb & -> & -> & -> & Hall).
        apply orb_false_iff in Hb. destruct Hb as [-> Hsub]. apply negb_false_iff in Hsub. apply arg_subtype_eq in Hsub. subst tx.
        repeat split; auto. constructor; [|exact Hall].
        apply (P_weak _ _ _ _ HPx Hcx Hx).
      + destruct (IH _ _ _ _ HPr Hcr Hlen' H) as (Hb & _). discriminate.
  Qed.

  Lemma P_call name args : Forall P args -> P (ECall name args).
  Proof.
    intros HP Hcore caps t caps' H. rewrite core_call in Hcore. rewrite typeof_call in H.
    destruct (ext_sig name) as [[[ctor argtys] ret]|] eqn:Hsig; [|discriminate].
    destruct (Nat.eqb (List.length args) (List.length argtys)) eqn:Hlen; cbn [negb] in H.
    2: { destruct (existsb _ args); discriminate. }
    apply Nat.eqb_eq in Hlen.
    apply call_go_spec in H; auto. destruct H as (_ & Hlp & -> & -> & Hall).
    destruct (call_ext_sound _ _ _ _ Hsig) as (Hw & Hctor & Hcall). apply P_simple; [exact Hw|].
    intros en Hen. cbn [eval]. apply Hcall.
    - apply Forall2_map_l. clear - Hall Hen. induction Hall as [|x ty r tr Hx Hr IHr]; constructor; [apply Hx, Hen | exact IHr].
    - intros ->. rewrite (Hctor eq_refl) in *. cbn [andb] in Hlp.
      inversion Hall as [|x ty r tr Hx Hr]; subst. inversion Hr; subst. specialize (Hx en Hen).
      destruct x; try discriminate. cbn [eval map] in *. cbn [res_typed] in Hx.
      destruct (vtyped_string_inv _ Hx) as (s & ->). exists s. split; [reflexivity|]. apply negb_false_iff in Hlp. exact Hlp.
  Qed.

  Theorem typeof_sound_all : forall e, P e.
  Proof.
    induction e using expr_ind'.
    - apply P_lit.
    - apply P_var.
    - apply P_and; assumption.
    - apply P_or; assumption.
    - apply P_not; assumption.
    - apply P_neg; assumption.
    - apply (P_arith (EAdd e1 e2) e1 e2 checkedAddI64); [typeof_eq | reflexivity.. | assumption | assumption].
    - apply (P_arith (ESub e1 e2) e1 e2 checkedSubI64); [typeof_eq | reflexivity.. | assumption | assumption].
    - apply (P_arith (EMul e1 e2) e1 e2 checkedMulI64); [typeof_eq | reflexivity.. | assumption | assumption].
    - apply (P_equality (EEq e1 e2) e1 e2 false (fun r => r)); [intros []; reflexivity | typeof_eq | reflexivity..| assumption | assumption].
    - apply (P_equality (ENe e1 e2) e1 e2 true negb); [intros []; reflexivity | typeof_eq | reflexivity..| assumption | assumption].
    - apply (P_cmp (ELt e1 e2) e1 e2 Z.ltb); [typeof_eq | reflexivity.. | assumption | assumption].
    - apply (P_cmp (ELe e1 e2) e1 e2 Z.leb); [typeof_eq | reflexivity.. | assumption | assumption].
    - apply (P_cmp (EGt e1 e2) e1 e2 (fun x y => negb (x <=? y))); [typeof_eq | reflexivity.. | assumption | assumption].
    - apply (P_cmp (EGe e1 e2) e1 e2 (fun x y => negb (x <? y))); [typeof_eq | reflexivity.. | assumption | assumption].
    - apply P_in; assumption.
    - apply P_contains; assumption.
    - apply (P_set_rel (EContainsAll e1 e2) e1 e2 (fun l m => forallb (fun x => vmem x l) m)); [typeof_eq | reflexivity.. | assumption | assumption].
    - apply (P_set_rel (EContainsAny e1 e2) e1 e2 (fun l m => existsb (fun x => vmem x l) m)); [typeof_eq | reflexivity.. | assumption | assumption].
    - apply P_is_empty; assumption.
    - apply P_access; assumption.
    - apply P_has; assumption.
    - apply P_get_tag; assumption.
    - apply P_has_tag; assumption.
    - apply P_like; assumption.
    - apply P_is; assumption.
    - apply P_is_in; assumption.
    - apply P_if; assumption.
    - apply P_set; assumption.
    - apply P_record; assumption.
    - apply P_call; assumption.
    - apply P_perr.
  Qed.
End Main.

(* the request environment's action is one of the schema's declared actions (Go enumerates request environments from schema.Actions) *)
Definition action_declared (sch : tschema) (tv : tenv) : Prop := umem (tv_action tv) (ts_actions sch) = true.

(* every attribute name used in an access `a.k` inside e is shorter than 10^39 bytes *)
Definition keys_small (e : expr) : bool := core true e.

(* typeof only produces types whose record keys are pairwise distinct *)
Theorem typeof_strict_WT : forall sch tv e, schema_wf sch -> tenv_wf sch tv -> keys_small e = true ->
  forall caps t caps', typeof true sch tv e caps = TOk t caps' -> WT t.
Proof. intros sch tv e Hs Ht Hc caps t caps' H. exact (proj1 (typeof_sound_all sch tv Hs Ht true e Hc caps t caps' H)). Qed.

(* MAIN THEOREM: the full language, in every conforming environment (env_ok, plus what the Go validator checks about action entities
   and unknown entity types and entity_ok does not say: actions_conform, store_types_known) *)
Theorem typeof_sound_strict : forall sch tv e, schema_wf sch -> tenv_wf sch tv -> agraph_wf sch -> action_declared sch tv -> keys_small e = true ->
  forall caps t caps', typeof true sch tv e caps = TOk t caps' ->
  forall en, env_ok sch tv en -> actions_conform sch (e_store en) -> store_types_known sch (e_store en) -> caps_hold en caps ->
    match eval en e with
    | Ok v => vtyped v t /\ (v = VBool true -> caps_hold en caps')
    | Err k => allowed_error k = true
    end.
Proof.
  intros sch tv e Hs Ht Hg Hd Hc caps t caps' H en Hen Hac Hk Hcaps.
  destruct (typeof_sound_all sch tv Hs Ht true e Hc caps t caps' H) as [_ Hsound].
  destruct (Hsound en (conj Hen (conj (fun _ => conj (conj Hg (conj Hac Hk)) Hd) Hcaps))) as [Hr _]. exact Hr.
Qed.

(* the stronger capability fact the induction carries: an expression typed True (or Never) establishes its capabilities in every
   conforming environment, whether or not it is evaluated (this is what `a || b` with b : True relies on) *)
Theorem typeof_true_caps : forall sch tv e, schema_wf sch -> tenv_wf sch tv -> agraph_wf sch -> action_declared sch tv -> keys_small e = true ->
  forall caps t caps', typeof true sch tv e caps = TOk t caps' -> (t = CTrue \/ t = CNever) ->
  forall en, env_ok sch tv en -> actions_conform sch (e_store en) -> store_types_known sch (e_store en) -> caps_hold en caps ->
    caps_hold en caps'.
Proof.
  intros sch tv e Hs Ht Hg Hd Hc caps t caps' H Htt en Hen Hac Hk Hcaps.
  destruct (typeof_sound_all sch tv Hs Ht true e Hc caps t caps' H) as [_ Hsound].
  destruct (Hsound en (conj Hen (conj (fun _ => conj (conj Hg (conj Hac Hk)) Hd) Hcaps))) as [_ Hr]. exact (Hr Htt).
Qed.

(* sound_at of Lang/TypeSound.v literally, without the hypotheses on actions and store, for expressions without `in` (`is .. in` is allowed) *)
Definition in_free_small (e : expr) : bool := core false e.

Theorem typeof_sound_strict_in_free : forall sch tv e, schema_wf sch -> tenv_wf sch tv -> in_free_small e = true -> sound_at sch true tv e.
Proof.
  intros sch tv e Hs Ht Hc caps t caps' H en Hen Hcaps.
  destruct (typeof_sound_all sch tv Hs Ht false e Hc caps t caps' H) as [_ Hsound].
  destruct (Hsound en (conj Hen (conj (fun E => match Bool.diff_false_true E with end) Hcaps))) as [Hr _]. exact Hr.
Qed.

Definition S_ (x : string) : str := s_of x.
Definition mkent (ps : list str) (sh : list (str * (cty * bool))) (tg : option cty) : tentity :=
  {| te_parents := ps; te_shape := sh; te_tags := tg |}.
Definition ill_typed : expr := EGt (EAdd (ELit (VLong 1)) (ELit (VString (S_ "x")))) (ELit (VLong 0)).

Lemma store_ok_nil sch : store_ok sch [].
Proof. intros u e H. discriminate. Qed.

Lemma vtyped_rec1 k v t : vtyped v t -> vtyped (VRecord [(k, v)]) (CRec [(k, (t, true))]).
Proof.
  intros Hv. constructor.
  - constructor; [|constructor]. exists t, true. cbn [fst snd alookup]. rewrite str_eqb_refl. auto.
  - intros k' t' H. cbn [alookup] in H. destruct (str_eqb k k') eqn:E; [|discriminate]. apply str_eqb_eq in E. subst k'.
    exists v. cbn [rec_get]. rewrite str_eqb_refl. reflexivity.
Qed.

(* permissive mode is not sound (F29): the lub of {k: Long} and {k: String} drops k, so `has k` is typed False *)
Definition sch_p : tschema := {| ts_entities := [(S_ "U", mkent [] [] None)]; ts_enums := []; ts_actions := []; ts_agraph := [] |}.
Definition tv_p : tenv := {| tv_principal := S_ "U"; tv_action := (S_ "Action", S_ "view"); tv_resource := S_ "U"; tv_context := [(S_ "c", (CBool, true))] |}.
Definition e_p : expr :=
  EIf (EHas (EIf (EAccess (EVar VContext) (S_ "c")) (ERecord [(S_ "k", ELit (VLong 1))]) (ERecord [(S_ "k", ELit (VString (S_ "s")))])) (S_ "k"))
      ill_typed (ELit (VBool true)).
Definition en_p : env := {| e_store := []; e_principal := VEntity (S_ "U") (S_ "1"); e_action := VEntity (S_ "Action") (S_ "view");
                            e_resource := VEntity (S_ "U") (S_ "2"); e_context := VRecord [(S_ "c", VBool true)] |}.

Example permissive_unsound : exists sch tv e t caps en,
  typeof false sch tv e [] = TOk t caps /\ env_ok sch tv en /\ (exists k, eval en e = Err k /\ allowed_error k = false).
Proof.
  exists sch_p, tv_p, e_p, CTrue, [], en_p. split; [vm_compute; reflexivity|]. split.
  - split; [apply store_ok_nil|]. split; [constructor; left; reflexivity|]. split; [reflexivity|].
    split; [constructor; left; reflexivity|]. apply vtyped_rec1. constructor.
  - exists EType. split; vm_compute; reflexivity.
Qed.

(* strict mode: the conformance hypothesis actions_conform cannot be dropped: env_ok alone (entity_ok says nothing about the parents
   of an action entity) admits a store that Go's validateActionEntity rejects - Action::"view" has no declared groups but a parent
   G::"g" - and there `(if true then action else action) in G::"g"`, typed False, is true. *)
Definition sch_a : tschema := {| ts_entities := [(S_ "G", mkent [] [] None)]; ts_enums := []; ts_actions := [(S_ "Action", S_ "view")];
                             ts_agraph := [((S_ "Action", S_ "view"), [])] |}.
Definition tv_a : tenv := {| tv_principal := S_ "G"; tv_action := (S_ "Action", S_ "view"); tv_resource := S_ "G"; tv_context := [] |}.
Definition e_a : expr :=
  EIf (EIn (EIf (ELit (VBool true)) (EVar VAction) (EVar VAction)) (ELit (VEntity (S_ "G") (S_ "g")))) ill_typed (ELit (VBool true)).
Definition st_a : store := [((S_ "Action", S_ "view"), {| e_parents := [(S_ "G", S_ "g")]; e_attrs := []; e_tags := [] |})].
Definition en_a : env := {| e_store := st_a; e_principal := VEntity (S_ "G") (S_ "1"); e_action := VEntity (S_ "Action") (S_ "view");
                            e_resource := VEntity (S_ "G") (S_ "2"); e_context := VRecord [] |}.

Lemma sch_a_entity n te : entity_of sch_a n = Some te -> n = S_ "G" /\ te = mkent [] [] None.
Proof.
  unfold entity_of, sch_a. cbn [ts_entities alookup]. destruct (str_eqb (S_ "G") n) eqn:E; [|discriminate].
  apply str_eqb_eq in E. intros H. injection H as <-. auto.
Qed.

Lemma st_a_lookup u e : lookup st_a u = Some e -> u = (S_ "Action", S_ "view").
Proof.
  unfold st_a. cbn [lookup]. destruct (uid_eqb (S_ "Action", S_ "view") u) eqn:E; [|discriminate]. intros _. symmetry. apply uid_eqb_eq, E.
Qed.

Example strict_needs_action_conformance : exists sch tv e t caps en,
  schema_wf sch /\ tenv_wf sch tv /\ agraph_wf sch /\ action_declared sch tv /\ keys_small e = true /\
  typeof true sch tv e [] = TOk t caps /\ env_ok sch tv en /\ store_types_known sch (e_store en) /\
  ~ actions_conform sch (e_store en) /\
  (exists k, eval en e = Err k /\ allowed_error k = false).
Proof.
  exists sch_a, tv_a, e_a, CTrue, [], en_a. split; [|split; [|split; [|split; [|split; [|split; [|split; [|split; [|split]]]]]]]].
  - split; [reflexivity|]. intros n te H. destruct (sch_a_entity _ _ H) as [_ ->]. split; [intros k t q E | intros tt E]; discriminate.
  - unfold tenv_wf. apply WT_rec. split; constructor.
  - split; [|split; [|split]].
    + intros u. cbn. tauto.
    + intros a ps [H|[]]. inversion H; subst. split; [reflexivity | intros p []].
    + intros n Hn. split; [|reflexivity]. destruct (entity_of sch_a n) as [te|] eqn:E; [|reflexivity].
      destruct (sch_a_entity _ _ E) as [-> _]. vm_compute in Hn. discriminate.
    + intros n te p H Hp. destruct (sch_a_entity _ _ H) as [_ ->]. destruct Hp.
  - reflexivity.
  - reflexivity.
  - vm_compute. reflexivity.
  - split; [|split; [constructor; left; reflexivity | split; [reflexivity | split; [constructor; left; reflexivity|]]]].
    + intros u e H. pose proof (st_a_lookup _ _ H) as ->. vm_compute in H. injection H as <-.
      unfold entity_ok. cbn [fst]. split; [reflexivity|]. split; [reflexivity|]. intros Hs. vm_compute in Hs. discriminate.
    + constructor; [constructor|]. intros k t E. discriminate.
  - intros u e H. rewrite (st_a_lookup _ _ H). right. right. reflexivity.
  - intros Hac. destruct (Hac (S_ "Action", S_ "view") _ eq_refl eq_refl eq_refl eq_refl) as (ps & _ & Hcl).
    specialize (Hcl (S_ "G", S_ "g") (or_introl eq_refl)). destruct (clos_trans_first _ _ _ Hcl) as (z & qs & Hq & Hz).
    vm_compute in Hq. inversion Hq; subst qs. destruct Hz.
  - exists EType. split; vm_compute; reflexivity.
Qed.

(* strict mode: action_declared cannot be dropped either (a model-level remark: Go builds request environments from the schema's
   actions).  With an undeclared request action, `action in action` is typed False (no right-hand uid is a declared action). *)
Definition e_d : expr := EIf (EIn (EVar VAction) (EVar VAction)) ill_typed (ELit (VBool true)).
Definition en_d : env := {| e_store := []; e_principal := VEntity (S_ "U") (S_ "1"); e_action := VEntity (S_ "Action") (S_ "view");
                            e_resource := VEntity (S_ "U") (S_ "2"); e_context := VRecord [(S_ "c", VBool true)] |}.
Example strict_needs_action_declared : exists sch tv e t caps en,
  typeof true sch tv e [] = TOk t caps /\ env_ok sch tv en /\ ~ action_declared sch tv /\
  (exists k, eval en e = Err k /\ allowed_error k = false).
Proof.
  exists sch_p, tv_p, e_d, CTrue, [], en_d. split; [vm_compute; reflexivity|]. split; [|split].
  - split; [apply store_ok_nil|]. split; [constructor; left; reflexivity|]. split; [reflexivity|].
    split; [constructor; left; reflexivity|]. apply vtyped_rec1. constructor.
  - unfold action_declared. vm_compute. discriminate.
  - exists EType. split; vm_compute; reflexivity.
Qed.

Print Assumptions typeof_sound_strict.
Print Assumptions typeof_true_caps.
Print Assumptions typeof_strict_WT.
Print Assumptions typeof_sound_strict_in_free.
Print Assumptions permissive_unsound.
Print Assumptions strict_needs_action_conformance.
Print Assumptions strict_needs_action_declared.
