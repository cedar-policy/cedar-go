(* The text form of an entity uid reads back: EntityUID.UnmarshalCedar (MarshalCedar u) = u   (Impl/UidText.v).
   - index_of (strings.Index) facts: a match is a prefix match at that offset, nothing matches before it, and
     for the concrete separator colon colon double-quote a type without the separator followed by the separator
     has its first match exactly at the end of the type (also for types ending in one or two colons);
   - parse_print_uid: the round trip, for every choice of the Unicode tables;
   - parse_uid_shape: what the parser accepts;
   - the hypothesis on the type cannot be dropped (vm_compute witness), and concrete examples. *)
From Coq Require Import ZArith List Bool Lia Arith.
Import ListNotations.
From Cedar Require Import Base.Utf8 Base.Utf8Enc Lang.Value Impl.Quote Impl.UidText Proofs.TextProofs Proofs.QuoteProofs.
Local Open Scope Z_scope.

Lemma skipn_app_plus : forall (A : Type) (a r : list A) k, skipn (length a + k) (a ++ r) = skipn k r.
Proof. intros A a r k. induction a as [|x a IH]; cbn; auto. Qed.

Lemma is_prefix_true : forall p s, is_prefix p s = true <-> exists r, s = p ++ r.
Proof.
  intros p. induction p as [|x p IH]; intros s; cbn [is_prefix app]; [split; eauto|].
  destruct s as [|y s]; [split; [discriminate | intros (r & H); discriminate H]|].
  rewrite andb_true_iff, Z.eqb_eq, IH. split.
  - intros (-> & r & ->). eauto.
  - intros (r & [= -> ->]). eauto.
Qed.

Lemma index_of_unfold : forall p s,
  index_of p s = if is_prefix p s then Some O else
                 match s with [] => None | _ :: s' => option_map S (index_of p s') end.
Proof. intros p s. destruct s; reflexivity. Qed.

Lemma index_of_nil_s : forall x p, index_of (x :: p) [] = None.
Proof. reflexivity. Qed.

(* a match at n: n bytes without a match, the pattern, the bytes after *)
Lemma index_of_some : forall x p s n, index_of (x :: p) s = Some n ->
  exists a b, s = a ++ (x :: p) ++ b /\ length a = n /\ index_of (x :: p) a = None.
Proof.
  intros x p s. induction s as [|y s IH]; intros n H; [discriminate H|].
  rewrite index_of_unfold in H. destruct (is_prefix (x :: p) (y :: s)) eqn:E.
  - injection H as <-. apply is_prefix_true in E. destruct E as (b & E). exists [], b. auto.
  - destruct (index_of (x :: p) s) as [m|]; [|discriminate H]. injection H as <-.
    destruct (IH m eq_refl) as (a & b & -> & <- & Hnone). exists (y :: a), b.
    split; [reflexivity | split; [reflexivity|]].
    rewrite index_of_unfold, Hnone. destruct (is_prefix (x :: p) (y :: a)) eqn:E'; [|reflexivity].
    (* a prefix match inside y :: a would be one in the whole string *)
    apply is_prefix_true in E'. destruct E' as (r & E').
    rewrite app_comm_cons, E', <- app_assoc in E. rewrite (proj2 (is_prefix_true _ _)) in E by eauto. discriminate E.
Qed.

Lemma index_of_none_cons : forall p y s, index_of p (y :: s) = None ->
  is_prefix p (y :: s) = false /\ index_of p s = None.
Proof.
  intros p y s H. rewrite index_of_unfold in H.
  destruct (is_prefix p (y :: s)); [discriminate H|]. split; [reflexivity|].
  destruct (index_of p s); [discriminate H|reflexivity].
Qed.

(* the straddling cases: a type ending in one or two colons does not create an earlier match *)
Lemma uid_sep_no_straddle : forall t rest, is_prefix uid_sep t = false -> t <> [] ->
  is_prefix uid_sep (t ++ uid_sep ++ rest) = false.
Proof.
  intros t rest H Hne. unfold uid_sep in *.
  destruct t as [|a [|b [|c t]]]; [contradiction| | |].
  - cbn [app is_prefix]. destruct (58 =? a); reflexivity.
  - cbn [app is_prefix]. destruct (58 =? a); [|reflexivity]. destruct (58 =? b); reflexivity.
  - cbn [app is_prefix] in *. exact H.
Qed.

Lemma index_of_app : forall t rest, index_of uid_sep t = None ->
  index_of uid_sep (t ++ uid_sep ++ rest) = Some (length t).
Proof.
  intros t rest. induction t as [|y t IH]; intros H.
  - cbn [app length]. rewrite index_of_unfold, (proj2 (is_prefix_true _ _)) by eauto. reflexivity.
  - apply index_of_none_cons in H. destruct H as [Hp Hi].
    rewrite index_of_unfold.
    rewrite (uid_sep_no_straddle (y :: t) rest Hp) by discriminate.
    cbn [app]. rewrite (IH Hi). reflexivity.
Qed.

(* what parse_uid does once the first separator is found at the end of t *)
Lemma parse_uid_sep : forall t b, t <> [] -> index_of uid_sep (t ++ uid_sep ++ b) = Some (length t) ->
  parse_uid (t ++ uid_sep ++ b) =
  match rev b with
  | 34 :: m => match unquote (rev m) false with Some (id, _) => Some (t, id) | None => None end
  | _ => None
  end.
Proof.
  intros t b Hne Hi. unfold parse_uid. rewrite Hi.
  destruct (length t) as [|n] eqn:El; [destruct t; [contradiction | discriminate El]|].
  rewrite <- El, firstn_app_exact, skipn_app_plus. reflexivity.
Qed.

Lemma parse_uid_at : forall t body, t <> [] -> index_of uid_sep t = None ->
  parse_uid (t ++ [58; 58] ++ [34] ++ body ++ [34]) =
  match unquote body false with Some (id, _) => Some (t, id) | None => None end.
Proof.
  intros t body Hne Hi.
  change (t ++ [58; 58] ++ [34] ++ body ++ [34]) with (t ++ uid_sep ++ (body ++ [34])).
  rewrite parse_uid_sep by (exact Hne || apply index_of_app, Hi).
  rewrite rev_unit, rev_involutive. reflexivity.
Qed.

Section RoundTrip.
  Variable is_printable : Z -> bool.
  Variable is_gext : Z -> bool.

  Theorem parse_print_uid : forall u : uid, fst u <> [] -> index_of uid_sep (fst u) = None ->
    nonneg (snd u) -> valid_utf8 (snd u) = true ->
    parse_uid (print_uid is_printable is_gext u) = Some u.
  Proof.
    intros [t i] Hne Hi Hnn Hv. cbn [fst snd] in *.
    unfold print_uid, quote_string. cbn [fst snd].
    rewrite (parse_uid_at t (escape_string is_printable is_gext i) Hne Hi).
    unfold escape_string. rewrite unquote_escape_runes by (apply runes_valid; assumption).
    rewrite runes_encode by assumption. reflexivity.
  Qed.
End RoundTrip.

Theorem parse_uid_shape : forall s t i, parse_uid s = Some (t, i) ->
  t <> [] /\ index_of uid_sep t = None /\
  exists q, s = t ++ [58; 58] ++ [34] ++ q ++ [34] /\ exists r, unquote q false = Some (i, r).
Proof.
  intros s t i H.
  destruct (index_of uid_sep s) as [n|] eqn:Ei; [|unfold parse_uid in H; rewrite Ei in H; discriminate H].
  destruct (index_of_some _ _ _ _ Ei) as (a & b & -> & <- & Hnone).
  destruct a as [|y a]; [unfold parse_uid in H; rewrite Ei in H; discriminate H|].
  rewrite parse_uid_sep in H by (discriminate || exact Ei).
  destruct (rev b) as [|c m] eqn:Er; [discriminate H|].
  assert (c = 34) as ->.
  { destruct c as [|c|c]; try discriminate H. do 6 (destruct c as [c|c|]; try discriminate H). reflexivity. }
  destruct (unquote (rev m) false) as [[id r]|] eqn:Eu; [|discriminate H]. injection H as <- <-.
  split; [discriminate|]. split; [exact Hnone|]. exists (rev m). split; [|exists r; exact Eu].
  rewrite <- (rev_involutive b), Er. reflexivity.
Qed.

Theorem parse_uid_type_nonempty : forall s t i, parse_uid s = Some (t, i) ->
  t <> [] /\ index_of uid_sep t = None /\ exists q, s = t ++ [58; 58] ++ [34] ++ q ++ [34].
Proof.
  intros s t i H. destruct (parse_uid_shape s t i H) as [H1 [H2 [q [Hq _]]]].
  split; [exact H1|]. split; [exact H2|]. exists q. exact Hq.
Qed.

(* the parser and the round trip together: a string is accepted with result (t, i) exactly when it has this shape *)
Theorem parse_uid_iff : forall s t i,
  parse_uid s = Some (t, i) <->
  (t <> [] /\ index_of uid_sep t = None /\
   exists q, s = t ++ [58; 58] ++ [34] ++ q ++ [34] /\ exists r, unquote q false = Some (i, r)).
Proof.
  intros s t i. split; [apply parse_uid_shape|].
  intros [Hne [Hi [q [-> [r Hu]]]]]. rewrite (parse_uid_at t q Hne Hi). rewrite Hu. reflexivity.
Qed.

Definition ex_printable (c : Z) : bool := (32 <=? c) && (c <? 127).
Definition ex_gext (c : Z) : bool := false.
Definition ex_print (u : uid) : str := print_uid ex_printable ex_gext u.

(* the hypothesis on the type cannot be dropped: writing Q for the double quote byte 34, the type  A::QB
   with id  x  prints as  A::QB::QxQ  and reads back as type A, id  B::Qx  (the unquoter accepts the bare double quote) *)
Example parse_uid_needs_hyp :
  let u : uid := ([65; 58; 58; 34; 66], [120]) in
  fst u <> [] /\ nonneg (snd u) /\ valid_utf8 (snd u) = true /\
  index_of uid_sep (fst u) = Some 1%nat /\
  ex_print u = [65; 58; 58; 34; 66; 58; 58; 34; 120; 34] /\
  parse_uid (ex_print u) = Some ([65], [66; 58; 58; 34; 120]) /\
  parse_uid (ex_print u) <> Some u.
Proof.
  cbv zeta. split; [discriminate|]. split; [repeat constructor; discriminate|].
  split; [vm_compute; reflexivity|]. split; [vm_compute; reflexivity|].
  split; [vm_compute; reflexivity|]. split; [vm_compute; reflexivity|].
  vm_compute. discriminate.
Qed.

(* an empty type is printed but not read back *)
Example parse_uid_empty_type : parse_uid (ex_print ([], [120])) = None.
Proof. vm_compute. reflexivity. Qed.

(* types ending in one or two colons are fine *)
Example ex_type_colon1 : parse_uid (ex_print ([65; 58], [120])) = Some ([65; 58], [120]).
Proof. vm_compute. reflexivity. Qed.
Example ex_type_colon2 : parse_uid (ex_print ([65; 58; 58], [120])) = Some ([65; 58; 58], [120]).
Proof. vm_compute. reflexivity. Qed.
Example ex_type_colon3 : parse_uid (ex_print ([58; 58; 58], [])) = Some ([58; 58; 58], []).
Proof. vm_compute. reflexivity. Qed.

Definition ty_User : str := [85; 115; 101; 114].
Definition ty_NS_T : str := [78; 83; 58; 58; 84].

Definition id_path : str := [67; 58; 92; 120; 92].        (* C:\x\ *)
Definition id_abs : str := [97; 92; 92].                  (* a\\ *)
Definition id_bsq : str := [92; 34].                      (* backslash quote *)
Definition id_qbs : str := [34; 92].                      (* quote backslash *)
Definition id_sep : str := [97; 58; 58; 34; 98].          (* a colon colon quote b *)
Definition id_empty : str := [].

Example ex_print_path : ex_print (ty_User, id_path) =
  [85; 115; 101; 114; 58; 58; 34; 67; 58; 92; 92; 120; 92; 92; 34].
Proof. vm_compute. reflexivity. Qed.
Example ex_print_sep : ex_print (ty_NS_T, id_sep) =
  [78; 83; 58; 58; 84; 58; 58; 34; 97; 58; 58; 92; 34; 98; 34].
Proof. vm_compute. reflexivity. Qed.

Example ex_User_path : parse_uid (ex_print (ty_User, id_path)) = Some (ty_User, id_path).
Proof. vm_compute. reflexivity. Qed.
Example ex_User_abs : parse_uid (ex_print (ty_User, id_abs)) = Some (ty_User, id_abs).
Proof. vm_compute. reflexivity. Qed.
Example ex_User_bsq : parse_uid (ex_print (ty_User, id_bsq)) = Some (ty_User, id_bsq).
Proof. vm_compute. reflexivity. Qed.
Example ex_User_qbs : parse_uid (ex_print (ty_User, id_qbs)) = Some (ty_User, id_qbs).
Proof. vm_compute. reflexivity. Qed.
Example ex_User_sep : parse_uid (ex_print (ty_User, id_sep)) = Some (ty_User, id_sep).
Proof. vm_compute. reflexivity. Qed.
Example ex_User_empty : parse_uid (ex_print (ty_User, id_empty)) = Some (ty_User, id_empty).
Proof. vm_compute. reflexivity. Qed.

Example ex_NS_T_path : parse_uid (ex_print (ty_NS_T, id_path)) = Some (ty_NS_T, id_path).
Proof. vm_compute. reflexivity. Qed.
Example ex_NS_T_abs : parse_uid (ex_print (ty_NS_T, id_abs)) = Some (ty_NS_T, id_abs).
Proof. vm_compute. reflexivity. Qed.
Example ex_NS_T_bsq : parse_uid (ex_print (ty_NS_T, id_bsq)) = Some (ty_NS_T, id_bsq).
Proof. vm_compute. reflexivity. Qed.
Example ex_NS_T_qbs : parse_uid (ex_print (ty_NS_T, id_qbs)) = Some (ty_NS_T, id_qbs).
Proof. vm_compute. reflexivity. Qed.
Example ex_NS_T_sep : parse_uid (ex_print (ty_NS_T, id_sep)) = Some (ty_NS_T, id_sep).
Proof. vm_compute. reflexivity. Qed.
Example ex_NS_T_empty : parse_uid (ex_print (ty_NS_T, id_empty)) = Some (ty_NS_T, id_empty).
Proof. vm_compute. reflexivity. Qed.

(* the parser is more liberal than the printer: a body with a bare double quote, or a non-printable byte, is accepted *)
Example ex_bare_quote : parse_uid [65; 58; 58; 34; 98; 34; 99; 34] = Some ([65], [98; 34; 99]).
Proof. vm_compute. reflexivity. Qed.

Print Assumptions index_of_app.
Print Assumptions parse_print_uid.
Print Assumptions parse_uid_shape.
Print Assumptions parse_uid_type_nonempty.
Print Assumptions parse_uid_iff.
Print Assumptions parse_uid_needs_hyp.
