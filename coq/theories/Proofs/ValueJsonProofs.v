(* Round trip of the JSON codec of Cedar values (Impl/ValueJson.v) on JSON trees.
   - value_json_roundtrip      : for json_safe values, decode (encode v) is a value Cedar-equal to v (any member order of sets)
   - value_json_roundtrip_eq   : with the identity member order the decoded value is identical
   - decode_type_faithful      : the decoded value has the type of the encoded one
   - value_json_roundtrip_refuted : without the json_safe restriction the round trip fails (record shaped like an escape, F17) *)
From Coq Require Import ZArith List Bool Lia Arith String Permutation.
Import ListNotations.
From Cedar Require Import Base.Int64 Base.Json Lang.Value Impl.Decimal Impl.Duration Impl.Datetime Impl.IPAddr Impl.ValueJson.
From Cedar Require Import Proofs.ValueProofs Proofs.DecimalProofs Proofs.DurationProofs Proofs.DatetimeProofs.
Local Open Scope Z_scope.

Lemma vj_all_some_map_Some {A} (l : list A) : all_some (List.map Some l) = Some l.
Proof. induction l as [|x l IH]; cbn [List.map all_some]; [reflexivity|]. rewrite IH. reflexivity. Qed.

Lemma vj_jget_none k (l : list (str * json)) :
  forallb (fun kv => negb (str_eqb (fst kv) k)) l = true -> jget k l = None.
Proof.
  induction l as [|[k' x] l IH]; cbn [forallb jget fst]; [reflexivity|].
  rewrite andb_true_iff, negb_true_iff. intros [Hk Hl]. rewrite (IH Hl), Hk. reflexivity.
Qed.

Lemma vj_decode_extn_obj fn arg : decode_value (extn fn arg) = decode_extn (s_of fn) arg.
Proof.
  assert (E : extn_probe (extn fn arg) = Some (s_of fn, arg)) by reflexivity.
  unfold extn in *. cbn [decode_value]. rewrite E. reflexivity.
Qed.

Lemma vj_decode_entity t i : decode_value (JObj [(k_entity, JObj [(k_type, JStr t); (k_id, JStr i)])]) = Some (VEntity t i).
Proof. reflexivity. Qed.

Lemma vj_vmem_sub x l l' : (forall y, In y l -> exists y', In y' l' /\ veq y y' = true) -> vmem x l = true -> vmem x l' = true.
Proof.
  intros H Hx. apply vmem_true_iff in Hx. destruct Hx as (y & Hy & R). destruct (H y Hy) as (y' & Hy' & R').
  apply vmem_true_iff. exists y'. split; [exact Hy'|]. eapply veq_trans_nowf; eauto.
Qed.

Lemma rec_eqb_map (g : value -> value) l :
  (forall kv, In kv l -> veq (snd kv) (g (snd kv)) = true) -> rec_eqb l (List.map (fun kv => (fst kv, g (snd kv))) l) = true.
Proof.
  induction l as [|[k x] l IH]; intros H; [reflexivity|]. cbn [List.map rec_eqb fst snd].
  pose proof (H (k, x) (or_introl eq_refl)) as Hx. cbn [snd] in Hx.
  rewrite str_eqb_refl, Hx, IH; [reflexivity|]. intros kv Hkv. apply H. right. exact Hkv.
Qed.

Definition vj_dec_fields (l : list (str * json)) : list (option (str * value)) :=
  List.map (fun kx => option_map (pair (fst kx)) (decode_value (snd kx))) l.

Lemma vj_decode_obj l :
  decode_value (JObj l) =
  match extn_probe (JObj l) with
  | Some (fn, arg) => decode_extn fn arg
  | None =>
      match entity_probe l with
      | Some (t, i) => Some (VEntity t i)
      | None => option_map mk_record (all_some (vj_dec_fields l))
      end
  end.
Proof.
  cbn [decode_value]. destruct (extn_probe (JObj l)) as [[fn arg]|]; [reflexivity|].
  destruct (entity_probe l) as [[t i]|]; [reflexivity|].
  f_equal. f_equal. unfold vj_dec_fields.
  induction l as [|[k x] l IH]; cbn [List.map fst snd]; [reflexivity|]. rewrite IH. reflexivity.
Qed.

Lemma vj_decode_arr l : decode_value (JArr l) = option_map mk_set (all_some (List.map decode_value l)).
Proof. reflexivity. Qed.

Section ValueJsonProofs.
  Variable print_ip : bool -> Z -> Z -> str.
  Variable ord : list json -> list json.
  Hypothesis ord_perm : forall l, Permutation (ord l) l.
  (* net/netip's printer is Go's standard library and is not modelled: its round trip is assumed for the ip values considered *)
  Variable ip_ok : bool -> Z -> Z -> bool.
  Hypothesis ip_roundtrip : forall v6 a p, ip_ok v6 a p = true -> parse_ip (print_ip v6 a p) = Some (v6, a, p).

  Definition key_ok (k : str) : bool := negb (str_eqb k k_extn) && negb (str_eqb k k_entity).

  (* values for which the JSON form is unambiguous and every scalar is in its printable range *)
  Fixpoint json_safe (v : value) : bool :=
    match v with
    | VBool _ => true
    | VString _ => true
    | VEntity _ _ => true
    | VLong z => in64b z
    | VDecimal z => in64b z
    | VDuration z => in64b z
    | VDatetime z => in_dt_range z
    | VIP v6 a p => ip_ok v6 a p
    | VSet l => nodup_veq l &&
        (fix all (l : list value) : bool :=
           match l with [] => true | x :: l' => json_safe x && all l' end) l
    | VRecord l => keys_sorted l &&
        (fix all (l : list (str * value)) : bool :=
           match l with [] => true | (k, x) :: l' => key_ok k && json_safe x && all l' end) l
    end.

  Lemma json_safe_set l : json_safe (VSet l) = nodup_veq l && forallb json_safe l.
  Proof. cbn [json_safe]. f_equal. Qed.

  Lemma json_safe_record l :
    json_safe (VRecord l) = keys_sorted l && forallb (fun kv => key_ok (fst kv) && json_safe (snd kv)) l.
  Proof.
    cbn [json_safe]. f_equal. induction l as [|[k x] l IH]; [reflexivity|].
    cbn [forallb fst snd]. rewrite <- IH. reflexivity.
  Qed.

  Lemma json_safe_wf : forall v, json_safe v = true -> wf_value v = true.
  Proof.
    apply (value_ind' (fun v => json_safe v = true -> wf_value v = true)); try (intros; reflexivity).
    - intros l HF. rewrite json_safe_set, wf_value_set, !andb_true_iff, !forallb_forall.
      rewrite Forall_forall in HF. intros [Hnd Hs]. split; auto.
    - intros l HF. rewrite json_safe_record, wf_value_record, !andb_true_iff, !forallb_forall.
      rewrite Forall_forall in HF. intros [Hk Hs]. split; auto.
      intros kv Hkv. apply HF; auto. specialize (Hs kv Hkv). apply andb_true_iff in Hs. tauto.
  Qed.

  Notation enc := (encode_value print_ip ord).

  Definition enc_field (kv : str * value) : str * json := (fst kv, enc (snd kv)).

  Lemma encode_record l : enc (VRecord l) = JObj (List.map enc_field l).
  Proof.
    cbn [encode_value]. f_equal. unfold enc_field.
    induction l as [|[k x] l IH]; cbn [List.map fst snd]; [reflexivity|]. rewrite IH. reflexivity.
  Qed.

  (* the strengthened round-trip relation between a value and what its encoding decodes to *)
  Definition rt (x x' : value) : Prop :=
    decode_value (enc x) = Some x' /\ veq x x' = true /\ wf_value x' = true /\ ((forall l, ord l = l) -> x' = x).

  (* what x reads back as: the members of a decoded set or record are the image of the encoded ones under a function,
     so the facts about them are facts about List.map.  The None branch only makes dv total: under json_safe it is never
     taken (rt_members). *)
  Definition dv (x : value) : value := match decode_value (enc x) with Some y => y | None => x end.

  Definition dv_field (kv : str * value) : str * value := (fst kv, dv (snd kv)).

  Lemma rt_members {A} (g : A -> value) (l : list A) :
    Forall (fun a => json_safe (g a) = true -> exists x', rt (g a) x') l -> (forall a, In a l -> json_safe (g a) = true) ->
    forall a, In a l -> rt (g a) (dv (g a)).
  Proof.
    rewrite Forall_forall. intros IH Hs a Ha. destruct (IH a Ha (Hs a Ha)) as [x' R].
    unfold dv. rewrite (proj1 R). exact R.
  Qed.

  Lemma enc_fields_no_key k l :
    forallb (fun kv => negb (str_eqb (fst kv) k)) l = true -> jget k (List.map enc_field l) = None.
  Proof.
    intros H. apply vj_jget_none. rewrite forallb_forall in *. intros kx Hkx.
    apply in_map_iff in Hkx. destruct Hkx as (kv & <- & Hkv). cbn [enc_field fst]. apply H. exact Hkv.
  Qed.

  Lemma rt_atomic x : atomic x -> decode_value (enc x) = Some x -> rt x x.
  Proof.
    intros Ha Hd. repeat split; auto.
    - apply veq_refl.
    - destruct x; try reflexivity; destruct Ha.
  Qed.

  Lemma rt_extn x fn arg : atomic x -> enc x = extn fn arg -> decode_extn (s_of fn) arg = Some x -> rt x x.
  Proof. intros Ha He Hd. apply rt_atomic; [exact Ha|]. rewrite He, vj_decode_extn_obj. exact Hd. Qed.

  Lemma rt_set l : nodup_veq l = true -> (forall x, In x l -> wf_value x = true) -> (forall x, In x l -> rt x (dv x)) ->
    exists v', rt (VSet l) v'.
  Proof.
    intros Hnd Hwl R.
    assert (Hdec : List.map decode_value (List.map enc l) = List.map Some (List.map dv l)).
    { rewrite !map_map. apply map_ext_in. intros x Hx. apply (R x Hx). }
    (* the array is a permutation of the encoded members *)
    pose proof (Permutation_map decode_value (ord_perm (List.map enc l))) as Hp. rewrite Hdec in Hp.
    destruct (Permutation_map_inv _ _ Hp) as (l'' & El'' & Hp3).
    assert (Hin : forall x', In x' l'' <-> exists x, dv x = x' /\ In x l).
    { intros x'. rewrite <- in_map_iff. split; apply Permutation_in; [apply Permutation_sym|]; exact Hp3. }
    assert (Hwl'' : forall x', In x' l'' -> wf_value x' = true).
    { intros x' Hx'. apply Hin in Hx'. destruct Hx' as (x & <- & Hx). apply (R x Hx). }
    exists (mk_set l''). unfold rt. cbn [encode_value]. rewrite vj_decode_arr, El'', vj_all_some_map_Some.
    split; [reflexivity|]. split; [|split; [apply mk_set_wf, Forall_forall, Hwl''|]].
    - rewrite <- (mk_set_nodup_id l Hwl Hnd).
      apply mk_set_order_irrelevant; try (apply Forall_forall; assumption).
      intros x _. apply Bool.eq_iff_eq_true. split; apply vj_vmem_sub.
      + intros y Hy. exists (dv y). split; [apply Hin; eauto | apply (R y Hy)].
      + intros y' Hy'. pose proof (Hwl'' y' Hy') as Wy'. apply Hin in Hy'. destruct Hy' as (y & <- & Hy).
        exists y. split; [exact Hy|]. apply veq_sym_imp; auto. apply (R y Hy).
    - intros Hid. rewrite Hid, Hdec in El''. apply (f_equal all_some) in El''.
      rewrite !vj_all_some_map_Some in El''. injection El'' as <-.
      rewrite (map_ext_in dv (fun x => x)), map_id; [apply mk_set_nodup_id; auto|].
      intros x Hx. apply (R x Hx), Hid.
  Qed.

  Lemma rt_record l : keys_sorted l = true -> (forall kv, In kv l -> key_ok (fst kv) = true) ->
    (forall kv, In kv l -> rt (snd kv) (dv (snd kv))) -> exists v', rt (VRecord l) v'.
  Proof.
    intros Hks Hk R. exists (VRecord (List.map dv_field l)).
    assert (Hno : jget k_extn (List.map enc_field l) = None /\ jget k_entity (List.map enc_field l) = None).
    { split; apply enc_fields_no_key, forallb_forall; intros kv Hkv; specialize (Hk kv Hkv);
        unfold key_ok in Hk; apply andb_true_iff in Hk; tauto. }
    assert (Hks' : keys_sorted (List.map dv_field l) = true).
    { rewrite <- Hks. apply keys_sorted_ext. rewrite map_map. reflexivity. }
    assert (Hdec : vj_dec_fields (List.map enc_field l) = List.map Some (List.map dv_field l)).
    { unfold vj_dec_fields. rewrite !map_map. apply map_ext_in. intros kv Hkv. cbn [enc_field fst snd].
      rewrite (proj1 (R kv Hkv)). reflexivity. }
    unfold rt. rewrite encode_record, vj_decode_obj. unfold extn_probe, entity_probe.
    rewrite (proj1 Hno), (proj2 Hno), Hdec, vj_all_some_map_Some. cbn [option_map].
    unfold mk_record. rewrite (rec_of_list_sorted_id _ Hks').
    split; [reflexivity|]. split; [|split].
    - rewrite veq_record. apply rec_eqb_map. intros kv Hkv. apply (R kv Hkv).
    - rewrite wf_value_record, Hks'. apply forallb_forall. intros kv' Hkv'. apply in_map_iff in Hkv'.
      destruct Hkv' as (kv & <- & Hkv). apply (R kv Hkv).
    - intros Hid. f_equal. rewrite <- (map_id l) at 2. apply map_ext_in. intros [k x] Hkv.
      unfold dv_field. cbn [fst snd]. f_equal. apply (R _ Hkv), Hid.
  Qed.

  Lemma roundtrip_main : forall v, json_safe v = true -> exists v', rt v v'.
  Proof.
    apply (value_ind' (fun v => json_safe v = true -> exists v', rt v v')).
    - intros b _. exists (VBool b). apply rt_atomic; [exact I | reflexivity].
    - intros z Hs. exists (VLong z). apply rt_atomic; [exact I|].
      cbn [json_safe] in Hs. cbn [encode_value decode_value extn_probe]. rewrite Hs. reflexivity.
    - intros s _. exists (VString s). apply rt_atomic; [exact I | reflexivity].
    - intros t i _. exists (VEntity t i). apply rt_atomic; [exact I | apply vj_decode_entity].
    - intros l IH Hs. rewrite json_safe_set in Hs. apply andb_true_iff in Hs. destruct Hs as [Hnd Hsl].
      rewrite forallb_forall in Hsl. apply rt_set; [exact Hnd | | exact (rt_members (fun x => x) l IH Hsl)].
      intros x Hx. apply json_safe_wf, Hsl, Hx.
    - intros l IH Hs. rewrite json_safe_record in Hs. apply andb_true_iff in Hs. destruct Hs as [Hks Hsl].
      assert (Hsl' : forall kv, In kv l -> key_ok (fst kv) = true /\ json_safe (snd kv) = true).
      { intros kv Hkv. apply andb_true_iff. rewrite forallb_forall in Hsl. exact (Hsl kv Hkv). }
      apply rt_record; [exact Hks | intros kv Hkv; apply (Hsl' kv Hkv) |].
      exact (rt_members snd l IH (fun kv Hkv => proj2 (Hsl' kv Hkv))).
    - intros z Hs. cbn [json_safe] in Hs. apply in64b_spec in Hs.
      exists (VDecimal z). apply (rt_extn (VDecimal z) "decimal" (print_decimal z) I eq_refl).
      change (option_map VDecimal (parse_decimal (print_decimal z)) = Some (VDecimal z)).
      rewrite (decimal_roundtrip z Hs). reflexivity.
    - intros z Hs. cbn [json_safe] in Hs.
      exists (VDatetime z). apply (rt_extn (VDatetime z) "datetime" (print_datetime z) I eq_refl).
      change (option_map VDatetime (parse_datetime (print_datetime z)) = Some (VDatetime z)).
      rewrite (datetime_roundtrip z Hs). reflexivity.
    - intros z Hs. cbn [json_safe] in Hs. apply in64b_spec in Hs.
      exists (VDuration z). apply (rt_extn (VDuration z) "duration" (print_duration z) I eq_refl).
      change (option_map VDuration (parse_duration (print_duration z)) = Some (VDuration z)).
      rewrite (duration_roundtrip z Hs). reflexivity.
    - intros b a p Hs. cbn [json_safe] in Hs.
      exists (VIP b a p). apply (rt_extn (VIP b a p) "ip" (print_ip b a p) I eq_refl).
      change (option_map (fun x => VIP (fst (fst x)) (snd (fst x)) (snd x)) (parse_ip (print_ip b a p)) = Some (VIP b a p)).
      rewrite (ip_roundtrip b a p Hs). reflexivity.
  Qed.

  Theorem value_json_roundtrip : forall v, json_safe v = true ->
    exists v', decode_value (encode_value print_ip ord v) = Some v' /\ veq v v' = true /\ veq v' v = true.
  Proof.
    intros v Hs. destruct (roundtrip_main v Hs) as (v' & Hd & R & W & _).
    exists v'. repeat split; auto. rewrite veq_sym; auto. apply json_safe_wf; auto.
  Qed.

  (* the decoded value is moreover well-formed (canonical set / record representation) *)
  Theorem value_json_decoded_wf : forall v v', json_safe v = true ->
    decode_value (encode_value print_ip ord v) = Some v' -> wf_value v' = true.
  Proof.
    intros v v' Hs Hd. destruct (roundtrip_main v Hs) as (v'' & Hd' & _ & W & _). congruence.
  Qed.

  Theorem value_json_roundtrip_eq : forall v, json_safe v = true -> (forall l, ord l = l) ->
    decode_value (encode_value print_ip ord v) = Some v.
  Proof.
    intros v Hs Hid. destruct (roundtrip_main v Hs) as (v' & Hd & _ & _ & E).
    rewrite Hd, (E Hid). reflexivity.
  Qed.

  Theorem decode_type_faithful : forall v v', json_safe v = true ->
    decode_value (encode_value print_ip ord v) = Some v' -> type_tag v' = type_tag v.
  Proof.
    intros v v' Hs Hd. destruct (roundtrip_main v Hs) as (v'' & Hd' & R & _ & _).
    assert (v'' = v') by congruence. subst v''. symmetry. apply veq_type_tag. exact R.
  Qed.

  (* the unrestricted statement is false: a record shaped like the escape decodes as the escape (known finding F17) *)
  Theorem value_json_roundtrip_refuted :
    exists v v', decode_value (encode_value print_ip ord v) = Some v' /\ veq v v' = false.
  Proof.
    exists (VRecord [(s_of "__extn", VRecord [(s_of "arg", VString (s_of "1.0")); (s_of "fn", VString (s_of "decimal"))])]).
    exists (VDecimal 10000). split; [vm_compute; reflexivity | reflexivity].
  Qed.

  (* the witness is a well-formed value; it is excluded by json_safe only because of its key *)
  Example refuted_witness_wf :
    wf_value (VRecord [(s_of "__extn", VRecord [(s_of "arg", VString (s_of "1.0")); (s_of "fn", VString (s_of "decimal"))])]) = true /\
    json_safe (VRecord [(s_of "__extn", VRecord [(s_of "arg", VString (s_of "1.0")); (s_of "fn", VString (s_of "decimal"))])]) = false.
  Proof. split; vm_compute; reflexivity. Qed.
End ValueJsonProofs.

Definition vj_ex_value : value :=
  VRecord [ (s_of "a", VSet [VLong 1; VDecimal 12500; VString (s_of "x")]);
            (s_of "b", VRecord [(s_of "d", VDatetime 1700000000123); (s_of "e", VEntity (s_of "User") (s_of "alice"))]);
            (s_of "c", VSet [VSet [VBool true; VBool false]; VSet []; VDuration 90061001]) ].

Definition vj_no_ip : bool -> Z -> Z -> str := fun _ _ _ => [].

Example vj_ex_safe : json_safe (fun _ _ _ => false) vj_ex_value = true.
Proof. vm_compute. reflexivity. Qed.

Example vj_ex_roundtrip_id :
  decode_value (encode_value vj_no_ip (fun l => l) vj_ex_value) = Some vj_ex_value.
Proof. vm_compute. reflexivity. Qed.

Example vj_ex_roundtrip_rev :
  match decode_value (encode_value vj_no_ip (@rev json) vj_ex_value) with
  | Some v' => veq vj_ex_value v' && veq v' vj_ex_value && negb (veq (VSet [v']) (VSet []))
  | None => false
  end = true.
Proof. vm_compute. reflexivity. Qed.

(* with the reversed member order the decoded value is Cedar-equal but not syntactically identical *)
Example vj_ex_roundtrip_rev_set :
  decode_value (encode_value vj_no_ip (@rev json) (VSet [VLong 1; VLong 2])) = Some (VSet [VLong 2; VLong 1]).
Proof. vm_compute. reflexivity. Qed.

(* F17 on JSON trees: the escape-shaped record is read as a decimal *)
Example vj_ex_f17 :
  decode_value (encode_value vj_no_ip (fun l => l)
     (VRecord [(s_of "__extn", VRecord [(s_of "arg", VString (s_of "1.0")); (s_of "fn", VString (s_of "decimal"))])]))
  = Some (VDecimal 10000).
Proof. vm_compute. reflexivity. Qed.

Print Assumptions value_json_roundtrip.
Print Assumptions value_json_roundtrip_eq.
Print Assumptions decode_type_faithful.
Print Assumptions value_json_decoded_wf.
Print Assumptions value_json_roundtrip_refuted.
