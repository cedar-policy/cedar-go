(* Algebraic laws of Cedar value equality (veq) and of the canonical set / record constructors. *)
From Coq Require Import ZArith List Bool Lia Arith.
From Cedar Require Import Lang.Value.
Import ListNotations.

Lemma str_eqb_sym a b : str_eqb a b = str_eqb b a.
Proof.
  destruct (str_eqb b a) eqn:E.
  - apply str_eqb_eq in E. subst. apply str_eqb_refl.
  - apply str_eqb_neq. apply str_eqb_neq in E. congruence.
Qed.

(* membership tests written as existsb over a decidable equality (umem, the mem of the search loops) *)
Lemma existsb_eqb_In {A} (eqb : A -> A -> bool) : (forall a b, eqb a b = true <-> a = b) ->
  forall x l, existsb (eqb x) l = true <-> In x l.
Proof.
  intros Heq x l. rewrite existsb_exists. split.
  - intros (y & Hy & E). apply Heq in E. subst. exact Hy.
  - intros H. exists x. split; [exact H | apply Heq; reflexivity].
Qed.

(* what an induction hypothesis over a list of sub-terms gives, once the guard holds of all of them *)
Lemma Forall_forallb_mp {A} (p : A -> bool) (Q : A -> Prop) l :
  Forall (fun x => p x = true -> Q x) l -> forallb p l = true -> Forall Q l.
Proof. rewrite !Forall_forall, forallb_forall. auto. Qed.

Lemma forallb_map_Forall {A B} (q : B -> bool) (g : A -> B) l : Forall (fun x => q (g x) = true) l -> forallb q (map g l) = true.
Proof. intros H. apply forallb_forall, Forall_forall, Forall_map, H. Qed.

Lemma forallb_map {A B} (q : B -> bool) (g : A -> B) l : forallb q (map g l) = forallb (fun x => q (g x)) l.
Proof. induction l as [|x l IH]; [reflexivity|]. cbn [map forallb]. rewrite IH. reflexivity. Qed.

Lemma existsb_map {A B} (q : B -> bool) (g : A -> B) l : existsb q (map g l) = existsb (fun x => q (g x)) l.
Proof. induction l as [|x l IH]; [reflexivity|]. cbn [map existsb]. rewrite IH. reflexivity. Qed.

Lemma existsb_false_Forall {A} (f : A -> bool) l : existsb f l = false <-> Forall (fun x => f x = false) l.
Proof.
  induction l as [|x l IH]; cbn [existsb]; [split; [constructor | reflexivity]|].
  rewrite orb_false_iff, IH. split; [intros [H1 H2]; constructor; assumption | intros H; inversion H; auto].
Qed.

Lemma map_id_Forall {A} (f : A -> A) l : Forall (fun x => f x = x) l -> map f l = l.
Proof. intros H. rewrite <- (map_id l) at 2. apply map_ext_Forall, H. Qed.

Lemma Forall2_length {A B} (R : A -> B -> Prop) l m : Forall2 R l m -> length l = length m.
Proof. induction 1; cbn [length]; congruence. Qed.

Lemma Forall2_map {A B C} (R : B -> C -> Prop) (g : A -> B) (h : A -> C) l :
  Forall (fun x => R (g x) (h x)) l -> Forall2 R (map g l) (map h l).
Proof. induction 1; constructor; assumption. Qed.

Lemma Forall2_map_l {A B C} (R : B -> C -> Prop) (f : A -> B) l m :
  Forall2 R (map f l) m <-> Forall2 (fun x y => R (f x) y) l m.
Proof.
  revert m. induction l as [|x l IH]; intros m; cbn [map]; split; intros H; inversion H; subst; constructor; auto; apply IH; assumption.
Qed.

Lemma Forall2_refl_Forall {A} (R : A -> A -> Prop) l : Forall (fun x => R x x) l -> Forall2 R l l.
Proof. induction 1; constructor; assumption. Qed.

(* Well-formedness: every set duplicate-free w.r.t. veq, every record strictly sorted by key. *)
Fixpoint wf_value (v : value) : bool :=
  match v with
  | VSet l => nodup_veq l &&
      (fix all (l : list value) : bool :=
         match l with [] => true | x :: l' => wf_value x && all l' end) l
  | VRecord l => keys_sorted l &&
      (fix all (l : list (str * value)) : bool :=
         match l with [] => true | (_, x) :: l' => wf_value x && all l' end) l
  | _ => true
  end.

Lemma wf_value_set l : wf_value (VSet l) = nodup_veq l && forallb wf_value l.
Proof.
  cbn [wf_value]. f_equal.
Qed.

Lemma wf_value_record l :
  wf_value (VRecord l) = keys_sorted l && forallb (fun kv => wf_value (snd kv)) l.
Proof.
  cbn [wf_value]. f_equal. induction l as [|[k x] l IH]; [reflexivity|].
  cbn [forallb snd]. rewrite <- IH. reflexivity.
Qed.

Lemma wf_set_inv l : wf_value (VSet l) = true ->
  nodup_veq l = true /\ forall x, In x l -> wf_value x = true.
Proof.
  rewrite wf_value_set, andb_true_iff, forallb_forall. auto.
Qed.

Lemma wf_rec_inv l : wf_value (VRecord l) = true ->
  keys_sorted l = true /\ Forall (fun kv => wf_value (snd kv) = true) l.
Proof.
  rewrite wf_value_record, andb_true_iff, forallb_forall, Forall_forall. auto.
Qed.

Lemma vmem_cons x y l : vmem x (y :: l) = veq x y || vmem x l.
Proof. reflexivity. Qed.

Lemma vmem_nil x : vmem x [] = false.
Proof. reflexivity. Qed.

Lemma vmem_true_iff x l : vmem x l = true <-> exists y, In y l /\ veq x y = true.
Proof. unfold vmem. apply existsb_exists. Qed.

Lemma veq_set_iff l1 l2 : veq (VSet l1) (VSet l2) = true <->
  length l1 = length l2 /\ forall x, In x l1 -> exists y, In y l2 /\ veq x y = true.
Proof.
  rewrite veq_set, andb_true_iff, Nat.eqb_eq. unfold vsubset. rewrite forallb_forall.
  split; intros [H1 H2]; split; auto; intros x Hx; apply vmem_true_iff; auto.
Qed.

Lemma veq_set_l_inv l b : veq (VSet l) b = true -> exists m, b = VSet m.
Proof. destruct b; try (cbn [veq]; discriminate); eauto. Qed.

Lemma veq_rec_l_inv l b : veq (VRecord l) b = true -> exists m, b = VRecord m.
Proof. destruct b; try (cbn [veq]; discriminate); eauto. Qed.

Definition atomic (a : value) : Prop :=
  match a with VSet _ | VRecord _ => False | _ => True end.

Lemma atomic_veq_l a b : atomic a -> veq a b = true -> a = b.
Proof.
  destruct a, b; cbn; try contradiction; try discriminate; intros _;
    rewrite ?andb_true_iff, ?Z.eqb_eq, ?str_eqb_eq, ?Bool.eqb_true_iff; intuition congruence.
Qed.

Theorem veq_refl : forall v, veq v v = true.
Proof.
  apply value_ind'; try (intros; cbn [veq]; rewrite ?Z.eqb_refl, ?str_eqb_refl, ?Bool.eqb_reflx; reflexivity).
  - intros l HF. rewrite Forall_forall in HF. apply veq_set_iff. split; eauto.
  - intros l HF. rewrite veq_record.
    induction HF as [|[k x] l Hx _ IH]; cbn [rec_eqb]; auto.
    cbn [snd] in Hx. rewrite str_eqb_refl, Hx, IH. reflexivity.
Qed.

Theorem veq_type_tag : forall a b, veq a b = true -> type_tag a = type_tag b.
Proof.
  intros a b. destruct a, b; try (cbn [veq]; discriminate); reflexivity.
Qed.

(* Transitivity holds for ALL values (no well-formedness needed). *)
Lemma rec_eqb_trans_F l :
  Forall (fun kv => forall b c, veq (snd kv) b = true -> veq b c = true -> veq (snd kv) c = true) l ->
  forall l2 l3, rec_eqb l l2 = true -> rec_eqb l2 l3 = true -> rec_eqb l l3 = true.
Proof.
  intros HF. induction HF as [|[k x] l Hx _ IH]; intros [|[k2 y] l2] [|[k3 z] l3];
    cbn [rec_eqb]; try discriminate; auto.
  cbn [snd] in Hx. rewrite !andb_true_iff, !str_eqb_eq.
  intros [[-> Rxy] R1] [[-> Ryz] R2]. repeat split; eauto.
Qed.

Theorem veq_trans_nowf : forall a b c, veq a b = true -> veq b c = true -> veq a c = true.
Proof.
  apply (value_ind' (fun a => forall b c, veq a b = true -> veq b c = true -> veq a c = true));
    try (intros; match goal with H : veq _ _ = true |- _ =>
                   apply atomic_veq_l in H; [subst; assumption | exact I] end).
  - intros l HF b c Hab Hbc.
    destruct (veq_set_l_inv _ _ Hab) as [l2 ->]. destruct (veq_set_l_inv _ _ Hbc) as [l3 ->].
    apply veq_set_iff in Hab. apply veq_set_iff in Hbc. apply veq_set_iff.
    destruct Hab as [L1 S1], Hbc as [L2 S2]. split; [congruence|].
    intros x Hx. destruct (S1 x Hx) as (y & Hy & Rxy). destruct (S2 y Hy) as (z & Hz & Ryz).
    exists z; split; auto. rewrite Forall_forall in HF. eapply HF; eauto.
  - intros l HF b c Hab Hbc.
    destruct (veq_rec_l_inv _ _ Hab) as [l2 ->]. destruct (veq_rec_l_inv _ _ Hbc) as [l3 ->].
    rewrite veq_record in *. eapply rec_eqb_trans_F; eauto.
Qed.

Section Pigeon.
  Context {A B : Type} (Rel : A -> B -> Prop).

  (* no two distinct positions of xs are related to the same element of ys *)
  Fixpoint sep (xs : list A) (ys : list B) : Prop :=
    match xs with
    | [] => True
    | a :: xs' => (forall a' b, In a' xs' -> In b ys -> Rel a b -> Rel a' b -> False) /\ sep xs' ys
    end.

  Lemma sep_mono xs ys ys' : (forall b, In b ys' -> In b ys) -> sep xs ys -> sep xs ys'.
  Proof.
    intros Hsub. induction xs as [|a xs IH]; cbn [sep]; auto.
    intros [H1 H2]. split; auto. intros a' b Ha' Hb. apply H1; auto.
  Qed.

  Lemma pigeon : forall xs ys,
    (forall a, In a xs -> exists b, In b ys /\ Rel a b) -> sep xs ys ->
    length xs <= length ys /\
    (length ys <= length xs -> forall b, In b ys -> exists a, In a xs /\ Rel a b).
  Proof.
    induction xs as [|a xs IH]; intros ys Hmap Hsep.
    - split; [cbn; lia|]. intros Hlen b Hb. destruct ys as [|b' ys]; [destruct Hb | cbn in Hlen; lia].
    - destruct Hsep as [Hhd Hsep].
      destruct (Hmap a (or_introl eq_refl)) as (b0 & Hb0 & Rab0).
      destruct (in_split _ _ Hb0) as (m1 & m2 & ->).
      (* a takes b0; the others find their partners in the rest *)
      destruct (IH (m1 ++ m2)) as [IH1 IH2].
      + intros a' Ha'. destruct (Hmap a' (or_intror Ha')) as (b' & Hb' & Rab').
        apply in_elt_inv in Hb'. destruct Hb' as [<-|Hb']; [|eauto].
        exfalso. eapply Hhd; eauto.
      + eapply sep_mono; [|exact Hsep]. intros b Hb. apply in_app_iff in Hb. apply in_app_iff. cbn. tauto.
      + rewrite app_length in *. cbn [length]. split; [lia|]. intros Hlen b Hb.
        apply in_elt_inv in Hb. destruct Hb as [<-|Hb].
        * exists a; split; [left|]; auto.
        * destruct (IH2 ltac:(lia) b Hb) as (a' & Ha' & R'). exists a'; split; [right|]; auto.
  Qed.
End Pigeon.

Lemma sep_intro {B} (Rel : value -> B -> Prop) xs ys :
  nodup_veq xs = true ->
  (forall a a' b, In a xs -> In a' xs -> In b ys -> Rel a b -> Rel a' b -> veq a a' = true) ->
  sep Rel xs ys.
Proof.
  induction xs as [|a xs IH]; cbn [sep nodup_veq]; auto.
  rewrite andb_true_iff, negb_true_iff. intros [Hn Hnd] HE. split.
  - intros a' b Ha' Hb R1 R2.
    assert (Haa : veq a a' = true).
    { apply (HE a a' b); auto; [left; reflexivity | right; exact Ha']. }
    assert (Hm : vmem a xs = true) by (apply vmem_true_iff; eauto).
    congruence.
  - apply IH; auto. intros a1 a2 b H1 H2 Hb. apply HE; auto; right; auto.
Qed.

Lemma rec_eqb_sym l :
  Forall (fun kv => forall y, wf_value y = true -> veq (snd kv) y = true -> veq y (snd kv) = true) l ->
  forall m, Forall (fun kv => wf_value (snd kv) = true) m -> rec_eqb l m = true -> rec_eqb m l = true.
Proof.
  intros HF. induction HF as [|[k x] l Hx _ IH]; intros [|[k' y] m] Hw;
    cbn [rec_eqb]; try discriminate; auto.
  rewrite !andb_true_iff, !str_eqb_eq. intros [[-> Rxy] Hr].
  inversion Hw as [|? ? Hwy Hw']; subst. cbn [snd] in *. repeat split; auto.
Qed.

(* veq on sets only checks that every member of the first has a partner in the second.  With equal lengths and no
   duplicates in the first, the pigeonhole makes the partnership onto; no Euclidean law is needed beside it, since
   transitivity holds for all values. *)
Lemma veq_sym_imp : forall a b, wf_value a = true -> wf_value b = true -> veq a b = true -> veq b a = true.
Proof.
  apply (value_ind' (fun a => forall b, wf_value a = true -> wf_value b = true -> veq a b = true -> veq b a = true));
    try (intros; match goal with H : veq _ _ = true |- _ =>
                   apply atomic_veq_l in H; [subst; apply veq_refl | exact I] end).
  - intros l IH b Hwa Hwb Hab. destruct (veq_set_l_inv _ _ Hab) as [m ->].
    apply wf_set_inv in Hwa. destruct Hwa as [Hnd Hwl]. apply wf_set_inv in Hwb. destruct Hwb as [_ Hwm].
    rewrite Forall_forall in IH. apply veq_set_iff in Hab. destruct Hab as [L Sub].
    apply veq_set_iff. split; [auto|].
    destruct (pigeon (fun x y => veq x y = true) l m Sub) as [_ Onto].
    + apply sep_intro; auto. intros x x' y Hx Hx' Hy R1 R2.
      eapply veq_trans_nowf; [exact R1|]. apply IH; auto.
    + intros y Hy. destruct (Onto ltac:(lia) y Hy) as (x & Hx & R). exists x. split; auto.
  - intros l IH b Hwa Hwb Hab. destruct (veq_rec_l_inv _ _ Hab) as [m ->].
    apply wf_rec_inv in Hwa. destruct Hwa as [_ Hwl]. apply wf_rec_inv in Hwb. destruct Hwb as [_ Hwm].
    rewrite veq_record in *. revert Hab. apply rec_eqb_sym; [|exact Hwm].
    rewrite Forall_forall in *. intros kv Hkv y Hy. apply IH; auto.
Qed.

Theorem veq_sym : forall a b, wf_value a = true -> wf_value b = true -> veq a b = veq b a.
Proof.
  intros a b Ha Hb. destruct (veq a b) eqn:E1, (veq b a) eqn:E2; auto.
  - rewrite (veq_sym_imp a b) in E2; auto.
  - rewrite (veq_sym_imp b a) in E1; auto.
Qed.

Theorem veq_trans : forall a b c, wf_value a = true -> wf_value b = true -> wf_value c = true ->
   veq a b = true -> veq b c = true -> veq a c = true.
Proof. intros a b c _ _ _. apply veq_trans_nowf. Qed.

(* k0 is strictly below the first key of l *)
Definition lb {A} (k0 : str) (l : list (str * A)) : Prop :=
  match l with [] => True | (k', _) :: _ => str_ltb k0 k' = true end.

Lemma keys_sorted_cons {A} k (v : A) l :
  keys_sorted ((k, v) :: l) = true <-> lb k l /\ keys_sorted l = true.
Proof.
  destruct l as [|[k' v'] l'].
  - cbn. tauto.
  - change (keys_sorted ((k, v) :: (k', v') :: l'))
      with (str_ltb k k' && keys_sorted ((k', v') :: l')).
    rewrite andb_true_iff. cbn [lb]. tauto.
Qed.

Lemma keys_sorted_ext {A B} (l : list (str * A)) (m : list (str * B)) :
  map fst l = map fst m -> keys_sorted l = keys_sorted m.
Proof.
  revert m. induction l as [|[k x] l IH]; intros [|[k' y] m] H; try discriminate; [reflexivity|].
  injection H as -> H. apply Bool.eq_iff_eq_true. rewrite !keys_sorted_cons, (IH m H).
  destruct l as [|[k2 x2] l], m as [|[k3 y3] m]; try discriminate; [reflexivity|].
  injection H as -> _. reflexivity.
Qed.

Lemma keys_sorted_all_lt {A} k (v : A) l :
  keys_sorted ((k, v) :: l) = true -> Forall (fun kv => str_ltb k (fst kv) = true) l.
Proof.
  revert k v. induction l as [|[k' v'] l IH]; intros k v Hs; constructor;
    apply keys_sorted_cons in Hs; destruct Hs as [Hlb Hs]; [exact Hlb|].
  eapply Forall_impl; [|exact (IH k' v' Hs)]. intros kv Hkv. eapply str_ltb_trans; [exact Hlb | exact Hkv].
Qed.

Lemma keys_sorted_app_l {A} (a b : list (str * A)) : keys_sorted (a ++ b) = true -> keys_sorted a = true.
Proof.
  induction a as [|[k v] a IH]; intros Hs; [reflexivity|].
  cbn [app] in Hs. apply keys_sorted_cons in Hs. destruct Hs as [Hlb Hs].
  apply keys_sorted_cons. split; [|apply IH; exact Hs].
  destruct a as [|[k' v'] a]; cbn [lb app] in *; auto.
Qed.

(* a strictly sorted key list has no repetition *)
Lemma keys_sorted_NoDup {A} (l : list (str * A)) : keys_sorted l = true -> NoDup (map fst l).
Proof.
  induction l as [|[k v] l IH]; intros Hs; [constructor|].
  pose proof (keys_sorted_all_lt _ _ _ Hs) as HF. rewrite Forall_forall in HF.
  apply keys_sorted_cons in Hs. cbn [map fst]. constructor; [|apply IH, Hs].
  intros Hin. apply in_map_iff in Hin. destruct Hin as (kv & E & Hkv). specialize (HF kv Hkv).
  rewrite E, str_ltb_irrefl in HF. discriminate.
Qed.

Lemma rec_insert_lb {A} k0 k (v : A) l :
  lb k0 l -> str_ltb k0 k = true -> lb k0 (rec_insert k v l).
Proof.
  destruct l as [|[k' v'] l']; cbn [rec_insert lb]; auto.
  intros H1 H2. destruct (str_ltb k k'); [exact H2|]. destruct (str_eqb k k'); cbn [lb]; auto.
Qed.

Lemma rec_insert_sorted {A} k (v : A) l :
  keys_sorted l = true -> keys_sorted (rec_insert k v l) = true.
Proof.
  induction l as [|[k' v'] l' IH]; intros Hs; [reflexivity|].
  cbn [rec_insert]. pose proof Hs as Hs0. apply keys_sorted_cons in Hs. destruct Hs as [Hlb Hs].
  destruct (str_ltb k k') eqn:E1.
  - apply keys_sorted_cons. split; [exact E1 | exact Hs0].
  - destruct (str_eqb k k') eqn:E2.
    + apply str_eqb_eq in E2. subst k'. apply keys_sorted_cons. auto.
    + apply keys_sorted_cons. split; [|auto]. apply rec_insert_lb; auto.
      destruct (str_ltb k' k) eqn:E3; auto. exfalso.
      apply str_eqb_neq in E2. apply E2. apply str_ltb_total; auto.
Qed.

Lemma rec_of_list_snoc {A} (l : list (str * A)) k v : rec_of_list (l ++ [(k, v)]) = rec_insert k v (rec_of_list l).
Proof. unfold rec_of_list. rewrite fold_left_app. reflexivity. Qed.

Lemma rec_of_list_sorted_gen {A} (kvs : list (str * A)) : keys_sorted (rec_of_list kvs) = true.
Proof.
  induction kvs as [|[k v] kvs IH] using rev_ind; [reflexivity|].
  rewrite rec_of_list_snoc. apply rec_insert_sorted, IH.
Qed.

Theorem rec_of_list_sorted : forall (kvs : list (str * value)), keys_sorted (rec_of_list kvs) = true.
Proof. intros kvs. apply rec_of_list_sorted_gen. Qed.

Lemma rec_insert_last {A} k (v : A) acc :
  keys_sorted (acc ++ [(k, v)]) = true -> rec_insert k v acc = acc ++ [(k, v)].
Proof.
  induction acc as [|[k' v'] acc IH]; intros Hs; [reflexivity|].
  cbn [app] in Hs. pose proof (keys_sorted_all_lt _ _ _ Hs) as HF. rewrite Forall_forall in HF.
  assert (Hlt : str_ltb k' k = true) by (apply (HF (k, v)), in_app_iff; right; left; reflexivity).
  cbn [rec_insert app]. rewrite (str_ltb_asym _ _ Hlt).
  destruct (str_eqb k k') eqn:E.
  { apply str_eqb_eq in E. subst k'. rewrite str_ltb_irrefl in Hlt. discriminate. }
  f_equal. apply IH. apply keys_sorted_cons in Hs. tauto.
Qed.

(* an already sorted association list is its own canonical form *)
Lemma rec_of_list_sorted_id {A} (l : list (str * A)) : keys_sorted l = true -> rec_of_list l = l.
Proof.
  induction l as [|[k v] l IH] using rev_ind; [reflexivity|]. intros Hs.
  rewrite rec_of_list_snoc, IH by (eapply keys_sorted_app_l; exact Hs). apply rec_insert_last, Hs.
Qed.

Lemma rec_of_list_idem {A} (l : list (str * A)) : rec_of_list (rec_of_list l) = rec_of_list l.
Proof. apply rec_of_list_sorted_id, rec_of_list_sorted_gen. Qed.

Lemma rec_get_insert {A} k k' (v : A) l :
  rec_get k (rec_insert k' v l) = if str_eqb k k' then Some v else rec_get k l.
Proof.
  induction l as [|[k2 v2] l IH]; cbn [rec_insert]; [reflexivity|].
  destruct (str_ltb k' k2) eqn:E1; [reflexivity|].
  destruct (str_eqb k' k2) eqn:E2.
  - apply str_eqb_eq in E2. subst k2. cbn [rec_get]. destruct (str_eqb k k'); reflexivity.
  - cbn [rec_get]. rewrite IH. destruct (str_eqb k k2) eqn:E3; auto.
    apply str_eqb_eq in E3. subst k2. destruct (str_eqb k k') eqn:E4; auto.
    apply str_eqb_eq in E4. subst k'. rewrite str_eqb_refl in E2. discriminate.
Qed.

Lemma rec_get_app {A} k (l1 l2 : list (str * A)) :
  rec_get k (l1 ++ l2) = match rec_get k l1 with Some v => Some v | None => rec_get k l2 end.
Proof.
  induction l1 as [|[k1 v1] l1 IH]; cbn [app rec_get]; auto.
  destruct (str_eqb k k1); auto.
Qed.

Lemma rec_of_list_get_gen {A} (kvs : list (str * A)) k :
  rec_get k (rec_of_list kvs) = rec_get k (rev kvs).
Proof.
  induction kvs as [|[k1 v1] kvs IH] using rev_ind; [reflexivity|].
  rewrite rec_of_list_snoc, rec_get_insert, rev_unit, IH. reflexivity.
Qed.

Theorem rec_of_list_get : forall (kvs : list (str * value)) k,
   rec_get k (rec_of_list kvs) = rec_get k (rev kvs).
Proof. intros kvs k. apply rec_of_list_get_gen. Qed.

Lemma rec_get_In {A} k (l : list (str * A)) v : rec_get k l = Some v -> In (k, v) l.
Proof.
  induction l as [|[k' v'] l IH]; cbn [rec_get]; [discriminate|].
  destruct (str_eqb k k') eqn:E; [|right; auto].
  apply str_eqb_eq in E. subst k'. intros H. injection H as ->. left. reflexivity.
Qed.

Lemma rec_get_keys {A} k (l : list (str * A)) : rec_get k l <> None <-> In k (map fst l).
Proof.
  induction l as [|[k' v'] l IH]; cbn [rec_get map fst In]; [tauto|].
  destruct (str_eqb k k') eqn:E.
  - apply str_eqb_eq in E. subst k'. split; [auto | discriminate].
  - apply str_eqb_neq in E. rewrite IH. split; [auto | intros [H|H]; [congruence | exact H]].
Qed.

Lemma rec_get_None_iff {A} k (l : list (str * A)) : rec_get k l = None <-> ~ In k (map fst l).
Proof. rewrite <- rec_get_keys. destruct (rec_get k l); split; intros H; [discriminate | destruct H; discriminate | intros E; exact (E H) | reflexivity]. Qed.

Lemma rec_get_nodup {A} (l : list (str * A)) k v : NoDup (map fst l) -> In (k, v) l -> rec_get k l = Some v.
Proof.
  induction l as [|[k' v'] l IH]; intros Hnd Hin; [destruct Hin|].
  cbn [map fst] in Hnd. inversion Hnd as [|x xs Hx Hnd']; subst. cbn [rec_get].
  destruct Hin as [E|Hin].
  - injection E as -> ->. rewrite str_eqb_refl. reflexivity.
  - destruct (str_eqb k k') eqn:E; [|apply IH; assumption].
    apply str_eqb_eq in E. subst k'. destruct Hx. exact (in_map fst _ _ Hin).
Qed.

Lemma rec_get_In_sorted {A} (l : list (str * A)) k v : keys_sorted l = true -> In (k, v) l -> rec_get k l = Some v.
Proof. intros Hs. apply rec_get_nodup, keys_sorted_NoDup, Hs. Qed.

Lemma rec_get_map {A B} (f : A -> B) k (l : list (str * A)) :
  rec_get k (map (fun kv => (fst kv, f (snd kv))) l) = option_map f (rec_get k l).
Proof.
  induction l as [|[k' v] l IH]; [reflexivity|]. cbn [map rec_get fst snd].
  destruct (str_eqb k k'); [reflexivity | exact IH].
Qed.

Lemma rec_get_lb {A} k0 (l : list (str * A)) :
  keys_sorted l = true -> lb k0 l -> rec_get k0 l = None.
Proof.
  induction l as [|[k v] l IH]; intros Hs Hlb; cbn [rec_get]; auto.
  cbn [lb] in Hlb. apply keys_sorted_cons in Hs. destruct Hs as [Hl Hs].
  destruct (str_eqb k0 k) eqn:E.
  { apply str_eqb_eq in E. subst. rewrite str_ltb_irrefl in Hlb. discriminate. }
  apply IH; auto. destruct l as [|[k' v'] l']; cbn [lb] in *; auto.
  eapply str_ltb_trans; eauto.
Qed.

Definition get_rel (l m : list (str * value)) (k : str) : Prop :=
  match rec_get k l, rec_get k m with
  | Some x, Some y => veq x y = true
  | None, None => True
  | _, _ => False
  end.

Lemma rec_eqb_get : forall l m, rec_eqb l m = true -> forall k, get_rel l m k.
Proof.
  unfold get_rel.
  induction l as [|[k1 x] l IH]; intros [|[k2 y] m]; cbn [rec_eqb]; try discriminate.
  - intros _ k. cbn. auto.
  - rewrite !andb_true_iff, str_eqb_eq. intros [[-> R] Hr] k. cbn [rec_get].
    destruct (str_eqb k k2); auto. apply IH; auto.
Qed.

Lemma get_rec_eqb : forall l m, keys_sorted l = true -> keys_sorted m = true ->
  (forall k, get_rel l m k) -> rec_eqb l m = true.
Proof.
  unfold get_rel.
  induction l as [|[k1 x] l IH]; intros [|[k2 y] m] Hsl Hsm H; cbn [rec_eqb]; auto.
  - specialize (H k2). cbn [rec_get] in H. rewrite str_eqb_refl in H. destruct H.
  - specialize (H k1). cbn [rec_get] in H. rewrite str_eqb_refl in H. destruct H.
  - (* a smaller head key would be missing from the other record *)
    assert (Hk : k1 = k2).
    { apply str_ltb_total; apply not_true_is_false; intros E.
      - specialize (H k1). rewrite (rec_get_lb k1 ((k2, y) :: m) Hsm E) in H. cbn [rec_get] in H.
        rewrite str_eqb_refl in H. exact H.
      - specialize (H k2). rewrite (rec_get_lb k2 ((k1, x) :: l) Hsl E) in H. cbn [rec_get] in H.
        rewrite str_eqb_refl in H. exact H. }
    subst k2. apply keys_sorted_cons in Hsl, Hsm. destruct Hsl as [Hl1 Hsl], Hsm as [Hl2 Hsm].
    rewrite str_eqb_refl. pose proof (H k1) as H1. cbn [rec_get] in H1.
    rewrite str_eqb_refl in H1. rewrite H1. apply IH; auto.
    intros k. destruct (str_eqb k k1) eqn:E.
    + apply str_eqb_eq in E. subst k. rewrite (rec_get_lb k1 l), (rec_get_lb k1 m); auto.
    + specialize (H k). cbn [rec_get] in H. rewrite E in H. exact H.
Qed.

Theorem record_equal_iff : forall l m, keys_sorted l = true -> keys_sorted m = true ->
   (veq (VRecord l) (VRecord m) = true <->
    (forall k, match rec_get k l, rec_get k m with
               | Some x, Some y => veq x y = true
               | None, None => True
               | _, _ => False
               end)).
Proof.
  intros l m Hl Hm. rewrite veq_record. split.
  - intros H k. apply (rec_eqb_get l m H k).
  - intros H. apply get_rec_eqb; auto.
Qed.

Lemma vmem_rev x l : vmem x (rev l) = vmem x l.
Proof.
  unfold vmem. induction l as [|y l IH]; cbn [rev existsb]; auto.
  rewrite existsb_app. cbn [existsb]. rewrite IH, orb_false_r, orb_comm. reflexivity.
Qed.

Lemma dedup_vmem : forall l acc x, vmem x (dedup l acc) = vmem x l || vmem x acc.
Proof.
  induction l as [|y l IH]; intros acc x; cbn [dedup].
  - rewrite vmem_rev. reflexivity.
  - destruct (vmem y acc) eqn:E; rewrite IH, !vmem_cons.
    + destruct (veq x y) eqn:Exy; cbn [orb]; auto.
      assert (Hx : vmem x acc = true).
      { apply vmem_true_iff in E. destruct E as (a & Ha & Rya).
        apply vmem_true_iff. exists a; split; auto. eapply veq_trans_nowf; eauto. }
      rewrite Hx. apply orb_true_r.
    + destruct (veq x y), (vmem x l), (vmem x acc); reflexivity.
Qed.

Lemma mk_set_vmem l x : vmem x (dedup l []) = vmem x l.
Proof. rewrite dedup_vmem, vmem_nil, orb_false_r. reflexivity. Qed.

Theorem mk_set_members : forall l x,
  (exists m, mk_set l = VSet m /\ (vmem x m = true <-> vmem x l = true)).
Proof.
  intros l x. exists (dedup l []). split; [reflexivity|]. rewrite mk_set_vmem. tauto.
Qed.

Lemma dedup_incl : forall l acc x, In x (dedup l acc) -> In x l \/ In x acc.
Proof.
  induction l as [|y l IH]; intros acc x; cbn [dedup].
  - intros H. right. apply in_rev. exact H.
  - destruct (vmem y acc); intros H; apply IH in H; cbn in *; tauto.
Qed.

Lemma nodup_snoc l x : nodup_veq l = true -> (forall a, In a l -> veq a x = false) ->
  nodup_veq (l ++ [x]) = true.
Proof.
  induction l as [|a l IH]; cbn [app nodup_veq].
  - intros _ _. reflexivity.
  - rewrite !andb_true_iff, !negb_true_iff. intros [Hn Hnd] H. split.
    + unfold vmem in *. rewrite existsb_app, Hn. cbn [existsb orb].
      rewrite (H a (or_introl eq_refl)). reflexivity.
    + apply IH; auto. intros a' Ha'. apply H. right. exact Ha'.
Qed.

Lemma dedup_nodup : forall l acc,
  (forall x, In x l -> wf_value x = true) -> (forall x, In x acc -> wf_value x = true) ->
  nodup_veq (rev acc) = true -> nodup_veq (dedup l acc) = true.
Proof.
  induction l as [|y l IH]; intros acc Hl Hacc Hnd; cbn [dedup]; auto.
  assert (Hy : wf_value y = true) by (apply Hl; left; reflexivity).
  assert (Hl' : forall x, In x l -> wf_value x = true) by (intros x Hx; apply Hl; right; exact Hx).
  destruct (vmem y acc) eqn:E; apply IH; auto.
  - intros x [<-|Hx]; auto.
  - cbn [rev]. apply nodup_snoc; auto. intros a Ha. apply in_rev in Ha.
    rewrite veq_sym; auto. destruct (veq y a) eqn:E'; auto.
    rewrite <- E. symmetry. apply vmem_true_iff. eauto.
Qed.

(* a duplicate-free list of well-formed values is its own canonical form *)
Lemma dedup_nodup_id : forall l acc,
  (forall x, In x l -> wf_value x = true) -> nodup_veq l = true -> (forall x, In x l -> vmem x acc = false) ->
  dedup l acc = rev acc ++ l.
Proof.
  induction l as [|x l IH]; intros acc Hl Hnd Hfresh; cbn [dedup].
  - rewrite app_nil_r. reflexivity.
  - rewrite (Hfresh x (or_introl eq_refl)).
    cbn [nodup_veq] in Hnd. apply andb_true_iff in Hnd. destruct Hnd as [Hx Hnd]. apply negb_true_iff in Hx.
    rewrite IH; [cbn [rev]; rewrite <- app_assoc; reflexivity | auto using in_cons | exact Hnd |].
    intros y Hy. rewrite vmem_cons, (Hfresh y (or_intror Hy)), orb_false_r, veq_sym by auto using in_eq, in_cons.
    destruct (veq x y) eqn:E; [|reflexivity]. rewrite <- Hx. symmetry. apply vmem_true_iff. eauto.
Qed.

Lemma mk_set_nodup_id l : (forall x, In x l -> wf_value x = true) -> nodup_veq l = true -> mk_set l = VSet l.
Proof. intros Hw Hnd. unfold mk_set. rewrite dedup_nodup_id; auto. Qed.

Lemma mk_set_wf_id l : wf_value (VSet l) = true -> mk_set l = VSet l.
Proof. intros H. apply wf_set_inv in H. apply mk_set_nodup_id; tauto. Qed.

Lemma dedup_wf l : (forall x, In x l -> wf_value x = true) -> forall x, In x (dedup l []) -> wf_value x = true.
Proof. intros Hl x Hx. apply dedup_incl in Hx. destruct Hx as [Hx|[]]. auto. Qed.

Theorem mk_set_wf : forall l, Forall (fun v => wf_value v = true) l -> wf_value (mk_set l) = true.
Proof.
  intros l HF. rewrite Forall_forall in HF. unfold mk_set.
  rewrite wf_value_set, andb_true_iff. split.
  - apply dedup_nodup; auto; intros x [].
  - apply forallb_forall. apply dedup_wf, HF.
Qed.

(* one half of mk_set_order_irrelevant: the first set maps into the second, without collisions *)
Lemma mk_set_sub l1 l2 :
  (forall x, In x l1 -> wf_value x = true) -> (forall x, In x l2 -> wf_value x = true) ->
  (forall x, wf_value x = true -> vmem x l1 = vmem x l2) ->
  length (dedup l1 []) <= length (dedup l2 []) /\
  forall a, In a (dedup l1 []) -> exists b, In b (dedup l2 []) /\ veq a b = true.
Proof.
  intros H1 H2 Hm.
  assert (Sub : forall a, In a (dedup l1 []) -> exists b, In b (dedup l2 []) /\ veq a b = true).
  { intros a Ha. apply vmem_true_iff. rewrite mk_set_vmem, <- Hm, <- mk_set_vmem by exact (dedup_wf l1 H1 a Ha).
    apply vmem_true_iff. exists a; split; auto. apply veq_refl. }
  split; [|exact Sub]. apply (pigeon _ _ _ Sub). apply sep_intro.
  - apply dedup_nodup; auto; intros x [].
  - intros a a' b Ha Ha' Hb R1 R2. eapply veq_trans_nowf; [exact R1|].
    apply veq_sym_imp; [exact (dedup_wf l1 H1 a' Ha') | exact (dedup_wf l2 H2 b Hb) | exact R2].
Qed.

Theorem mk_set_order_irrelevant : forall l1 l2,
   Forall (fun v => wf_value v = true) l1 -> Forall (fun v => wf_value v = true) l2 ->
   (forall x, wf_value x = true -> (vmem x l1 = vmem x l2)) -> veq (mk_set l1) (mk_set l2) = true.
Proof.
  intros l1 l2 H1 H2 Hm. rewrite Forall_forall in H1, H2. unfold mk_set.
  destruct (mk_set_sub l1 l2 H1 H2 Hm) as [L12 S12].
  destruct (mk_set_sub l2 l1 H2 H1 (fun x Hx => eq_sym (Hm x Hx))) as [L21 _].
  apply veq_set_iff. split; [lia | exact S12].
Qed.

(* a predicate on the entries survives rec_insert / rec_of_list; the forms on the values alone are the ones used most *)
Lemma rec_insert_Forall_kv {A} (P : str * A -> Prop) k v l : P (k, v) -> Forall P l -> Forall P (rec_insert k v l).
Proof.
  intros Hv HF. induction HF as [|[k' v'] l Hx Hl IH]; cbn [rec_insert]; [constructor; auto|].
  destruct (str_ltb k k'); [constructor; auto|]. destruct (str_eqb k k'); constructor; auto.
Qed.

Lemma rec_of_list_Forall_kv {A} (P : str * A -> Prop) (kvs : list (str * A)) : Forall P kvs -> Forall P (rec_of_list kvs).
Proof.
  induction kvs as [|[k v] kvs IH] using rev_ind; [constructor|].
  rewrite Forall_app, rec_of_list_snoc. intros [HF Hv]. inversion Hv; subst. apply rec_insert_Forall_kv; auto.
Qed.

Lemma rec_insert_Forall {A} (P : A -> Prop) k v (l : list (str * A)) :
  Forall (fun kv => P (snd kv)) l -> P v -> Forall (fun kv => P (snd kv)) (rec_insert k v l).
Proof. intros HF Hv. apply (rec_insert_Forall_kv (fun kv => P (snd kv))); assumption. Qed.

Lemma rec_of_list_Forall {A} (P : A -> Prop) (kvs : list (str * A)) :
  Forall (fun kv => P (snd kv)) kvs -> Forall (fun kv => P (snd kv)) (rec_of_list kvs).
Proof. apply (rec_of_list_Forall_kv (fun kv => P (snd kv))). Qed.

Theorem mk_record_wf : forall kvs, Forall (fun kv => wf_value (snd kv) = true) kvs ->
  wf_value (mk_record kvs) = true.
Proof.
  intros kvs HF. unfold mk_record. rewrite wf_value_record, andb_true_iff. split.
  - apply rec_of_list_sorted.
  - apply forallb_forall. apply Forall_forall.
    apply (rec_of_list_Forall (fun v => wf_value v = true)). exact HF.
Qed.

(* wf_value is necessary for symmetry: sets with duplicates break it. *)
Example veq_sym_needs_wf :
  veq (VSet [VLong 1; VLong 1]) (VSet [VLong 1; VLong 2]) = true /\
  veq (VSet [VLong 1; VLong 2]) (VSet [VLong 1; VLong 1]) = false.
Proof. split; reflexivity. Qed.

Print Assumptions veq_refl.
Print Assumptions veq_type_tag.
Print Assumptions veq_sym.
Print Assumptions veq_trans.
Print Assumptions veq_trans_nowf.
Print Assumptions rec_of_list_sorted.
Print Assumptions rec_of_list_get.
Print Assumptions record_equal_iff.
Print Assumptions mk_set_wf.
Print Assumptions mk_set_members.
Print Assumptions mk_set_order_irrelevant.
Print Assumptions mk_record_wf.
