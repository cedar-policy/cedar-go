(* C10 — decoders are total: the half a theorem can carry.
   C10 is about the running code (no panic, no stack overflow, no endless loop on any byte sequence) and is decided by the guarded
   runtime exploration of the check.  What the models can carry is termination: each modelled decoder is a fuelled function whose
   out-of-fuel result stands for "does not terminate"; these theorems show that result never occurs, on EVERY input, with fuel linear
   in the input size.  (Panics are not representable in Gallina: the models are total by construction, which is why the runtime half stays.)
   Proofs: Proofs/DecoderTotal.v, ScannerFailure.v, SchemaResolveProofs.v, SchemaJsonProofs.v, SchemaTextProofs1.v, EntityJsonProofs.v,
   RequestJsonProofs.v, CodecCommute.v. *)
From Coq Require Import ZArith List Bool.
Import ListNotations.
From Cedar Require Import Lang.Value Base.Json Impl.Scanner Impl.Tokenizer Impl.Quote Impl.Parser Impl.PolicyJson Impl.SchemaResolve
  Impl.SchemaJson Impl.SchemaText Impl.EntityJson Impl.RequestJson Proofs.SchemaTextProofs1 Proofs.ScannerFailure Proofs.DecoderTotal Proofs.SchemaResolveProofs Proofs.SchemaJsonProofs
  Proofs.EntityJsonProofs Proofs.RequestJsonProofs Proofs.CodecCommute.

(* the streaming tokenizer: every reader (any chunking, failing or not), any bytes *)
Theorem C10_tokenizer_terminates : forall b r fuel,
  (4 <= b)%nat -> (length (r_rest r) < fuel)%nat -> (length (r_sched r) + 2 <= fuel)%nat -> tokenize fuel b r <> None.
Proof. exact tokenize_total_gen. Qed.

(* the Cedar text parser: every token list the tokenizer can produce *)
Theorem C10_parser_terminates : forall ts, eof_terminated ts -> forall f, (12 * length ts + 100 <= f)%nat -> p_policies f ts [] <> PFuel.
Proof. exact p_policies_total. Qed.
Theorem C10_text_pipeline_terminates : forall fuel bufLen r ts, tokenize fuel bufLen r = Some (Some ts) ->
  forall f, (12 * length ts + 100 <= f)%nat -> p_policies f ts [] <> PFuel.
Proof. exact tokenize_p_policies_total. Qed.

(* policy JSON (expression trees and whole policies): every JSON tree *)
Theorem C10_policy_json_terminates : forall j, dec_policy j <> DFuel.
Proof. exact dec_policy_total. Qed.

(* string and pattern literals: the internal fuel is never the reason for a rejection *)
Theorem C10_unquote_fuel_enough : forall b star acc f, (length b < f)%nat -> unquote_fuel f b star acc = unquote_fuel (S (length b)) b star acc.
Proof. exact unquote_fuel_enough. Qed.

(* schema resolution: every schema AST *)
Theorem C10_schema_resolution_terminates : forall s, resolve_schema s <> VFuel.
Proof. exact resolve_schema_terminates. Qed.

(* schema JSON: every JSON tree *)
Theorem C10_schema_json_terminates : forall j, dec_schema j <> DFuel.
Proof. exact dec_schema_total. Qed.

(* schema text: every byte string *)
Theorem C10_schema_text_terminates : forall src, parse_schema src <> SFuel.
Proof. exact parse_schema_total. Qed.

(* entity maps, requests, diagnostics, policy sets: every JSON tree (value JSON and the entity-uid text parser are structural recursions
   without fuel) *)
Theorem C10_entity_map_json_terminates : forall j, dec_entity_map j <> DFuel.
Proof. exact dec_entity_map_total. Qed.
Theorem C10_request_json_terminates : forall j, dec_request j <> DFuel.
Proof. exact dec_request_total. Qed.
Theorem C10_diagnostic_json_terminates : forall j, dec_diagnostic j <> DFuel.
Proof. exact dec_diagnostic_total. Qed.
Theorem C10_policy_set_json_terminates : forall j, dec_policy_set j <> DFuel.
Proof. exact dec_policy_set_total. Qed.

Print Assumptions C10_entity_map_json_terminates.
Print Assumptions C10_request_json_terminates.
Print Assumptions C10_diagnostic_json_terminates.
Print Assumptions C10_policy_set_json_terminates.
Print Assumptions C10_schema_text_terminates.
Print Assumptions C10_schema_json_terminates.
Print Assumptions C10_tokenizer_terminates.
Print Assumptions C10_parser_terminates.
Print Assumptions C10_text_pipeline_terminates.
Print Assumptions C10_policy_json_terminates.
Print Assumptions C10_unquote_fuel_enough.
Print Assumptions C10_schema_resolution_terminates.
