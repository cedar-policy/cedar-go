(* C12 — scalar and extension values have exact, canonical text forms.
   Proofs: Proofs/DecimalProofs.v, Proofs/DurationProofs.v, Proofs/DatetimeProofs.v, Proofs/IPProofs.v, Proofs/UidTextProofs.v (with Proofs/QuoteProofs.v). *)
From Coq Require Import ZArith List Bool Lia.
Import ListNotations.
From Cedar Require Import Base.Int64 Base.Utf8Enc Lang.Value Impl.Text Impl.Decimal Impl.Duration Impl.Datetime Impl.IPAddr Impl.IPPrint Impl.Quote Impl.UidText
  Proofs.DecimalProofs Proofs.DurationProofs Proofs.DatetimeProofs Proofs.IPProofs Proofs.QuoteProofs Proofs.UidTextProofs.
Local Open Scope Z_scope.

(* ---- decimal ---- *)
Theorem C12_decimal_roundtrip : forall z, in64 z -> parse_decimal (print_decimal z) = Some z.
Proof. exact decimal_roundtrip. Qed.
Theorem C12_decimal_range : forall s z, parse_decimal s = Some z -> in64 z.
Proof. exact decimal_parse_in_range. Qed.
(* accepted syntax is exactly -?[0-9]+\.[0-9]{1,4} *)
Theorem C12_decimal_syntax : forall s z, parse_decimal s = Some z ->
   exists ip fp, s = ip ++ 46 :: fp /\ (1 <= length fp <= 4)%nat /\ Forall (fun c => is_digit c = true) fp /\
                 (match ip with 45 :: d => d <> [] /\ Forall (fun c => is_digit c = true) d
                              | d => d <> [] /\ Forall (fun c => is_digit c = true) d end).
Proof. exact decimal_parse_shape. Qed.
(* NewDecimal(i, exponent) is exact: the mathematical value or an error, never a wrapped result *)
Theorem C12_new_decimal_exact : forall i e z, in64 i -> new_decimal_exp i e = Some z ->
   -4 <= e <= 14 /\ z = i * 10 ^ (e + 4) /\ in64 z.
Proof. exact new_decimal_exact. Qed.
Theorem C12_new_decimal_complete : forall i e, in64 i -> -4 <= e <= 14 -> in64 (i * 10 ^ (e + 4)) ->
   new_decimal_exp i e = Some (i * 10 ^ (e + 4)).
Proof. exact new_decimal_complete. Qed.

(* ---- duration ---- *)
Theorem C12_duration_roundtrip : forall z, in64 z -> parse_duration (print_duration z) = Some z.
Proof. exact duration_roundtrip. Qed.
Theorem C12_duration_range : forall s z, parse_duration s = Some z -> in64 z.
Proof. exact duration_parse_in_range. Qed.
(* the parser returns the mathematical value of a well-formed text, or fails exactly when it does not fit *)
Theorem C12_duration_exact : forall neg d h m s ms,
  dur_ok d -> dur_ok h -> dur_ok m -> dur_ok s -> dur_ok ms -> dur_items d h m s ms <> [] ->
  parse_duration (dur_text neg d h m s ms) =
  if in64b (dur_total neg d h m s ms) then Some (dur_total neg d h m s ms) else None.
Proof. exact duration_parse_value. Qed.

(* ---- datetime (calendar: proleptic Gregorian, all days) ---- *)
Theorem C12_civil_valid : forall z, let '(y, m, d) := civil_from_days z in 1 <= m <= 12 /\ 1 <= d <= days_in_month y m.
Proof. exact civil_from_days_valid. Qed.
Theorem C12_civil_inverse : forall z, let '(y, m, d) := civil_from_days z in days_from_civil y m d = z.
Proof. exact civil_inverse. Qed.
Theorem C12_days_from_civil_inverse : forall y m d, 1 <= m <= 12 -> 1 <= d <= days_in_month y m ->
   civil_from_days (days_from_civil y m d) = (y, m, d).
Proof. exact days_from_civil_inverse. Qed.
Theorem C12_datetime_roundtrip : forall z, in_dt_range z = true -> parse_datetime (print_datetime z) = Some z.
Proof. exact datetime_roundtrip. Qed.
Theorem C12_datetime_range : forall s z, parse_datetime s = Some z -> in_dt_range z = true.
Proof. exact datetime_parse_in_range. Qed.

(* The full statement "forall z, in64 z -> parse_datetime (print_datetime z) = Some z" is REFUTED of the faithful
   model (and of the Go code: known finding F27): the first day of the int64 range prints but does not parse. *)
Theorem C12_datetime_roundtrip_full_refuted : exists z, in64 z /\ parse_datetime (print_datetime z) = None.
Proof. exists min64. split; [unfold in64, min64, max64, two63; lia | vm_compute; reflexivity]. Qed.

(* ipaddr: Impl/IPPrint.v print_ip (net/netip Addr.String / Prefix.String as types.IPAddr.String uses them) and Impl/IPAddr.v parse_ip
   (types.ParseIPAddr), both tied to the code by the scalar correspondences.  Every well-formed address and prefix prints to a string
   that parses back to it, EXCEPT the IPv4-mapped IPv6 addresses (known finding F30: they print as ::ffff:a.b.c.d, which the parser
   rejects); ip_ok is exactly the set that round-trips. *)
Theorem C12_ipaddr_roundtrip : forall v6 a p, ip_ok v6 a p = true -> parse_ip (print_ip v6 a p) = Some (v6, a, p).
Proof. exact parse_print_ip. Qed.
Theorem C12_ipaddr_roundtrip_exact : forall v6 a p, ip_wf v6 a p -> (parse_ip (print_ip v6 a p) = Some (v6, a, p) <-> ip_ok v6 a p = true).
Proof. exact ip_ok_exact. Qed.
Theorem C12_ipaddr_mapped_refuted : forall a p, a / 2 ^ 32 = 65535 -> parse_ip (print_ip true a p) = None.
Proof. exact mapped_never_roundtrips. Qed.
(* the printed form is plain ASCII without quotes or backslashes (what the policy printer relies on: C07 / C08) *)
Theorem C12_ipaddr_printed_plain : forall v6 a p, Forall (fun c => 32 <= c < 127 /\ c <> 34 /\ c <> 92) (print_ip v6 a p).
Proof. exact print_ip_plain_all. Qed.

(* ---- entity uids outside policies: Impl/UidText.v print_uid (EntityUID.String / MarshalCedar / MarshalBinary) and parse_uid
   (EntityUID.UnmarshalCedar / UnmarshalBinary, a parser of its own), tied by the uidparse correspondence.  The printed form reads back for
   every non-empty type that does not contain the three bytes colon colon double-quote and every id that is valid UTF-8 - for every Unicode
   table the escaper may use; the two conditions on the type cannot be dropped (UidTextProofs.v parse_uid_needs_hyp, parse_uid_empty_type) *)
Theorem C12_uid_text_roundtrip : forall is_printable is_gext (u : uid),
  fst u <> [] -> index_of uid_sep (fst u) = None -> nonneg (snd u) -> valid_utf8 (snd u) = true ->
  parse_uid (print_uid is_printable is_gext u) = Some u.
Proof. exact parse_print_uid. Qed.
(* exactly what the uid parser accepts *)
Theorem C12_uid_text_accepted : forall s t i, parse_uid s = Some (t, i) <->
  (t <> [] /\ index_of uid_sep t = None /\ exists q, s = t ++ [58; 58] ++ [34] ++ q ++ [34] /\ exists r, unquote q false = Some (i, r)).
Proof. exact parse_uid_iff. Qed.

Print Assumptions C12_uid_text_roundtrip.
Print Assumptions C12_uid_text_accepted.
Print Assumptions C12_ipaddr_roundtrip.
Print Assumptions C12_ipaddr_roundtrip_exact.
Print Assumptions C12_ipaddr_mapped_refuted.
Print Assumptions C12_ipaddr_printed_plain.
Print Assumptions C12_decimal_roundtrip.
Print Assumptions C12_decimal_range.
Print Assumptions C12_decimal_syntax.
Print Assumptions C12_new_decimal_exact.
Print Assumptions C12_new_decimal_complete.
Print Assumptions C12_duration_roundtrip.
Print Assumptions C12_duration_range.
Print Assumptions C12_duration_exact.
Print Assumptions C12_civil_valid.
Print Assumptions C12_civil_inverse.
Print Assumptions C12_days_from_civil_inverse.
Print Assumptions C12_datetime_roundtrip.
Print Assumptions C12_datetime_range.
Print Assumptions C12_datetime_roundtrip_full_refuted.
