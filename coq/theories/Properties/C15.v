(* C15 — validated policies cannot fail with type errors.
   Model: Impl/TypeCheck.v `typeof strict sch env e caps` IS the expression type checker of x/exp/schema/validate (typechecker.go,
   cedar_type.go, capability.go, ext_funcs.go), tied to the code by the `typeof` correspondence on condition bodies and their
   sub-expressions (hook VerifTypeOf); Impl/Eval.v is the evaluator (C01).  Vocabulary: Lang/TypeSound.v (vtyped, env_ok = the
   request and every entity of the store conform to the schema, cap_holds, allowed_error = entity missing from the store / overflow /
   extension run-time error).  Proofs: Proofs/TypeSoundLemmas.v, Proofs/TypeSoundProofs.v.

   STRICT MODE: proved for the whole expression language, every operator, capabilities included.
   PERMISSIVE MODE: the statement is FALSE of the code as it stands (C15_permissive_refuted = known finding F29; the behaviour is pinned
   by the repository's corpus tests).
   POLICY LEVEL: Impl/ValidatePolicy.v models Validator.Policy (scope validation, action application, enumeration and filtering of the
   request environments, every condition in every environment), tied by the `vverdict` correspondence; C15_policy_sound: an accepted
   policy, evaluated as the authorizer evaluates it (scope tests && conditions), yields a Boolean or an allowed error for every conforming
   request and store.  Proofs/PolicySoundProofs.v.
   CONFORMANCE: Impl/Conform.v models the conformance checkers themselves (Validator.Entity / Entities / Request: entity.go, request.go,
   check_value.go), tied by the `conform` correspondence; Proofs/ConformProofs.v proves that what they accept satisfies env_ok /
   request_env / actions_conform / store_types_known, which closes the chain: C15_end_to_end has only hypotheses a caller establishes by
   RUNNING the validator (plus well-formedness of the schema and of the values). *)
From Coq Require Import ZArith List Bool.
Import ListNotations.
From Cedar Require Import Lang.Value Lang.Expr Impl.Eval Impl.TypeCheck Impl.ValidatePolicy Lang.TypeSound Proofs.TypeSoundLemmas Proofs.TypeSoundProofs
  Proofs.PolicySoundProofs Impl.Conform Proofs.ValueProofs Proofs.ConformProofs Generated.Tables Proofs.ExtSigTable.

(* if the strict type checker accepts e with type t, then in every conforming environment evaluation yields a value of type t (and
   the capabilities e establishes when true), or fails with one of the three allowed error kinds: never a type error, an unknown
   function / arity error, or a missing attribute or tag.
   schema_wf / tenv_wf: record types in the schema have distinct keys, the empty name is not an entity type.
   agraph_wf: the action graph of the resolved schema lists exactly the declared actions, and `Action` is not also an entity type name.
   action_declared: the request environment's action is a declared action (Go enumerates the environments from the schema's actions).
   keys_small: attribute names shorter than 10^39 bytes (an artifact of the model's capability keys, see TypeSoundProofs.v).
   env_ok, actions_conform, store_types_known: the request and the store CONFORM to the schema, as Validator.Request / Validator.Entity
   decide it (entities of declared types: parents, attributes, tags; enumerated entities: bare; action entities: parents = the closure
   of their declared groups; no entity of an unknown type). *)
Theorem C15_strict_sound : forall sch tv e, schema_wf sch -> tenv_wf sch tv -> agraph_wf sch -> action_declared sch tv -> keys_small e = true ->
  forall caps t caps', typeof true sch tv e caps = TOk t caps' ->
  forall en, env_ok sch tv en -> actions_conform sch (e_store en) -> store_types_known sch (e_store en) -> caps_hold en caps ->
    match eval en e with
    | Ok v => vtyped v t /\ (v = VBool true -> caps_hold en caps')
    | Err k => allowed_error k = true
    end.
Proof. exact typeof_sound_strict. Qed.

(* the property itself: if Validator.Policy accepts p (strict mode), then for every request environment of the schema (request_env: the
   action is declared and applies to the principal and resource types, the context has the declared type - what Validator.Request checks)
   and every conforming request and store, evaluating the policy as the authorizer does never fails with a type, arity, unknown-function
   or missing attribute / tag error, and yields a Boolean *)
Theorem C15_policy_sound : forall sch acts p,
  schema_wf sch -> agraph_wf sch -> acts_wf sch acts -> policy_keys_small p = true ->
  validate_policy true sch acts p = true ->
  forall en tv, request_env sch acts tv -> env_ok sch tv en -> actions_conform sch (e_store en) -> store_types_known sch (e_store en) ->
    match eval en (policy_to_expr p) with
    | Ok v => exists b, v = VBool b
    | Err k => allowed_error k = true
    end.
Proof. exact validate_policy_sound. Qed.

(* without any hypothesis on the store beyond conformance, for expressions that do not use `in` *)
Theorem C15_strict_sound_in_free : forall sch tv e, schema_wf sch -> tenv_wf sch tv -> in_free_small e = true -> sound_at sch true tv e.
Proof. exact typeof_sound_strict_in_free. Qed.

(* the checker only produces well-formed types *)
Theorem C15_types_well_formed : forall sch tv e, schema_wf sch -> tenv_wf sch tv -> keys_small e = true ->
  forall caps t caps', typeof true sch tv e caps = TOk t caps' -> WT t.
Proof. exact typeof_strict_WT. Qed.

(* permissive mode: an accepted expression that fails with a type error on a conforming environment (F29) *)
Theorem C15_permissive_refuted : exists sch tv e t caps en,
  typeof false sch tv e [] = TOk t caps /\ env_ok sch tv en /\ (exists k, eval en e = Err k /\ allowed_error k = false).
Proof. exact permissive_unsound. Qed.

(* conformance of action entities cannot be dropped: a store that Validator.Entity rejects (an action with a parent its schema does
   not declare) makes an accepted expression fail with a type error *)
Definition C15_strict_needs_action_conformance := strict_needs_action_conformance.

(* ---- the conformance checkers (Impl/Conform.v) ---- *)
(* a value the checker accepts at a declared type inhabits that type - and conversely: check_value decides vtyped exactly.
   decl_ty: the types a resolved schema can declare (one entity name, a known extension name); vnodup: records have distinct keys (every Go
   record does); WT: record TYPES have distinct keys *)
Theorem C15_check_value_exact : forall t v, decl_ty t -> WT t -> vnodup v -> (check_value t v = true <-> vtyped v t).
Proof. exact check_value_iff. Qed.

(* a store Validator.Entities accepts conforms: every entity of a declared type has declared, well-typed attributes and tags and parents
   of declared parent types; enumerated entities are bare; action entities are declared and their parents lie in the closure of their
   declared groups; no entity of an unknown type *)
Theorem C15_check_entities_sound : forall sch enums, schema_decl sch -> agraph_wf sch -> enums_ok sch enums ->
  forall st, store_vals_ok st -> check_entities sch enums st = true ->
  store_ok sch st /\ actions_conform sch st /\ store_types_known sch st.
Proof. exact check_entities_sound. Qed.

(* action entities exactly: declared, bare, and their parents are EXACTLY the transitive closure of their declared groups (the walk that
   computes the closure runs on fuel in the model; the fuel always suffices: action_closure_exact0) *)
Theorem C15_check_action_entity_exact : forall sch, agraph_wf sch -> forall u e, check_action_entity sch (u, e) = true <->
  (umem u (ts_actions sch) = true /\ e_attrs e = [] /\ e_tags e = [] /\ (forall p, In p (e_parents e) <-> aclosure sch u p)).
Proof. exact check_action_entity_exact. Qed.

(* a request Validator.Request accepts lives in a request environment of the schema and is typed by it *)
Theorem C15_check_request_sound : forall sch acts, acts_decl acts -> forall p a r ctx, vnodup (VRecord ctx) ->
  check_request sch acts p a r ctx = true ->
  let tv := {| tv_principal := fst p; tv_action := a; tv_resource := fst r; tv_context := ctx_of acts a |} in
  request_env sch acts tv /\ vtyped (VEntity (fst p) (snd p)) (CEnt [fst p]) /\ vtyped (VEntity (fst r) (snd r)) (CEnt [fst r]) /\
  vtyped (VRecord ctx) (CRec (tv_context tv)).
Proof. exact check_request_sound. Qed.

(* END TO END: the policy is accepted by Validator.Policy (strict), the store by Validator.Entities, the request by Validator.Request
   => evaluating the policy as the authorizer does yields a Boolean or one of the three allowed errors.
   Remaining hypotheses: the schema is well formed (schema_wf, agraph_wf, acts_wf, schema_decl, acts_decl, enums_ok: facts about the RESOLVED
   schema, which resolution establishes), attribute names are shorter than 10^39 bytes (model artifact), values are canonical (wf_value:
   every Go value is). *)
Theorem C15_end_to_end : forall sch enums acts pol st p a r ctx,
  schema_wf sch -> agraph_wf sch -> acts_wf sch acts -> schema_decl sch -> acts_decl acts -> enums_ok sch enums ->
  policy_keys_small pol = true -> store_vals_wf st -> wf_value (VRecord ctx) = true ->
  validate_policy true sch acts pol = true -> check_entities sch enums st = true -> check_request sch acts p a r ctx = true ->
  match eval {| e_store := st; e_principal := VEntity (fst p) (snd p); e_action := VEntity (fst a) (snd a);
                e_resource := VEntity (fst r) (snd r); e_context := VRecord ctx |} (policy_to_expr pol) with
  | Ok v => exists b, v = VBool b
  | Err k => allowed_error k = true
  end.
Proof. exact validated_and_conforming_never_type_errors_wf. Qed.

(* the hypotheses are satisfiable together: a concrete schema, store and request (the example at the end of Proofs/ConformProofs.v) *)
Definition C15_end_to_end_nonvacuous := ex_never_type_errors.


(* TRANSLATED TABLE: the signatures the soundness theorems are about are the ones the code declares.  Generated/Tables.tc_ext_table is
   read off x/exp/schema/validate/ext_funcs.go by the translator on every run; for EVERY function name the model's ext_sig answers what
   a lookup in that table answers, and the typechecker and the evaluator (internal/extensions) declare the same functions with the
   same arities (Proofs/ExtSigTable.v). *)
Theorem C15_ext_signatures_are_the_codes : forall name, ext_sig name = table_sig tc_ext_table name.
Proof. exact ext_sig_is_generated_table. Qed.

Theorem C15_ext_functions_same_as_evaluator :
  map (fun e => (fst e, (Z.of_nat (List.length (snd (fst (snd e)))), negb (fst (fst (snd e)))))) tc_ext_table = ext_table.
Proof. exact typechecker_and_evaluator_agree_on_functions. Qed.

Print Assumptions C15_ext_signatures_are_the_codes.
Print Assumptions C15_ext_functions_same_as_evaluator.
Print Assumptions C15_check_value_exact.
Print Assumptions C15_check_entities_sound.
Print Assumptions C15_check_action_entity_exact.
Print Assumptions C15_check_request_sound.
Print Assumptions C15_end_to_end.
Print Assumptions C15_end_to_end_nonvacuous.
Print Assumptions C15_policy_sound.
Print Assumptions C15_strict_sound.
Print Assumptions C15_strict_sound_in_free.
Print Assumptions C15_types_well_formed.
Print Assumptions C15_permissive_refuted.
Print Assumptions C15_strict_needs_action_conformance.
